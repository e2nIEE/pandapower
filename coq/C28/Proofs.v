(* C28 — one-bus elimination: the Schur-complement row operation keeps the nodal equation of a kept bus *)
From Coq Require Import QArith List Lia.
From PPV Require Import Base.QC C28.Model.
Import ListNotations.
Open Scope Q_scope.

Global Instance Cdiv_proper : Proper (Ceq ==> Ceq ==> Ceq) Cdiv.
Proof. exact QC.Cdiv_proper. Qed.

Lemma rowdot_nil_l : forall v, rowdot [] v = C0. Proof. reflexivity. Qed.
Lemma rowdot_cons : forall a r b v, rowdot (a :: r) (b :: v) = Cadd (Cmul a b) (rowdot r v).
Proof. reflexivity. Qed.

Lemma rowdot_elim_row : forall rb re_ vb k,
  length rb = length re_ -> length rb = length vb ->
  rowdot (map (fun p => Csub (fst p) (Cmul k (snd p))) (combine rb re_)) vb ==c
  Csub (rowdot rb vb) (Cmul k (rowdot re_ vb)).
Proof.
  induction rb as [|a rb IH]; intros re_ vb k L1 L2.
  - destruct re_; [|discriminate]. cbn. ring.
  - destruct re_ as [|b re_]; [discriminate|]. destruct vb as [|v vb]; [discriminate|].
    cbn [combine map fst snd]. rewrite !rowdot_cons. rewrite IH by (cbn in *; lia).
    ring.
Qed.

Lemma schur_algebra : forall A B yie yee ve ii ie,
  ~ yee ==c C0 ->
  Cadd A (Cmul yie ve) ==c ii -> Cadd B (Cmul yee ve) ==c ie ->
  Csub A (Cmul (Cdiv yie yee) B) ==c Csub ii (Cmul (Cdiv yie yee) ie).
Proof.
  intros A B yie yee ve ii ie Hn <- <-. field. exact Hn.
Qed.

(* eliminating the last bus keeps the equations of every other bus, with the eliminated bus' current transferred *)
Lemma kron_one_row : forall rb yie re_ yee vb ve ii ie,
  ~ yee ==c C0 ->
  length rb = length re_ -> length rb = length vb ->
  Cadd (rowdot rb vb) (Cmul yie ve) ==c ii ->          (* row i of the original system *)
  Cadd (rowdot re_ vb) (Cmul yee ve) ==c ie ->         (* row of the eliminated bus *)
  rowdot (elim_row rb yie re_ yee) vb ==c Csub ii (Cmul (Cdiv yie yee) ie).
Proof.
  intros rb yie re_ yee vb ve ii ie Hn L1 L2 H1 H2. unfold elim_row.
  rewrite rowdot_elim_row by assumption. apply (schur_algebra _ _ yie yee ve); assumption.
Qed.
