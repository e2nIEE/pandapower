(* C28 — the list-of-rows matrix operations of the block formula  Ybb - Ybe * Z * Yeb  applied to a vector:
   (A*B)*v = A*(B*v), linearity of A*v, (A - B)*v.  Matrices are lists of rows; mvec A v = A*v. *)
From Coq Require Import QArith List Lia.
From PPV Require Import Base.QC C28.Model C28.Proofs C28.Coupling.
Import ListNotations.
Open Scope Q_scope.

Definition mvec (A : M) (v : list C) : list C := map (fun r => rowdot r v) A.
Definition vzip (f : C -> C -> C) (a b : list C) : list C := map (fun p => f (fst p) (snd p)) (combine a b).

Lemma rowdot_nil_r : forall r, rowdot r [] = C0.
Proof. intros r. unfold rowdot. rewrite combine_nil. reflexivity. Qed.

Lemma rowdot_snoc : forall X V x y, length X = length V ->
  rowdot (X ++ [x]) (V ++ [y]) ==c Cadd (rowdot X V) (Cmul x y).
Proof.
  induction X as [|a X IH]; intros V x y L; destruct V as [|b V]; try discriminate.
  - cbn [app]. rewrite rowdot_cons, rowdot_nil_l. ring.
  - cbn [app]. rewrite !rowdot_cons. rewrite IH by (cbn in L; lia). ring.
Qed.

Lemma rowdot_proper_r : forall r v v', Veq v v' -> rowdot r v ==c rowdot r v'.
Proof.
  intros r v v' H. revert r. induction H as [|a b v v' Hab H IH]; intros r; [reflexivity|].
  destruct r as [|x r]; [reflexivity|]. rewrite !rowdot_cons. rewrite Hab, (IH r). reflexivity.
Qed.

(* rowdot ra (f_j + g_j * c)_j = rowdot ra f + (rowdot ra g) * c *)
Lemma rowdot_affine : forall {A} (ra : list C) (B : list A) (f g : A -> C) c,
  rowdot ra (map (fun x => Cadd (f x) (Cmul (g x) c)) B) ==c Cadd (rowdot ra (map f B)) (Cmul (rowdot ra (map g B)) c).
Proof.
  intros A ra B f g c. revert ra. induction B as [|b B IH]; intros ra.
  - cbn [map]. rewrite !rowdot_nil_r. ring.
  - destruct ra as [|a ra]; [cbn [map]; rewrite !rowdot_nil_l; ring|].
    cbn [map]. rewrite !rowdot_cons. rewrite IH. ring.
Qed.
Lemma rowdot_zero : forall {A} (ra : list C) (B : list A), rowdot ra (map (fun _ => C0) B) ==c C0.
Proof.
  intros A ra B. revert ra. induction B as [|b B IH]; intros ra; [cbn [map]; rewrite rowdot_nil_r; reflexivity|].
  destruct ra as [|a ra]; [reflexivity|]. cbn [map]. rewrite rowdot_cons, IH. ring.
Qed.
Lemma rowdot_ext : forall {A} (ra : list C) (B : list A) (f g : A -> C),
  (forall x, In x B -> f x ==c g x) -> rowdot ra (map f B) ==c rowdot ra (map g B).
Proof.
  intros A ra B f g H. apply rowdot_proper_r. induction B as [|b B IH]; cbn [map]; constructor.
  - apply H. left. reflexivity.
  - apply IH. intros x I. apply H. right. exact I.
Qed.
Lemma rowdot_opp_r : forall r v, rowdot r (map Copp v) ==c Copp (rowdot r v).
Proof.
  induction r as [|a r IH]; intros v; [rewrite !rowdot_nil_l; ring|].
  destruct v as [|b v]; [cbn [map]; rewrite !rowdot_nil_r; ring|].
  cbn [map]. rewrite !rowdot_cons, IH. ring.
Qed.

Lemma firstn_S_snoc : forall {A} (l : list A) m d, (m < length l)%nat -> firstn (S m) l = firstn m l ++ [nth m l d].
Proof.
  induction l as [|a l IH]; intros m d H; [cbn in H; lia|].
  destruct m as [|m]; [reflexivity|]. cbn [firstn nth app]. f_equal. apply IH. cbn in H. lia.
Qed.
Lemma transpose_n_length : forall n Y, length (transpose_n n Y) = n.
Proof. induction n; intros; cbn [transpose_n]; [reflexivity | rewrite app_length, IHn; cbn; lia]. Qed.

(* (A*B)*v = A*(B*v) *)
Lemma mmul_row_vec_aux : forall m ra (B : M) v,
  (forall r, In r B -> (m <= length r)%nat) -> (m <= length v)%nat ->
  rowdot (map (fun cb => rowdot ra cb) (transpose_n m B)) (firstn m v) ==c
  rowdot ra (map (fun row => rowdot (firstn m row) (firstn m v)) B).
Proof.
  induction m as [|m IH]; intros ra B v HB Hv.
  - cbn [transpose_n map firstn]. rewrite rowdot_nil_l.
    symmetry. exact (rowdot_zero ra B).
  - cbn [transpose_n]. rewrite map_app. cbn [map].
    rewrite (firstn_S_snoc v m C0) by lia.
    rewrite rowdot_snoc by (rewrite map_length, transpose_n_length, firstn_length; lia).
    rewrite IH by (try (intros r I; specialize (HB r I)); lia).
    rewrite (rowdot_ext ra B (fun row => rowdot (firstn (S m) row) (firstn m v ++ [nth m v C0]))
               (fun row => Cadd (rowdot (firstn m row) (firstn m v)) (Cmul (nth m row C0) (nth m v C0)))).
    + rewrite rowdot_affine. reflexivity.
    + intros row I. rewrite (firstn_S_snoc row m C0) by (specialize (HB row I); lia).
      apply rowdot_snoc. rewrite !firstn_length. specialize (HB row I). lia.
Qed.

Lemma mmul_vec : forall A B n v, (forall r, In r B -> length r = n) -> length v = n ->
  Veq (mvec (mmul A B n) v) (mvec A (mvec B v)).
Proof.
  intros A B n v HB Hv. subst n. unfold mvec, mmul. cbv zeta. rewrite map_map.
  induction A as [|ra A IH]; cbn [map]; constructor; [| exact IH].
  pose proof (mmul_row_vec_aux (length v) ra B v) as H.
  rewrite firstn_all in H.
  etransitivity; [apply H; [intros r I; rewrite (HB r I); lia | lia]|].
  apply rowdot_ext. intros row I.
  replace (firstn (length v) row) with row by (rewrite <- (HB row I); symmetry; apply firstn_all).
  reflexivity.
Qed.

Global Instance mvec_proper_r : forall A, Proper (Veq ==> Veq) (mvec A).
Proof. intros A v v' H. unfold mvec. induction A; cbn [map]; constructor; [apply rowdot_proper_r; exact H | assumption]. Qed.
Lemma mvec_opp : forall A v, Veq (mvec A (map Copp v)) (map Copp (mvec A v)).
Proof. intros A v. unfold mvec. induction A; cbn [map]; constructor; [apply rowdot_opp_r | assumption]. Qed.
Global Instance map_opp_proper : Proper (Veq ==> Veq) (map Copp).
Proof. intros a b H. induction H; cbn [map]; constructor; [rewrite H; reflexivity | assumption]. Qed.
Lemma Veq_length : forall a b, Veq a b -> length a = length b.
Proof. intros a b H. induction H; cbn; congruence. Qed.

Lemma rowdot_sub_l : forall r s v, length r = length s ->
  rowdot (map (fun q => Csub (fst q) (snd q)) (combine r s)) v ==c Csub (rowdot r v) (rowdot s v).
Proof.
  induction r as [|a r IH]; intros s v L; destruct s as [|b s]; try discriminate.
  - cbn. ring.
  - destruct v as [|y v]; [cbn [combine map]; rewrite !rowdot_nil_r; ring|].
    cbn [combine map fst snd]. rewrite !rowdot_cons. rewrite IH by (cbn in L; lia). ring.
Qed.
Lemma mvec_msub : forall A B v, Forall2 (fun r s => length r = length s) A B ->
  Veq (mvec (msub A B) v) (vzip Csub (mvec A v) (mvec B v)).
Proof.
  intros A B v H. unfold mvec, msub, vzip. induction H as [|r s A B L H IH]; cbn [combine map]; constructor; [| exact IH].
  cbn [fst snd]. apply rowdot_sub_l. exact L.
Qed.
Lemma vzip_sub_opp : forall a b b', Veq b (map Copp b') -> Veq (vzip Csub a b) (vzip Cadd a b').
Proof.
  intros a b b' H. unfold vzip. revert a b H. induction b' as [|y b' IH]; intros a b H.
  - inversion H; subst. rewrite !combine_nil. constructor.
  - inversion H as [|x ? b0 ? Hx Hb]; subst. destruct a as [|u a]; [constructor|].
    cbn [combine map fst snd]. constructor; [| apply IH; exact Hb].
    rewrite Hx. ring.
Qed.

Lemma mmul_rows : forall A B n, length (mmul A B n) = length A.
Proof. intros. unfold mmul. cbv zeta. apply map_length. Qed.
Lemma mmul_cols : forall A B n r, In r (mmul A B n) -> length r = n.
Proof.
  intros A B n r I. unfold mmul in I. cbv zeta in I. apply in_map_iff in I. destruct I as (ra & <- & _).
  rewrite map_length. apply transpose_n_length.
Qed.
Lemma same_shape : forall n (A B : M), length A = length B ->
  (forall r, In r A -> length r = n) -> (forall r, In r B -> length r = n) ->
  Forall2 (fun r s : list C => length r = length s) A B.
Proof.
  intros n A. induction A as [|r A IH]; intros [|s B] L HA HB; try discriminate; constructor.
  - rewrite (HA r (or_introl eq_refl)), (HB s (or_introl eq_refl)). reflexivity.
  - apply IH; [cbn in L; lia | intros; apply HA; right; assumption | intros; apply HB; right; assumption].
Qed.

(* non-vacuity: one boundary and one external bus *)
Example block_formula_nonvacuous :
  let Ybb := [[mkC 2 (-1)]] in let Ybe := [[mkC (-1) 1]] in let Yeb := [[mkC (-1) 1]] in let Yee := [[mkC 4 (-2)]] in
  let Z := [[Cinv (mkC 4 (-2))]] in let vb := [mkC 1 0] in let ve := [Cmul (Cinv (mkC 4 (-2))) (mkC 1 (-1))] in
  Veq (mvec Z (mvec Yee ve)) ve /\ Veq (mvec Yeb vb) (map Copp (mvec Yee ve)).
Proof. vm_compute. split; repeat constructor. Qed.
