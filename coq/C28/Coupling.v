(* C28 — entry-wise equality of vectors and matrices, and the operations of the block formula as morphisms for it: what
   is needed to compare the implementation's block formula (Ybus_be := Ybus_eb.T, rei_generation.py) with the formula
   that uses the true coupling block, under the guard G28. *)
From Coq Require Import QArith List.
From PPV Require Import Base.QN Base.QC C28.Model C28.Proofs.
Import ListNotations.
Open Scope Q_scope.

Definition Veq : list C -> list C -> Prop := Forall2 Ceq.
Definition Meq : M -> M -> Prop := Forall2 Veq.

Lemma Forall2_equiv : forall {A} (R : relation A), Equivalence R -> Equivalence (Forall2 R).
Proof.
  intros A R E. split.
  - intros l. induction l; constructor; [reflexivity | assumption].
  - intros l l' H. induction H; constructor; [symmetry; assumption | assumption].
  - intros l1 l2 l3 H. revert l3. induction H as [|x y l1 l2 Hxy H IH]; intros l3 H3; inversion H3; subst; constructor.
    + etransitivity; eassumption.
    + apply IH. assumption.
Qed.
Global Instance Veq_equiv : Equivalence Veq := Forall2_equiv Ceq _.
Global Instance Meq_equiv : Equivalence Meq := Forall2_equiv Veq _.

Lemma Ceqb_list_ok : forall a b, Ceqb_list a b = true -> Veq a b.
Proof.
  induction a as [|x a IH]; intros [|y b] H; try discriminate; [constructor|].
  cbn [Ceqb_list] in H. apply andb_true_iff in H. destruct H as [H H3]. apply andb_true_iff in H. destruct H as [H1 H2].
  constructor; [split; apply qeqb_eq; assumption | apply IH; exact H3].
Qed.
Lemma Meqb_ok : forall A B, Meqb A B = true -> Meq A B.
Proof.
  induction A as [|r A IH]; intros [|s B] H; try discriminate; [constructor|].
  cbn [Meqb] in H. apply andb_true_iff in H. destruct H as [H1 H2].
  constructor; [apply Ceqb_list_ok; exact H1 | apply IH; exact H2].
Qed.

Lemma rowdot_proper_l : forall r r' v, Veq r r' -> rowdot r v ==c rowdot r' v.
Proof.
  intros r r' v H. revert v. induction H as [|a b r r' Hab H IH]; intros v; [reflexivity|].
  destruct v as [|y v]; [reflexivity|]. rewrite !rowdot_cons. rewrite Hab, (IH v). reflexivity.
Qed.

Lemma mmul_proper_l : forall A A' B n, Meq A A' -> Meq (mmul A B n) (mmul A' B n).
Proof.
  intros A A' B n H. unfold mmul. set (Bt := transpose_n n B). clearbody Bt.
  induction H as [|r r' A A' Hr H IH]; cbn [map]; constructor; [| exact IH].
  clear -Hr. induction Bt as [|c Bt IHc]; cbn [map]; constructor; [apply rowdot_proper_l; exact Hr | exact IHc].
Qed.

Lemma msub_proper_r : forall A B B', Meq B B' -> Meq (msub A B) (msub A B').
Proof.
  intros A B B' H. unfold msub. revert A. induction H as [|r r' B B' Hr H IH]; intros [|a A]; cbn [combine map]; try constructor.
  - cbn [fst snd]. clear -Hr. revert a. induction Hr as [|x y r r' Hxy Hr IHr]; intros [|u a]; cbn [combine map]; constructor.
    + cbn [fst snd]. rewrite Hxy. reflexivity.
    + apply IHr.
  - apply IH.
Qed.

Lemma assemble_proper : forall (X : M) ni B B', Meq B B' ->
  Meq (map (fun p : list C * list C => firstn ni (fst p) ++ snd p) (combine X B))
      (map (fun p : list C * list C => firstn ni (fst p) ++ snd p) (combine X B')).
Proof.
  intros X ni B B' H. revert X. induction H as [|r r' B B' Hr H IH]; intros [|x X]; cbn [combine map]; constructor.
  - cbn [fst snd]. apply Forall2_app; [reflexivity | exact Hr].
  - apply IH.
Qed.

(* without the guard the two differ (a phase-shifting coupling: y_be = -1, y_eb = -3) *)
Definition wit_Ys : M := [[mkC 2 0; mkC (-1) 0]; [mkC (-3) 0; mkC 4 0]].
(* the guard is satisfiable with a non-trivial coupling *)
Definition sym_Ys : M := [[mkC 2 (-1); mkC (-1) 1]; [mkC (-1) 1; mkC 4 (-3)]].
