(* C28 — one step of [Model.kron_exact] (the executable elimination that the correspondence run compares with the observed
   Ybus_eq) on a whole system Y*v == I: the reduced matrix applied to the kept voltages gives the kept currents with the
   eliminated bus' current transferred.  The k-step statements are obtained from it by induction over the elimination
   order, with the pivots <> 0 hypothesis explicit ([pivots_ok]). *)
From Coq Require Import QArith List Lia.
From PPV Require Import Base.QN Base.QC C28.Model C28.Proofs.
Import ListNotations.
Open Scope Q_scope.

Lemma removelast_len : forall {A} (l : list A), length (removelast l) = (length l - 1)%nat.
Proof.
  induction l as [|a l IH]; [reflexivity|]. destruct l as [|b l]; [reflexivity|].
  change (removelast (a :: b :: l)) with (a :: removelast (b :: l)). cbn [length] in *. rewrite IH. lia.
Qed.
Lemma in_removelast : forall {A} (l : list A) x, In x (removelast l) -> In x l.
Proof.
  induction l as [|a l IH]; intros x H; [contradiction|]. destruct l as [|b l]; [contradiction|].
  change (removelast (a :: b :: l)) with (a :: removelast (b :: l)) in H.
  destruct H as [<-|H]; [left; reflexivity | right; apply IH; exact H].
Qed.
Lemma last_in : forall {A} (l : list A) d, l <> [] -> In (last l d) l.
Proof.
  induction l as [|a l IH]; intros d H; [congruence|]. destruct l as [|b l]; [left; reflexivity|].
  right. apply IH. discriminate.
Qed.
Lemma Forall2_removelast : forall {A B} (P : A -> B -> Prop) l1 l2,
  Forall2 P l1 l2 -> Forall2 P (removelast l1) (removelast l2).
Proof.
  intros A B P l1 l2 H. induction H as [|a b l1 l2 Hab H IH]; [constructor|].
  destruct H as [|a' b' l1 l2 Hab' H]; [constructor|].
  change (Forall2 P (a :: removelast (a' :: l1)) (b :: removelast (b' :: l2))). constructor; assumption.
Qed.
Lemma Forall2_last : forall {A B} (P : A -> B -> Prop) l1 l2 d1 d2,
  Forall2 P l1 l2 -> l1 <> [] -> P (last l1 d1) (last l2 d2).
Proof.
  intros A B P l1 l2 d1 d2 H. induction H as [|a b l1 l2 Hab H IH]; intros N; [congruence|].
  destruct H as [|a' b' l1 l2 Hab' H]; [exact Hab|].
  change (P (last (a' :: l1) d1) (last (b' :: l2) d2)). apply IH. discriminate.
Qed.
Lemma Forall2_map_combine : forall {A B C' D} (P : A -> B -> Prop) (Q' : C' -> D -> Prop) (f : A -> C') (g : A * B -> D) l1 l2,
  Forall2 P l1 l2 -> (forall a b, In a l1 -> P a b -> Q' (f a) (g (a, b))) ->
  Forall2 Q' (map f l1) (map g (combine l1 l2)).
Proof.
  intros A B C' D P Q' f g l1 l2 H. induction H as [|a b l1 l2 Hab H IH]; intros HQ; [constructor|].
  cbn [map combine]. constructor.
  - apply HQ; [left; reflexivity | exact Hab].
  - apply IH. intros a' b' I. apply HQ. right. exact I.
Qed.

Lemma rowdot_split_last : forall a v, length a = length v -> a <> [] ->
  rowdot a v ==c Cadd (rowdot (removelast a) (removelast v)) (Cmul (last a C0) (last v C0)).
Proof.
  induction a as [|x a IH]; intros v L N; [congruence|].
  destruct v as [|y v]; [discriminate|].
  destruct a as [|x' a].
  - destruct v; [|discriminate]. cbn [removelast last]. rewrite rowdot_cons, !rowdot_nil_l. ring.
  - destruct v as [|y' v]; [discriminate|].
    change (removelast (x :: x' :: a)) with (x :: removelast (x' :: a)).
    change (removelast (y :: y' :: v)) with (y :: removelast (y' :: v)).
    change (last (x :: x' :: a) C0) with (last (x' :: a) C0).
    change (last (y :: y' :: v) C0) with (last (y' :: v) C0).
    rewrite !rowdot_cons. rewrite (IH (y' :: v)); [| cbn in *; lia | discriminate].
    ring.
Qed.

Definition nonzero (y : C) : Prop := ~ re y * re y + im y * im y == 0.
Lemma nonzero_Cnz : forall y, nonzero y <-> ~ y ==c C0.
Proof. intros y. symmetry. apply Cnz_norm. Qed.
(* the diagonal entries met by the successive eliminations are non-zero *)
Fixpoint pivots_ok (k : nat) (Y : M) : Prop :=
  match k with O => True | S k' => nonzero (pivot Y) /\ pivots_ok k' (elim_last Y) end.
(* currents of the kept buses after eliminating the last bus: I_i - y_ie / y_ee * I_e *)
Definition elim_cur (Y : M) (I : list C) : list C :=
  map (fun p => Csub (snd p) (Cmul (Cdiv (last (fst p) C0) (pivot Y)) (last I C0))) (combine (removelast Y) (removelast I)).
Fixpoint kron_cur (k : nat) (Y : M) (I : list C) : list C :=
  match k with O => I | S k' => kron_cur k' (elim_last Y) (elim_cur Y I) end.

Definition square (n : nat) (Y : M) : Prop := length Y = n /\ forall r, In r Y -> length r = n.
(* Y * v == I, row by row *)
Definition system (Y : M) (v I : list C) : Prop := Forall2 (fun r i => rowdot r v ==c i) Y I.

Lemma elim_last_unfold : forall Y,
  elim_last Y = map (fun row => elim_row (removelast row) (last row C0) (removelast (last Y [])) (pivot Y)) (removelast Y).
Proof. intros. unfold elim_last, split_last, pivot. reflexivity. Qed.

Lemma elim_last_square : forall m Y, square (S m) Y -> square m (elim_last Y).
Proof.
  intros m Y [L R]. rewrite elim_last_unfold. split.
  - rewrite map_length, removelast_len, L. lia.
  - intros r I. apply in_map_iff in I. destruct I as (row & <- & I).
    unfold elim_row. rewrite map_length, combine_length, !removelast_len.
    rewrite (R row (in_removelast _ _ I)).
    rewrite (R (last Y [])) by (apply last_in; intro E; rewrite E in L; discriminate).
    lia.
Qed.

Lemma elim_last_sound : forall m Y v I,
  square (S m) Y -> length v = S m -> nonzero (pivot Y) ->
  system Y v I -> system (elim_last Y) (removelast v) (elim_cur Y I).
Proof.
  intros m Y v I [L R] Lv Hp HS. unfold system in *. rewrite elim_last_unfold. unfold elim_cur.
  assert (NY : Y <> []) by (intro E; rewrite E in L; discriminate).
  pose proof (Forall2_last _ Y I [] C0 HS NY) as He. cbn beta in He.
  assert (Lre : length (last Y []) = S m) by (apply R, last_in, NY).
  assert (Hre : Cadd (rowdot (removelast (last Y [])) (removelast v)) (Cmul (pivot Y) (last v C0)) ==c last I C0).
  { rewrite <- He. symmetry. apply rowdot_split_last; [lia | intro E; rewrite E in Lre; discriminate]. }
  apply (Forall2_map_combine (fun r i => rowdot r v ==c i)); [apply Forall2_removelast; exact HS|].
  intros a b Ia Hab. cbn [fst snd].
  assert (La : length a = S m) by (apply R, in_removelast, Ia).
  apply (kron_one_row _ _ _ _ _ (last v C0)).
  - apply nonzero_Cnz. exact Hp.
  - rewrite !removelast_len. lia.
  - rewrite !removelast_len. lia.
  - rewrite <- Hab. symmetry. apply rowdot_split_last; [lia | intro E; rewrite E in La; discriminate].
  - exact Hre.
Qed.

Definition all_zero (l : list C) : Prop := Forall (fun c => c ==c C0) l.

Lemma elim_cur_zero : forall Y I, length (removelast Y) = length (removelast I) -> last I C0 ==c C0 ->
  Forall2 Ceq (elim_cur Y I) (removelast I).
Proof.
  intros Y I L Hz. unfold elim_cur. set (p := pivot Y). clearbody p.
  revert L. generalize (removelast I) as J. generalize (removelast Y) as X.
  induction X as [|x X IH]; intros J L; destruct J as [|j J]; try discriminate; [constructor|].
  cbn [combine map fst snd]. constructor; [| apply IH; cbn in L; lia].
  rewrite Hz. ring.
Qed.

Lemma system_proper_I : forall Y v I J, system Y v I -> Forall2 Ceq I J -> system Y v J.
Proof.
  intros Y v I J H. revert J. induction H as [|r i Y I Hri H IH]; intros J HJ; inversion HJ; subst; constructor.
  - etransitivity; eassumption.
  - apply IH. assumption.
Qed.
Lemma system_length : forall Y v I, system Y v I -> length Y = length I.
Proof. intros Y v I H. induction H; cbn; congruence. Qed.

(* last k entries zero, as a predicate that peels from the end *)
Fixpoint tail_zero (k : nat) (I : list C) : Prop :=
  match k with O => True | S k' => last I C0 ==c C0 /\ tail_zero k' (removelast I) end.

(* boolean pivot test for the correspondence run *)
Lemma pivots_okb_ok : forall k Y, pivots_okb k Y = true -> pivots_ok k Y.
Proof.
  induction k as [|k IH]; intros Y H; [exact I|]. cbn [pivots_okb] in H. apply andb_true_iff in H. destruct H as [H1 H2].
  split; [| apply IH; exact H2].
  unfold nonzerob in H1. apply negb_true_iff in H1. intro E. assert (qeqb (cnorm2 (pivot Y)) 0 = true); [| congruence].
  apply qeqb_eq. unfold cnorm2. qstrip. exact E.
Qed.

(* non-vacuity: a 4-bus ring, two buses eliminated *)
Definition ex_Y : M :=
  [[mkC 3 (-6); mkC (-1) 2; mkC 0 0; mkC (-2) 4];
   [mkC (-1) 2; mkC 2 (-5); mkC (-1) 3; mkC 0 0];
   [mkC 0 0; mkC (-1) 3; mkC 3 (-7); mkC (-2) 4];
   [mkC (-2) 4; mkC 0 0; mkC (-2) 4; mkC 4 (-8)]].
Lemma ex_Y_square : square (2 + 2) ex_Y.
Proof. split; [reflexivity|]. intros r H. cbn in H. repeat (destruct H as [<-|H]; [reflexivity|]). contradiction. Qed.
Lemma ex_Y_pivots : pivots_ok 2 ex_Y.
Proof. apply pivots_okb_ok. vm_compute. reflexivity. Qed.
