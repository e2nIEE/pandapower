(* C33 — VDE AR-N-4130 areas (PQVArea4130V1-V3): the QV limits are numpy.interp over the tabulated (vm, q) points, i.e. the
   piecewise-linear functions of C32.Model.interp; clamp-in-area for them. *)
From Coq Require Import QArith List Lqa.
From PPV Require Import Base.QN C33.Model C33.Proofs.
From PPV Require C32.Model C32.Proofs.
Import ListNotations.
Open Scope Q_scope.

Notation sorted := C32.Model.sorted.
Notation consec := C32.Model.consec.
Notation incr := C32.Model.incr.

(* ---- a limit curve never leaves the range of its table: every interpolated value lies between two tabulated ones, so it
   inherits every property of the tabulated values that holds between any two values having it *)
Lemma go_convex (P : Q -> Prop) (l : list C32.Model.pt) : (forall a b v, P a -> P b -> C32.Model.between a b v -> P v) ->
  forall (p : C32.Model.pt) x, incr p l -> fst p <= x -> (forall r, In r (p :: l) -> P (snd r)) -> P (C32.Model.interp_go x p l).
Proof.
  intros HP. induction l as [|q t IH]; intros p x Hi Hx Hb.
  - apply Hb. left. reflexivity.
  - destruct Hi as [H1 H2]. simpl. destruct (qltb x (fst q)) eqn:E.
    + apply qltb_lt in E. apply (HP (snd p) (snd q)); [apply Hb; simpl; auto | apply Hb; simpl; auto|].
      apply C32.Proofs.lin_between; lra.
    + apply qltb_ge in E. apply IH; [exact H2 | exact E|]. intros r Hr. apply Hb. right. exact Hr.
Qed.
Lemma interp1_convex (P : Q -> Prop) (a : C32.Model.pt) (l : list C32.Model.pt) x :
  (forall a b v, P a -> P b -> C32.Model.between a b v -> P v) ->
  sorted (a :: l) -> (forall r, In r (a :: l) -> P (snd r)) -> P (interp1 x (a :: l)).
Proof.
  intros HP Hs Hb. unfold interp1. simpl. destruct (qleb x (fst a)) eqn:E.
  - apply Hb. left. reflexivity.
  - apply go_convex; [exact HP | exact Hs | | exact Hb].
    destruct (Qlt_le_dec (fst a) x) as [L|L]; [lra|]. apply qleb_le in L. congruence.
Qed.
Lemma interp1_bounds m M (a : C32.Model.pt) (l : list C32.Model.pt) x : sorted (a :: l) -> (forall r, In r (a :: l) -> m <= snd r /\ snd r <= M) ->
  m <= interp1 x (a :: l) /\ interp1 x (a :: l) <= M.
Proof.
  apply (interp1_convex (fun v => m <= v /\ v <= M)). intros u w v [A1 A2] [B1 B2] [[C1 C2]|[C1 C2]]; split; lra.
Qed.

(* area_ok (A4130 a _ _ _) _ under a name; C33_area4130_clamp_in_area writes it out *)
Definition pq_consts_ok (a : pq4120) : Prop :=
  lf_ind a <= 0 /\ a_min_q a <= k_ind a + (p1 a - p0 a) * lf_ind a /\ k_cap a + (p1 a - p0 a) * lf_cap a <= a_max_q a.

(* whatever _saturate returns when only the area applies: p unchanged, q inside the merged flexibility; when the PQ interval and
   the two interpolated QV limits overlap, q lies inside the PQ interval AND between the two limit curves at the element's voltage *)
Theorem area4130_clamp_in_area a lo_pts hi_pts r q_prio rt p q vm p' q' :
  pq_consts_ok a ->
  saturate (A4130 a lo_pts hi_pts r) None q_prio rt p q vm = Res p' q' ->
  p' = p /\
  exists lo hi, merge r (pq4120_flex a p) (qv4130_flex lo_pts hi_pts vm) = Some (lo, hi) /\ lo <= q' /\ q' <= hi /\
    (qmax (fst (pq4120_flex a p)) (interp1 vm lo_pts) <= qmin (snd (pq4120_flex a p)) (interp1 vm hi_pts) ->
     fst (pq4120_flex a p) <= q' /\ q' <= snd (pq4120_flex a p) /\ interp1 vm lo_pts <= q' /\ q' <= interp1 vm hi_pts).
Proof.
  intros Hok H.
  destruct (area_result_in_flex (A4130 a lo_pts hi_pts r) q_prio rt p q vm p' q') as (Hp & lo & hi & F & L1 & L2);
    [discriminate | exact Hok | exact H|].
  split; [exact Hp|]. exists lo, hi. cbn [area_flex] in F. split; [exact F|]. split; [exact L1|]. split; [exact L2|].
  intros Ov. destruct (merge_spec _ _ _ _ _ F) as [_ M]. specialize (M Ov). destruct M as [-> ->].
  cbn [qv4130_flex fst snd] in *.
  destruct (qmax_cases (fst (pq4120_flex a p)) (interp1 vm lo_pts)) as [[A1 A2]|[A1 A2]]; rewrite A2 in L1;
  destruct (qmin_cases (snd (pq4120_flex a p)) (interp1 vm hi_pts)) as [[B1 B2]|[B1 B2]]; rewrite B2 in L2;
  repeat split; lra.
Qed.

(* when the PQ interval and the interpolated limits overlap, a returned q stays within the range of values of the two
   limit tables *)
Theorem area4130_q_within_table_range a lo_pts hi_pts r q_prio rt p q vm p' q' m M b0 bl c0 cl :
  pq_consts_ok a -> lo_pts = b0 :: bl -> hi_pts = c0 :: cl -> sorted lo_pts -> sorted hi_pts ->
  (forall x, In x lo_pts -> m <= snd x) -> (forall x, In x hi_pts -> snd x <= M) ->
  qmax (fst (pq4120_flex a p)) (interp1 vm lo_pts) <= qmin (snd (pq4120_flex a p)) (interp1 vm hi_pts) ->
  saturate (A4130 a lo_pts hi_pts r) None q_prio rt p q vm = Res p' q' ->
  m <= q' /\ q' <= M.
Proof.
  intros Hok -> -> S1 S2 Hm HM Ov H.
  destruct (area4130_clamp_in_area _ _ _ _ _ _ _ _ _ _ _ Hok H) as (_ & lo & hi & _ & _ & _ & K).
  destruct (K Ov) as (_ & _ & K3 & K4).
  assert (B1 : m <= interp1 vm (b0 :: bl)).
  { apply (interp1_convex (fun v => m <= v)); [|exact S1 | exact Hm]. intros u w v A B [[C1 C2]|[C1 C2]]; lra. }
  assert (B2 : interp1 vm (c0 :: cl) <= M).
  { apply (interp1_convex (fun v => v <= M)); [|exact S2 | exact HM]. intros u w v A B [[C1 C2]|[C1 C2]]; lra. }
  split; lra.
Qed.
