(* C33 — clamping into an interval and into the flexibility of an area, the Sn disc under saturation, scaling and
   the damped step *)
From Coq Require Import QArith List Lqa.
From PPV Require Import Base.QN C33.Model.
Import ListNotations.
Open Scope Q_scope.

(* np.minimum(np.maximum(q, lo), hi) lies in [lo, hi] whenever lo <= hi *)
Lemma clamp_in x lo hi : lo <= hi -> lo <= clamp x lo hi <= hi.
Proof.
  intros H. unfold clamp.
  destruct (qmax_cases x lo) as [[A EA]|[A EA]]; rewrite EA;
    [destruct (qmin_cases lo hi) as [[B EB]|[B EB]] | destruct (qmin_cases x hi) as [[B EB]|[B EB]]]; rewrite EB; split; lra.
Qed.
Lemma clamp_id x lo hi : lo <= x -> x <= hi -> clamp x lo hi = x.
Proof.
  intros H1 H2. unfold clamp.
  destruct (qmax_cases x lo) as [[A EA]|[A EA]]; rewrite EA; [lra|].
  destruct (qmin_cases x hi) as [[B EB]|[B EB]]; rewrite EB; [lra | reflexivity].
Qed.
(* when the interval is empty the result is hi (so it is NOT >= lo) *)
Lemma clamp_empty x lo hi : hi < lo -> clamp x lo hi = hi.
Proof.
  intros H. unfold clamp.
  destruct (qmax_cases x lo) as [[A EA]|[A EA]]; rewrite EA;
    [destruct (qmin_cases lo hi) as [[B EB]|[B EB]] | destruct (qmin_cases x hi) as [[B EB]|[B EB]]]; rewrite EB; try reflexivity; lra.
Qed.

Lemma sign_sq x : sign x * sign x <= 1 /\ 0 <= sign x * sign x.
Proof. unfold sign. destruct (qltb x 0); [split; vm_compute; discriminate|]. destruct (qltb 0 x); split; vm_compute; discriminate. Qed.

Lemma saturate_sn_disc s q_prio rt p q :
  0 <= s -> rt * rt == sqrt_arg s q_prio p q ->
  in_disc s (fst (saturate_sn (Some s) q_prio rt p q)) (snd (saturate_sn (Some s) q_prio rt p q)).
Proof.
  intros Hs Hr. unfold saturate_sn, in_disc.
  destruct (qltb (qmul s s) (qadd (qmul p p) (qmul q q))) eqn:E.
  - unfold sqrt_arg in Hr. destruct q_prio; cbn [fst snd]; qnorm.
    + set (c := clamp q (qopp s) s) in *. lra.
    + pose proof (sign_sq q) as [S1 S2]. set (c := clamp p 0 s) in *. set (g := sign q) in *.
      assert (0 <= rt * rt) by nra. nra.
  - apply qltb_ge in E. qnorm. cbn [fst snd]. exact E.
Qed.

Lemma within_iff iv q : within iv q = true <-> fst iv <= q /\ q <= snd iv.
Proof. unfold within. rewrite andb_true_iff, !qleb_le. tauto. Qed.

(* PQArea4120: a point that in_area accepts lies inside the interval q_flexibility reports, provided the object's
   constants are consistent (checked on the real objects by the harness) *)
Lemma pq4120_in_sound a p q :
  lf_ind a <= 0 ->
  a_min_q a <= k_ind a + (p1 a - p0 a) * lf_ind a ->
  k_cap a + (p1 a - p0 a) * lf_cap a <= a_max_q a ->
  pq4120_in a p q = true -> within (pq4120_flex a p) q = true.
Proof.
  intros H1 H2 H3 H. apply within_iff. unfold pq4120_in in H. apply negb_true_iff in H.
  apply orb_false_iff in H. destruct H as [H R3]. apply orb_false_iff in H. destruct H as [R1 R2].
  apply orb_false_iff in R3. destruct R3 as [R3a R3b].
  apply qltb_ge in R3a. apply qltb_ge in R3b. qnorm.
  unfold pq4120_flex.
  destruct (qltb p (p0 a)) eqn:E0.
  - cbn [andb] in R1. apply orb_false_iff in R1. destruct R1 as [A B]. apply qltb_ge in A. apply qltb_ge in B.
    cbn [fst snd]. split; assumption.
  - apply qltb_ge in E0. destruct (qltb p (p1 a)) eqn:E1.
    + cbn [fst snd]. qnorm. split; [|exact R3b]. nra.
    + apply qltb_ge in E1. cbn [fst snd].
      destruct (qltb (p1 a) p) eqn:E2.
      * cbn [andb] in R2. apply orb_false_iff in R2. destruct R2 as [A B]. apply qltb_ge in A. apply qltb_ge in B.
        split; assumption.
      * apply qltb_ge in E2. assert (Ep : p == p1 a) by lra.
        split.
        -- assert (k_ind a + (p1 a - p0 a) * lf_ind a <= k_ind a - (p - p0 a) * lf_ind a) by (rewrite Ep; nra). lra.
        -- assert (k_cap a + (p - p0 a) * lf_cap a == k_cap a + (p1 a - p0 a) * lf_cap a) by (rewrite Ep; reflexivity). lra.
Qed.

(* merged flexibility of the PQ and the QV area *)
Lemma merge_spec r pq qv lo hi :
  merge r pq qv = Some (lo, hi) ->
  lo <= hi /\
  (qmax (fst pq) (fst qv) <= qmin (snd pq) (snd qv) -> lo = qmax (fst pq) (fst qv) /\ hi = qmin (snd pq) (snd qv)).
Proof.
  unfold merge.
  destruct (qltb (snd pq) (fst pq)); [discriminate|].
  destruct (qltb (snd qv) (fst qv)); [discriminate|].
  destruct (qltb (qmin (snd pq) (snd qv)) (qmax (fst pq) (fst qv))) eqn:E.
  - destruct r; [discriminate|]. intros H. inversion H. split; [apply Qle_refl|].
    apply qltb_lt in E. intros X. lra.
  - apply qltb_ge in E. intros H. inversion H. split; [exact E | intros _; split; reflexivity].
Qed.
Lemma merge_within r pq qv q :
  within pq q = true -> within qv q = true ->
  exists lo hi, merge r pq qv = Some (lo, hi) /\ lo <= q /\ q <= hi.
Proof.
  intros A B. apply within_iff in A. apply within_iff in B. destruct A as [A1 A2]. destruct B as [B1 B2].
  unfold merge.
  assert (E1 : qltb (snd pq) (fst pq) = false) by (apply qltb_ge; lra).
  assert (E2 : qltb (snd qv) (fst qv) = false) by (apply qltb_ge; lra).
  rewrite E1, E2.
  assert (L : qmax (fst pq) (fst qv) <= q) by (destruct (qmax_cases (fst pq) (fst qv)) as [[_ ->]|[_ ->]]; assumption).
  assert (U : q <= qmin (snd pq) (snd qv)) by (destruct (qmin_cases (snd pq) (snd qv)) as [[_ ->]|[_ ->]]; assumption).
  assert (E3 : qltb (qmin (snd pq) (snd qv)) (qmax (fst pq) (fst qv)) = false) by (apply qltb_ge; lra).
  rewrite E3. eexists. eexists. split; [reflexivity|]. split; assumption.
Qed.

Definition area_ok (ar : area) (q : Q) : Prop :=
  match ar with
  | ANone => True
  | A4120 a _ _ => lf_ind a <= 0 /\ a_min_q a <= k_ind a + (p1 a - p0 a) * lf_ind a /\
                   k_cap a + (p1 a - p0 a) * lf_cap a <= a_max_q a
  | AStatcom lo hi => lo <= hi
  | AOracle b lo hi => lo <= hi /\ (b = true -> lo <= q /\ q <= hi)
  | A4130 a _ _ _ => lf_ind a <= 0 /\ a_min_q a <= k_ind a + (p1 a - p0 a) * lf_ind a /\
                     k_cap a + (p1 a - p0 a) * lf_cap a <= a_max_q a
  end.

(* the two VDE families share one shape: in_area = PQ test && QV interval, q_flexibility = merge of the two intervals *)
Lemma pqv_step_in_flex a r qv p q q' :
  lf_ind a <= 0 -> a_min_q a <= k_ind a + (p1 a - p0 a) * lf_ind a -> k_cap a + (p1 a - p0 a) * lf_cap a <= a_max_q a ->
  (if pq4120_in a p q && within qv q then Some q
   else match merge r (pq4120_flex a p) qv with None => None | Some (lo, hi) => Some (clamp q lo hi) end) = Some q' ->
  exists lo hi, merge r (pq4120_flex a p) qv = Some (lo, hi) /\ lo <= q' /\ q' <= hi.
Proof.
  intros K1 K2 K3. destruct (pq4120_in a p q && within qv q) eqn:E.
  - intros H. injection H as <-. apply andb_true_iff in E. destruct E as [E1 E2].
    apply merge_within; [apply pq4120_in_sound; assumption | exact E2].
  - destruct (merge r (pq4120_flex a p) qv) as [[lo hi]|] eqn:F; [|discriminate].
    intros H. injection H as <-. exists lo, hi. split; [reflexivity|].
    apply clamp_in. apply (merge_spec _ _ _ _ _ F).
Qed.

(* only a PQV area applies (no apparent-power saturation): whenever _saturate returns, the reactive power it returns lies
   within the area's q_flexibility at the element's active power and voltage, and the active power is unchanged *)
Lemma area_result_in_flex ar q_prio rt p q vm p' q' :
  ar <> ANone -> area_ok ar q ->
  saturate ar None q_prio rt p q vm = Res p' q' ->
  p' = p /\ exists lo hi, area_flex ar p vm = Some (lo, hi) /\ lo <= q' /\ q' <= hi.
Proof.
  intros Hn Hok. unfold saturate.
  destruct (area_step ar p q vm) as [q1|] eqn:S; [|discriminate].
  cbn [saturate_sn]. intros H. injection H as <- <-. split; [reflexivity|]. revert S.
  destruct ar as [|a v r|lo hi|b lo hi|a l1 l2 r]; [contradiction| | | |]; cbn [area_step area_in area_flex].
  - destruct Hok as (K1 & K2 & K3). apply pqv_step_in_flex; assumption.
  - (* STATCOM *)
    cbn [area_ok] in Hok. destruct (qleb lo q && qleb q hi) eqn:E; intros H; injection H as <-; exists lo, hi.
    + apply andb_true_iff in E. destruct E as [E1 E2]. apply qleb_le in E1. apply qleb_le in E2. auto.
    + split; [reflexivity | apply clamp_in; exact Hok].
  - (* polygon oracle *)
    destruct Hok as [K1 K2]. destruct b; intros H; injection H as <-; exists lo, hi.
    + split; [reflexivity | apply K2; reflexivity].
    + split; [reflexivity | apply clamp_in; exact K1].
  - (* 4130: PQArea4130 + piecewise-linear QV limits *)
    destruct Hok as (K1 & K2 & K3). apply pqv_step_in_flex; assumption.
Qed.

Lemma damp_eq d cur tgt : ~ d == 0 -> damp d cur tgt == (1 - 1 / d) * cur + (1 / d) * tgt.
Proof. intros H. unfold damp. qnorm. field. exact H. Qed.

Lemma inv_range d : 1 <= d -> 0 < 1 / d /\ 1 / d <= 1.
Proof.
  intros H. split.
  - apply Qlt_shift_div_l; lra.
  - apply Qle_shift_div_r; lra.
Qed.


Lemma convex_disc s l a b c e :
  0 <= l -> l <= 1 -> in_disc s a b -> in_disc s c e ->
  in_disc s ((1 - l) * a + l * c) ((1 - l) * b + l * e).
Proof.
  unfold in_disc. intros L0 L1 H1 H2.
  pose proof (sq_nonneg (a - c)) as Sq1. pose proof (sq_nonneg (b - e)) as Sq2.
  assert (C : a * c + b * e <= s * s) by lra.
  assert (I : ((1 - l) * a + l * c) * ((1 - l) * a + l * c) + ((1 - l) * b + l * e) * ((1 - l) * b + l * e)
              == (1 - l) * (1 - l) * (a * a + b * b) + l * l * (c * c + e * e) + 2 * (l * (1 - l)) * (a * c + b * e)) by ring.
  rewrite I.
  assert (M : 0 <= l * (1 - l)) by (apply Qmult_le_0_compat; lra).
  pose proof (sq_nonneg (1 - l)) as N1. pose proof (sq_nonneg l) as N2.
  assert (T1 : (a * a + b * b) * ((1 - l) * (1 - l)) <= (s * s) * ((1 - l) * (1 - l))) by (apply Qmult_le_compat_r; assumption).
  assert (T2 : (c * c + e * e) * (l * l) <= (s * s) * (l * l)) by (apply Qmult_le_compat_r; assumption).
  assert (T3 : (a * c + b * e) * (l * (1 - l)) <= (s * s) * (l * (1 - l))) by (apply Qmult_le_compat_r; assumption).
  assert (S : (1 - l) * (1 - l) * (s * s) + l * l * (s * s) + 2 * (l * (1 - l)) * (s * s) == s * s) by ring.
  lra.
Qed.

(* damping >= 1, previous point and saturated target inside the disc => the written point is inside *)
Lemma damped_step_in_disc d s pc qc pt qt :
  1 <= d -> in_disc s pc qc -> in_disc s pt qt -> in_disc s (damp d pc pt) (damp d qc qt).
Proof.
  intros Hd H1 H2. destruct (inv_range d Hd) as [L0 L1].
  assert (Hn : ~ d == 0) by lra.
  unfold in_disc. rewrite (damp_eq d pc pt Hn), (damp_eq d qc qt Hn).
  apply (convex_disc s (1 / d) pc qc pt qt); [lra | exact L1 | exact H1 | exact H2].
Qed.

Lemma scale_disc s sn p q : in_disc s p q -> in_disc (s * sn) (p * sn) (q * sn).
Proof. unfold in_disc. intros H. assert (0 <= sn * sn) by nra. nra. Qed.

Lemma cur_p_disc m alias pc qc : in_disc m pc qc -> in_disc m (cur_p alias pc) qc.
Proof.
  unfold cur_p, in_disc. intros H. destruct (alias && qltb pc 0); [|exact H].
  pose proof (sq_nonneg pc). lra.
Qed.
