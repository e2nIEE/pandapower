(* C05/Proofs.v — what _sum_by_group computes: sorting is a permutation and sorts, and on sorted rows every value
   written by the one-pass group_out is the sum over the rows of that bus (gsum).  Also: the consecutive bus lookup
   commutes with an injective relabelling. *)
From Coq Require Import QArith List Lia Lqa Permutation Sorting.Sorted.
From PPV Require Import Base.QN C05.Model.
Import ListNotations.

Fixpoint gsum (b : nat) (l : list (nat * Q)) : Q :=
  match l with [] => 0 | (b', p) :: t => if Nat.eqb b' b then p + gsum b t else gsum b t end.

Lemma gsum_perm b l l' : Permutation l l' -> gsum b l == gsum b l'.
Proof.
  induction 1 as [|[b1 p1] l l' _ IH|[b1 p1] [b2 p2] l|l l' l'' _ IH1 _ IH2]; simpl.
  - reflexivity.
  - destruct (Nat.eqb b1 b); rewrite IH; reflexivity.
  - destruct (Nat.eqb b1 b), (Nat.eqb b2 b); ring.
  - rewrite IH1; exact IH2.
Qed.
Lemma gsum_app b l l' : gsum b (l ++ l') == gsum b l + gsum b l'.
Proof. induction l as [|[b1 p1] t IH]; simpl; [ring|]. destruct (Nat.eqb b1 b); rewrite IH; ring. Qed.

Definition le_row (a b : nat * Q) : Prop := (fst a <= fst b)%nat.
Lemma insert_perm r l : Permutation (insert r l) (r :: l).
Proof.
  induction l as [|x t IH]; simpl; auto. destruct (Nat.leb (fst r) (fst x)); auto.
  eapply perm_trans; [apply perm_skip; exact IH|apply perm_swap].
Qed.
Lemma sort_perm l : Permutation (sort_rows l) l.
Proof. induction l; simpl; auto. eapply perm_trans; [apply insert_perm|]. now apply perm_skip. Qed.
Lemma insert_sorted r l : StronglySorted le_row l -> StronglySorted le_row (insert r l).
Proof.
  induction 1 as [|x t S IH F]; simpl; [repeat constructor|].
  destruct (Nat.leb (fst r) (fst x)) eqn:E.
  - apply Nat.leb_le in E. constructor; [now constructor|]. constructor; auto.
    rewrite Forall_forall in *. intros y Y. specialize (F y Y). unfold le_row in *. lia.
  - apply Nat.leb_gt in E. constructor; auto.
    assert (P := insert_perm r t). rewrite Forall_forall in *. intros y Y.
    apply (Permutation_in _ P) in Y. destruct Y as [<-|Y]; [unfold le_row; lia|auto].
Qed.
Lemma sort_sorted l : StronglySorted le_row (sort_rows l).
Proof. induction l; simpl; [constructor|now apply insert_sorted]. Qed.

Lemma gsum_zero_above b l : Forall (fun r => (b < fst r)%nat) l -> gsum b l == 0.
Proof.
  induction 1 as [|[b1 p1] t H _ IH]; simpl; [reflexivity|]. simpl in H.
  destruct (Nat.eqb b1 b) eqn:E; [apply Nat.eqb_eq in E; lia|exact IH].
Qed.
Lemma group_out_bus acc prev l b v : In (b, v) (group_out acc prev l) -> exists p, In (b, p) l.
Proof.
  revert acc prev. induction l as [|[b0 p0] t IH]; intros acc prev H; simpl in H; [contradiction|].
  destruct t as [|[b' p'] t'].
  - destruct H as [H|[]]. inversion H; subst. exists p0. now left.
  - destruct (Nat.eqb b0 b').
    + destruct (IH _ _ H) as [p P]. exists p. now right.
    + destruct H as [H|H]; [inversion H; subst; exists p0; now left|].
      destruct (IH _ _ H) as [p P]. exists p. now right.
Qed.

Definition head_is (b : nat) (l : list (nat * Q)) : bool := match l with (b0, _) :: _ => Nat.eqb b0 b | [] => false end.

(* where a group ends, every later row belongs to a higher bus *)
Lemma sorted_above b0 p0 b' p' t : StronglySorted le_row ((b0, p0) :: (b', p') :: t) -> b0 <> b' ->
  Forall (fun r => (b0 < fst r)%nat) ((b', p') :: t).
Proof.
  intros S N. inversion S as [|? ? St F]; subst. inversion F as [|? ? L _]; subst. inversion St as [|? ? _ F']; subst.
  unfold le_row in *. simpl in L. constructor; [simpl; lia|].
  eapply Forall_impl; [|exact F']. simpl. intros r Hr. lia.
Qed.

(* invariant of the pass: acc - prev is what the rows before l have contributed to the group of the head of l *)
Lemma group_out_value l : StronglySorted le_row l -> forall acc prev b v,
  In (b, v) (group_out acc prev l) -> v == gsum b l + (if head_is b l then acc - prev else 0).
Proof.
  induction 1 as [|[b0 p0] t S IH F]; intros acc prev b v H; [contradiction|].
  simpl in H. destruct t as [|[b' p'] t'].
  - destruct H as [H|[]]. inversion H; subst. simpl. rewrite Nat.eqb_refl. qstrip. lra.
  - set (T := (b', p') :: t') in *. cbn [gsum head_is]. destruct (Nat.eqb b0 b') eqn:E.
    + apply Nat.eqb_eq in E. subst b'. rewrite (IH _ _ _ _ H). simpl. destruct (Nat.eqb b0 b); qstrip; lra.
    + apply Nat.eqb_neq in E. pose proof (sorted_above _ _ _ _ _ (SSorted_cons _ S F) E) as A. fold T in A.
      destruct H as [H|H].
      * inversion H; subst. rewrite Nat.eqb_refl, (gsum_zero_above _ _ A). qstrip. lra.
      * rewrite (IH _ _ _ _ H). destruct (group_out_bus _ _ _ _ _ H) as [p P].
        rewrite Forall_forall in A. specialize (A _ P). simpl in A.
        replace (Nat.eqb b0 b) with false by (symmetry; apply Nat.eqb_neq; lia).
        destruct (head_is b T); qstrip; lra.
Qed.

Lemma pos_of_map f b idx k : (forall x y, f x = f y -> x = y) -> pos_of (f b) (map f idx) k = pos_of b idx k.
Proof.
  intros Inj. revert k. induction idx as [|x t IH]; simpl; intros k; auto.
  destruct (Nat.eqb x b) eqn:E.
  - apply Nat.eqb_eq in E. subst. now rewrite Nat.eqb_refl.
  - destruct (Nat.eqb (f x) (f b)) eqn:E'; [apply Nat.eqb_eq in E'; apply Inj in E'; subst; rewrite Nat.eqb_refl in E; discriminate|].
    apply IH.
Qed.
