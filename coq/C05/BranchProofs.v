(* C05/BranchProofs.v — sn_mva invariance of the physical terminal powers of transformer and impedance branch rows
   (model of build_branch.py / makeYbus / pfsoln in C02/Model.v), the swap of an impedance element's ends, and the
   transformer row as it depends on the bus tables. *)
From Coq Require Import QArith List Lqa.
From PPV Require Import Base.QN Base.QC C02.Model C02.Proofs C05.Model.
Import ListNotations.
Open Scope Q_scope.

(* b2 is b1 re-expressed on a base k times as large: impedances * k, admittances / k, same tap, shift, status *)
Definition row_scaled (k : Q) (b1 b2 : brow) : Prop :=
  b_r b2 == k * b_r b1 /\ b_x b2 == k * b_x b1 /\ b_ra b2 == k * b_ra b1 /\ b_xa b2 == k * b_xa b1 /\
  b_g b2 * k == b_g b1 /\ b_b b2 * k == b_b b1 /\ b_ga b2 * k == b_ga b1 /\ b_ba b2 * k == b_ba b1 /\
  b_tap b2 = b_tap b1 /\ b_stat b2 = b_stat b1.

Lemma one_nz : ~ 1 == 0. Proof. intro K. discriminate K. Qed.
Lemma Qeq_div_r a b k : ~ k == 0 -> a * k == b -> a == b / k.
Proof. intros Hk <-. field. exact Hk. Qed.

(* the MW / Mvar terminal powers (pfsoln: per-unit flow * baseMVA) of the two rows coincide for the same per-unit
   voltages *)
Theorem flows_sn_scale b1 b2 e vf vt sn1 sn2 :
  ~ sn1 == 0 -> ~ sn2 == 0 -> row_scaled (sn2 / sn1) b1 b2 ->
  b_stat b1 = true ->
  ~ (b_r b1) * (b_r b1) + (b_x b1) * (b_x b1) == 0 ->
  ~ (b_r b1 + b_ra b1) * (b_r b1 + b_ra b1) + (b_x b1 + b_xa b1) * (b_x b1 + b_xa b1) == 0 ->
  ~ b_tap b1 == 0 -> re e * re e + im e * im e == 1 ->
  Ceq2 (flows (stamps_core b1 e) vf vt sn1) (flows (stamps_core b2 e) vf vt sn2).
Proof.
  intros H1 H2 [Rr [Rx [Rra [Rxa [Rg [Rb [Rga [Rba [Rt Rs]]]]]]]]] Hs Hz Hzt Ht He.
  assert (Hk : ~ sn2 / sn1 == 0) by (apply div_nz; assumption).
  assert (Hz2 : ~ (b_r b2) * (b_r b2) + (b_x b2) * (b_x b2) == 0).
  { rewrite Rr, Rx. apply norm_scale_nz; assumption. }
  assert (Hzt2 : ~ (b_r b2 + b_ra b2) * (b_r b2 + b_ra b2) + (b_x b2 + b_xa b2) * (b_x b2 + b_xa b2) == 0).
  { assert (Er : b_r b2 + b_ra b2 == sn2 / sn1 * (b_r b1 + b_ra b1)) by (rewrite Rr, Rra; ring).
    assert (Ex : b_x b2 + b_xa b2 == sn2 / sn1 * (b_x b1 + b_xa b1)) by (rewrite Rx, Rxa; ring).
    rewrite Er, Ex. apply norm_scale_nz; assumption. }
  assert (Hs2 : b_stat b2 = true) by congruence.
  assert (Ht2 : ~ b_tap b2 == 0) by (rewrite Rt; exact Ht).
  etransitivity; [apply (pu_eq_phys b1 e vf vt sn1 1 Hs Hz Hzt Ht He H1 one_nz)|].
  symmetry. etransitivity; [apply (pu_eq_phys b2 e vf vt sn2 1 Hs2 Hz2 Hzt2 Ht2 He H2 one_nz)|].
  rewrite Rt.
  apply (Qeq_div_r _ _ _ Hk) in Rg, Rb, Rga, Rba.
  apply pi_flows_phys2_proper; try reflexivity.
  - cstrip; rewrite ?Rr, ?Rx; field; split; assumption.
  - cstrip; rewrite ?Rr, ?Rx, ?Rra, ?Rxa; field; split; assumption.
  - cstrip; rewrite ?Rg, ?Rb; field; split; assumption.
  - cstrip; rewrite ?Rg, ?Rb, ?Rga, ?Rba; field; split; assumption.
Qed.

(* one end of a pi two-port whose impedances are multiplied and whose admittances are divided by q: the current is
   1/q of the current, and so is the power since q is real *)
Lemma pi_half_scale s q z y u w : ~ q == 0 ->
  Cscale s (Cmul u (Cconj (Csub (Cmul (Cadd (Cinv (Cscale q z)) (Cscale (1 / q) y)) u) (Cmul (Cinv (Cscale q z)) w))))
  ==c Cscale (s / q) (Cmul u (Cconj (Csub (Cmul (Cadd (Cinv z) y) u) (Cmul (Cinv z) w)))).
Proof.
  intros Hq. assert (E : / q == 1 / q) by (unfold Qdiv; ring). rewrite (Cscale_inv q z Hq), E.
  transitivity (Cscale s (Cmul u (Cconj (Cscale (1 / q) (Csub (Cmul (Cadd (Cinv z) y) u) (Cmul (Cinv z) w)))))).
  { apply Cscale_proper; [reflexivity|]. apply Cmul_proper; [reflexivity|]. apply Cconj_proper. rewrite !Cscale_mul. ring. }
  generalize (Csub (Cmul (Cadd (Cinv z) y) u) (Cmul (Cinv z) w)). intros i. cstrip; field; exact Hq.
Qed.

(* the documented flows of an impedance element are those of the pi circuit in the element's own per-unit system
   times its own S_N: net.sn_mva cancels *)
Lemma imp_doc_flows_own_base sn i vf vt : ~ sn == 0 -> ~ i_sn i == 0 ->
  ~ i_rft i * i_rft i + i_xft i * i_xft i == 0 -> ~ i_rtf i * i_rtf i + i_xtf i * i_xtf i == 0 ->
  let s := pi_flows_phys2 (mkC (i_rft i) (i_xft i)) (mkC (i_rtf i) (i_xtf i)) (mkC (i_gf i) (i_bf i)) (mkC (i_gt i) (i_bt i)) vf vt in
  Ceq2 (imp_doc_flows sn i vf vt) (Cscale (i_sn i) (fst s), Cscale (i_sn i) (snd s)).
Proof.
  intros Hs Hi Hf Ht. assert (Hk : ~ sn / i_sn i == 0) by (apply div_nz; assumption).
  unfold imp_doc_flows, pi_flows_phys2, Ceq2. cbn [fst snd]. rewrite !pi_half_scale by assumption.
  split; (apply Cscale_proper; [field; split; assumption | reflexivity]).
Qed.

(* the element with its two ends exchanged: z_ft <-> z_tf, y_f <-> y_t *)
Definition imp_swap (i : imped) : imped :=
  {| i_rft := i_rtf i; i_xft := i_xtf i; i_rtf := i_rft i; i_xtf := i_xft i; i_gf := i_gt i; i_bf := i_bt i;
     i_gt := i_gf i; i_bt := i_bf i; i_sn := i_sn i; i_in := i_in i |}.

Lemma qltb_ext a b c d : (a < b <-> c < d) -> qltb a b = qltb c d.
Proof.
  intros H. destruct (qltb a b) eqn:A, (qltb c d) eqn:B; try reflexivity;
    [apply qltb_lt, H, qltb_lt in A | apply qltb_lt, H, qltb_lt in B]; congruence.
Qed.
Lemma qsign_scale k z z' : 0 < k -> z' == k * z -> qsign z' = qsign z.
Proof.
  intros Hk E. unfold qsign. rewrite (qltb_ext 0 z' 0 z), (qltb_ext z' 0 z 0) by (rewrite E; split; nra). reflexivity.
Qed.

Section Trafo.
Variables (sn1 sn2 : Q) (t : trafo) (o1 o2 : trafo_orc) (vnh vnl shift basehv baselv : Q).
Hypothesis Hsn1 : 0 < sn1.
Hypothesis Hsn2 : 0 < sn2.
Hypothesis Htsn : ~ t_sn t == 0.
Hypothesis Hpar : ~ t_par t == 0.
Hypothesis Hbl : ~ baselv == 0.
Hypothesis Hvnl : ~ vnl == 0.
Hypothesis Hvnl0 : ~ t_vnl0 t == 0.
(* the sqrt oracles of the two runs satisfy their defining equations (validated by C02's correspondence run) *)
Hypothesis Ox1 : o_x o1 * o_x o1 == fst (trafo_zr sn1 t vnl baselv) * fst (trafo_zr sn1 t vnl baselv)
                                    - snd (trafo_zr sn1 t vnl baselv) * snd (trafo_zr sn1 t vnl baselv).
Hypothesis Ox2 : o_x o2 * o_x o2 == fst (trafo_zr sn2 t vnl baselv) * fst (trafo_zr sn2 t vnl baselv)
                                    - snd (trafo_zr sn2 t vnl baselv) * snd (trafo_zr sn2 t vnl baselv).
Hypothesis Ox1p : 0 <= o_x o1.
Hypothesis Ox2p : 0 <= o_x o2.
(* sqrt(max(ym^2 - pfe^2, 0)) does not mention sn_mva: both runs take the root of the same number *)
Hypothesis Obm : o_bm o1 * o_bm o1 == o_bm o2 * o_bm o2.
Hypothesis Obm1 : 0 <= o_bm o1.
Hypothesis Obm2 : 0 <= o_bm o2.

Let k := sn2 / sn1.
Let k_pos : 0 < k := Qdiv_pos _ _ Hsn2 Hsn1.
Let sn1_nz : ~ sn1 == 0 := Qnot_eq_sym _ _ (Qlt_not_eq _ _ Hsn1).
Let sn2_nz : ~ sn2 == 0 := Qnot_eq_sym _ _ (Qlt_not_eq _ _ Hsn2).

Lemma zr_scale : fst (trafo_zr sn2 t vnl baselv) == k * fst (trafo_zr sn1 t vnl baselv) /\
                 snd (trafo_zr sn2 t vnl baselv) == k * snd (trafo_zr sn1 t vnl baselv).
Proof.
  pose proof sn1_nz. unfold trafo_zr, qsq, k. cbn [fst snd]. split; qstrip; field; repeat split; assumption.
Qed.
Lemma ox_scale : o_x o2 == k * o_x o1.
Proof.
  pose proof k_pos as Kp. destruct zr_scale as [Z R].
  apply sqrt_unique; [assumption | apply Qmult_le_0_compat; [apply Qlt_le_weak, Kp | exact Ox1p] |].
  rewrite Ox2, Z, R. transitivity (k * k * (o_x o1 * o_x o1)); [rewrite Ox1; ring|ring].
Qed.
Lemma obm_eq : o_bm o2 == o_bm o1.
Proof. apply sqrt_unique; auto. symmetry. exact Obm. Qed.

Lemma trafo_rx_scale :
  fst (trafo_rx sn2 t o2 vnl baselv) == k * fst (trafo_rx sn1 t o1 vnl baselv) /\
  snd (trafo_rx sn2 t o2 vnl baselv) == k * snd (trafo_rx sn1 t o1 vnl baselv).
Proof.
  destruct zr_scale as [Z R]. pose proof ox_scale as X.
  unfold trafo_rx.
  destruct (trafo_zr sn1 t vnl baselv) as [z1 r1] eqn:E1. destruct (trafo_zr sn2 t vnl baselv) as [z2 r2] eqn:E2.
  cbn [fst snd] in *. rewrite (qsign_scale k z1 z2 k_pos Z). split.
  - qstrip. rewrite R. field. assumption.
  - qstrip. rewrite X. field. assumption.
Qed.
Lemma trafo_gb_scale :
  fst (trafo_gb sn2 t o2 vnl baselv) * k == fst (trafo_gb sn1 t o1 vnl baselv) /\
  snd (trafo_gb sn2 t o2 vnl baselv) * k == snd (trafo_gb sn1 t o1 vnl baselv).
Proof.
  pose proof sn1_nz. pose proof sn2_nz. pose proof obm_eq as B.
  unfold trafo_gb, qsq, k. cbn [fst snd]. split; qstrip; rewrite ?B; field; repeat split; assumption.
Qed.

(* pi model (trafo_model = "pi"): the row on base sn2 is the row on base sn1 rescaled *)
Lemma trafo_pi_row_scaled b1 b2 :
  trafo_branch sn1 false t o1 vnh vnl shift basehv baselv = Ok b1 ->
  trafo_branch sn2 false t o2 vnh vnl shift basehv baselv = Ok b2 ->
  row_scaled k b1 b2.
Proof.
  unfold trafo_branch. destruct (qleb (t_df t) 0); [discriminate|].
  destruct trafo_rx_scale as [R X]. destruct trafo_gb_scale as [G B].
  destruct (trafo_rx sn1 t o1 vnl baselv) as [r1 x1]. destruct (trafo_rx sn2 t o2 vnl baselv) as [r2 x2].
  destruct (trafo_gb sn1 t o1 vnl baselv) as [g1 bb1]. destruct (trafo_gb sn2 t o2 vnl baselv) as [g2 bb2].
  cbn [fst snd] in *. intros E1 E2. inversion E1; subst b1. inversion E2; subst b2. clear E1 E2.
  unfold row_scaled. brow_cbn. repeat split; try assumption; try reflexivity; ring.
Qed.

Theorem trafo_pi_sn_invariant b1 b2 e vf vt :
  trafo_branch sn1 false t o1 vnh vnl shift basehv baselv = Ok b1 ->
  trafo_branch sn2 false t o2 vnh vnl shift basehv baselv = Ok b2 ->
  b_stat b1 = true -> ~ (b_r b1) * (b_r b1) + (b_x b1) * (b_x b1) == 0 -> ~ b_tap b1 == 0 ->
  re e * re e + im e * im e == 1 ->
  Ceq2 (flows (stamps_core b1 e) vf vt sn1) (flows (stamps_core b2 e) vf vt sn2).
Proof.
  intros E1 E2 Hs Hz Ht He. pose proof (trafo_pi_row_scaled b1 b2 E1 E2) as RS.
  apply flows_sn_scale; try assumption; try apply sn1_nz; try apply sn2_nz.
  (* the pi row has no asymmetric series part *)
  destruct (trafo_branch_shape _ _ _ _ _ _ _ _ _ _ E1) as (-> & -> & _). intro K. apply Hz. rewrite <- K. ring.
Qed.
End Trafo.

(* the ppc row of a transformer: positions of its two buses in the ppc bus table and the per-unit parameters; the bus
   data enter through the looked-up BASE_KV values only, so an injective relabelling of the buses (lookup tables
   relabelled accordingly) leaves the row unchanged *)
Definition trafo_ppc_row (idx : list nat) (bkv : nat -> Q) (hv lv : nat) (sn : Q) (m : bool) (t : trafo) (o : trafo_orc)
                         (vnh vnl shift : Q) : option nat * option nat * res brow :=
  (consec_lookup idx hv, consec_lookup idx lv, trafo_branch sn m t o vnh vnl shift (bkv hv) (bkv lv)).

(* non-vacuity: vk 5 %, vkr 3 % (x = 4 % exactly), bases 1 and 4 MVA *)
Definition w_trafo : trafo :=
  {| t_vnh0 := 1; t_vnl0 := 1; t_sn := 1; t_vk := 5; t_vkr := 3; t_pfe := 0; t_i0 := 0; t_par := 1; t_df := 1; t_in := true;
     t_maxload := None; t_rr := 1 # 2; t_xr := 1 # 2 |}.
Definition w_o1 : trafo_orc := {| o_x := 4 # 100; o_bm := 0 |}.
Definition w_o2 : trafo_orc := {| o_x := 16 # 100; o_bm := 0 |}.
Example trafo_sn_nonvacuous :
  (o_x w_o1 * o_x w_o1 == fst (trafo_zr 1 w_trafo 1 1) * fst (trafo_zr 1 w_trafo 1 1)
                          - snd (trafo_zr 1 w_trafo 1 1) * snd (trafo_zr 1 w_trafo 1 1)) /\
  (o_x w_o2 * o_x w_o2 == fst (trafo_zr 4 w_trafo 1 1) * fst (trafo_zr 4 w_trafo 1 1)
                          - snd (trafo_zr 4 w_trafo 1 1) * snd (trafo_zr 4 w_trafo 1 1)) /\
  exists b1 b2, trafo_branch 1 false w_trafo w_o1 1 1 0 1 1 = Ok b1 /\ trafo_branch 4 false w_trafo w_o2 1 1 0 1 1 = Ok b2 /\
    b_stat b1 = true /\ b_r b1 == 3 # 100 /\ b_x b1 == 4 # 100 /\ b_r b2 == 12 # 100 /\ b_x b2 == 16 # 100 /\ b_tap b1 == 1.
Proof.
  split; [vm_compute; reflexivity|]. split; [vm_compute; reflexivity|].
  eexists. eexists. split; [vm_compute; reflexivity|]. split; [vm_compute; reflexivity|].
  repeat split; vm_compute; reflexivity.
Qed.
