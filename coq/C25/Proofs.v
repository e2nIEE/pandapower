(* C25 — the std-type library as a finite map (lget / lset / ldel against fupd), what rename_std and change_std write,
   and created-from-type = created-from-parameters column by column (ce_ok) *)
From Coq Require Import List Bool String.
From PPV Require Import Base.QN C24.Model C24.Proofs C25.Model.
Import ListNotations.
Open Scope string_scope.
Open Scope list_scope.

(* dict laws of the association list *)
Lemma lget_lset l k v x : lget (lset l k v) x = fupd (lget l) k (Some v) x.
Proof.
  unfold fupd. induction l as [|[k' v'] l IH]; simpl; [reflexivity|].
  destruct (String.eqb k' k) eqn:E; simpl.
  - apply String.eqb_eq in E. subst k'. destruct (String.eqb k x); reflexivity.
  - rewrite IH. destruct (String.eqb k x) eqn:Ex; [|reflexivity].
    apply String.eqb_eq in Ex. subst x. rewrite E. reflexivity.
Qed.
Lemma lget_ldel l k x : lget (ldel l k) x = fupd (lget l) k None x.
Proof.
  unfold fupd. induction l as [|[k' v'] l IH]; simpl; [destruct (String.eqb k x); reflexivity|].
  destruct (String.eqb k' k) eqn:E; simpl; rewrite IH.
  - apply String.eqb_eq in E. subst k'. destruct (String.eqb k x); reflexivity.
  - destruct (String.eqb k x) eqn:Ex; [|reflexivity].
    apply String.eqb_eq in Ex. subst x. rewrite E. reflexivity.
Qed.

(* every library function acts on the association list as its specification acts on the abstract finite map *)
Lemma fupd_ext (f g : fmap) k v : (forall y, f y = g y) -> forall y, fupd f k v y = fupd g k v y.
Proof. intros H y. unfold fupd. destruct (String.eqb k y); [reflexivity | apply H]. Qed.
Lemma spec_step_ext req o : forall f g : fmap, (forall y, f y = g y) -> forall y, spec_step req f o y = spec_step req g o y.
Proof.
  intros f g H. destruct o as [d n ow ck|n|a b|src ow]; simpl.
  - destruct (ck && negb (forallb (has d) req)); [apply H|]. rewrite (H n).
    destruct (ow || match g n with Some _ => false | None => true end); [apply fupd_ext|]; apply H.
  - rewrite (H n). destruct (g n); [apply fupd_ext|]; apply H.
  - rewrite (H a), (H b). destruct (g a); [|apply H]. destruct (g b); [apply H|]. apply fupd_ext, fupd_ext, H.
  - revert f g H. induction src as [|[n0 d0] s IHs]; intros f g Hfg; [apply Hfg|].
    destruct (negb (forallb (has d0) req)); [apply Hfg|].
    apply IHs. rewrite (Hfg n0).
    destruct (ow || match g n0 with Some _ => false | None => true end); [apply fupd_ext|]; apply Hfg.
Qed.
Lemma fold_spec_step_ext req ops : forall f g : fmap, (forall y, f y = g y) -> forall y,
  fold_left (spec_step req) ops f y = fold_left (spec_step req) ops g y.
Proof.
  induction ops as [|o ops IH]; intros f g H y; simpl; [apply H|].
  apply IH. intros z. apply spec_step_ext. exact H.
Qed.

Lemma copy_refines req ow src : forall l x,
  lget (fst (copy_std req l src ow)) x = spec_step req (lget l) (OCopy src ow) x.
Proof.
  induction src as [|[n d] src IH]; intros l x; simpl; [reflexivity|].
  unfold create_std, lhas. simpl andb.
  destruct (forallb (has d) req); simpl; [|reflexivity].
  rewrite IH.
  replace (negb match lget l n with Some _ => true | None => false end)
    with (match lget l n with Some _ => false | None => true end) by (destruct (lget l n); reflexivity).
  destruct (ow || match lget l n with Some _ => false | None => true end); [|reflexivity].
  apply (spec_step_ext req (OCopy src ow)), lget_lset.
Qed.

Lemma step_refines req l o x : lget (step req l o) x = spec_step req (lget l) o x.
Proof.
  destruct o as [d n ow ck|n|a b|src ow].
  - simpl. unfold create_std.
    destruct (ck && negb (forallb (has d) req)); simpl; [reflexivity|].
    unfold lhas. destruct ow; simpl; [apply lget_lset|].
    destruct (lget l n); simpl; [reflexivity | apply lget_lset].
  - simpl. unfold delete_std, lhas. destruct (lget l n); simpl; [apply lget_ldel | reflexivity].
  - simpl. unfold rename_std, lhas. destruct (lget l a) as [d|]; simpl; [|reflexivity].
    destruct (lget l b); simpl; [reflexivity|].
    rewrite lget_lset. unfold fupd. destruct (String.eqb b x); [reflexivity|]. rewrite lget_ldel. reflexivity.
  - apply copy_refines.
Qed.

Theorem not_overwritten req l d n ck l' d0 :
  lget l n = Some d0 -> create_std req l d n false ck = Ok l' -> load_std l' n = Ok d0.
Proof.
  unfold create_std, lhas. intros H0. destruct (ck && negb (forallb (has d) req)); [discriminate|]. rewrite H0.
  intros H. inversion H. subst. unfold load_std. rewrite H0. reflexivity.
Qed.
Theorem rename_rejects l a b : (lhas l a = false \/ lhas l b = true) -> exists e, rename_std l a b = Err e.
Proof.
  unfold rename_std, lhas. intros [H|H].
  - destruct (lget l a); [discriminate|]. eexists; reflexivity.
  - destruct (lget l a); [|eexists; reflexivity]. destruct (lget l b); [eexists; reflexivity | discriminate].
Qed.
(* an accepted rename moves the data from the old name to the new one *)
Lemma rename_lget l a b l' : rename_std l a b = Ok l' ->
  exists d, lget l a = Some d /\ lget l b = None /\ forall x, lget l' x = fupd (fupd (lget l) a None) b (Some d) x.
Proof.
  unfold rename_std. destruct (lget l a) as [d|] eqn:A; [|discriminate].
  unfold lhas. destruct (lget l b) eqn:B; [discriminate|]. intros H. inversion H; subst l'. exists d. repeat split.
  intros x. rewrite lget_lset. unfold fupd. destruct (String.eqb b x); [reflexivity|]. apply lget_ldel.
Qed.

Lemma rowget_cons c v r p : rowget ((c, v) :: r) p = if String.eqb c p then v else rowget r p.
Proof. unfold rowget. simpl. destruct (String.eqb c p); reflexivity. Qed.

Lemma change_cols_get cols ty : forall r p,
  rowget (change_cols cols ty r) p =
  if existsb (String.eqb p) cols then (match lookup ty p with Some v => v | None => rowget r p end) else rowget r p.
Proof.
  induction cols as [|c cols IH]; intros r p; simpl; [reflexivity|].
  rewrite IH. destruct (String.eqb p c) eqn:E; simpl.
  - apply String.eqb_eq in E. subst.
    destruct (lookup ty c) as [v|] eqn:L.
    + rewrite rowget_cons, String.eqb_refl. destruct (existsb (String.eqb c) cols); reflexivity.
    + destruct (existsb (String.eqb c) cols); reflexivity.
  - destruct (lookup ty c) as [v|] eqn:L; [|reflexivity].
    rewrite rowget_cons, String.eqb_sym, E. reflexivity.
Qed.

(* every cell of the changed row: std_type, an existing column that the type defines, anything else *)
Theorem change_written_exactly cols l name r r' ty : change_std cols l name r = Ok r' -> lget l name = Some ty ->
  forall c, rowget r' c = if String.eqb "std_type" c then VS name
                         else if G25_col cols c && has ty c then valof (lookup ty c) else rowget r c.
Proof.
  unfold change_std. intros H Hl c. rewrite Hl in H. inversion H; subst r'; clear H.
  rewrite rowget_cons. destruct (String.eqb "std_type" c); [reflexivity|]. rewrite change_cols_get.
  unfold G25_col, has. destruct (existsb (String.eqb c) cols); [|reflexivity]. destruct (lookup ty c); reflexivity.
Qed.
Theorem change_sets_std_type cols l name r r' : change_std cols l name r = Ok r' -> rowget r' "std_type" = VS name.
Proof. unfold change_std. destruct (lget l name); [|discriminate]. intros H. inversion H. reflexivity. Qed.

Lemma lookup_app a b k : lookup (a ++ b) k = match lookup a k with Some v => Some v | None => lookup b k end.
Proof.
  induction a as [|[k' v] a IH]; simpl; [reflexivity|]. destruct (String.eqb k' k); [reflexivity | exact IH].
Qed.

Theorem created_eq_explicit ds de c : ce_ok ds de c = true ->
  forall std a ex ex', has a c = false ->
  single_val (spec_of ds c) ex std a = single_val (spec_of de c) ex' [] (a ++ std).
Proof.
  unfold ce_ok. intros H std a ex ex' Ha. unfold has in Ha.
  (* the explicit call finds the type's value where the from-type call looks it up *)
  assert (L : forall d, getarg (a ++ std) c d = match lookup std c with Some v => v | None => d end).
  { intros d. unfold getarg. rewrite lookup_app. destruct (lookup a c); [discriminate | reflexivity]. }
  destruct (spec_of ds c) as [[n d|p|p|p d0|x| |n fb|p]|]; try discriminate;
    destruct (spec_of de c) as [[q d| | | | | | | ]|q [] [] g]; try discriminate.
  (* left: std_type[c] or `if c in std_type` against the argument c, `if c in std_type` against the optional column c,
     std_type.get(c, d0) against the argument c with default d0 *)
  all: rewrite !andb_true_iff, !String.eqb_eq in H.
  - destruct H as [[-> ->] Hd]. apply isnanc_eq in Hd. subst d. simpl. rewrite L. destruct (lookup std c); reflexivity.
  - destruct H as [[-> ->] Hd]. apply isnanc_eq in Hd. subst d. simpl. rewrite L. destruct (lookup std c); reflexivity.
  - destruct H as [-> ->]. simpl. rewrite L. destruct (lookup std c) as [[]|]; destruct ex'; reflexivity.
  - destruct H as [[-> ->] Hd]. apply cell_eqb_eq in Hd. subst d. simpl. rewrite L. reflexivity.
Qed.

Lemma ce_trafo : forallb (ce_ok d_trafo_s d_trafo_par) trafo_type_params = true.
Proof. reflexivity. Qed.
Lemma ce_line_copied : forallb (ce_ok d_line_s d_line_par) (line_type_params_copied ++ ["r0_ohm_per_km"; "x0_ohm_per_km"; "c0_nf_per_km"]) = true.
Proof. reflexivity. Qed.
Lemma ce_line_not : filter (fun c => negb (ce_ok d_line_s d_line_par c)) line_type_params = ["alpha"; "endtemp_degree"].
Proof. reflexivity. Qed.
Lemma ce_t3_copied : forallb (ce_ok d_t3_s d_t3_par) t3_type_params_copied = true.
Proof. reflexivity. Qed.
Lemma ce_t3_not : filter (fun c => negb (ce_ok d_t3_s d_t3_par c)) t3_type_params =
  ["vk0_hv_percent"; "vk0_mv_percent"; "vk0_lv_percent"; "vkr0_hv_percent"; "vkr0_mv_percent"; "vkr0_lv_percent"; "vector_group"].
Proof. reflexivity. Qed.
