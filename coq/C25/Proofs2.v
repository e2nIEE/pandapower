(* C25/Proofs2.v — rename_std_type with the element table; the exact write set and the stale columns of change_std_type *)
From Coq Require Import ZArith QArith List Bool String.
From PPV Require Import Base.QN C24.Model C24.Proofs C25.Model C25.Proofs.
Import ListNotations.
Open Scope string_scope.
Open Scope list_scope.

Lemma rename_row_other old new r c : String.eqb "std_type" c = false -> rowget (rename_row old new r) c = rowget r c.
Proof.
  intros H. unfold rename_row. destruct (row_type r) as [| | |s]; try reflexivity.
  destruct (String.eqb s old); [|reflexivity]. rewrite rowget_cons, H. reflexivity.
Qed.
Lemma rename_row_type old new r :
  row_type (rename_row old new r) = match row_type r with VS s => if String.eqb s old then VS new else VS s | v => v end.
Proof.
  unfold rename_row. destruct (row_type r) as [| | |s] eqn:E; try exact E.
  destruct (String.eqb s old); [|exact E]. unfold row_type. rewrite rowget_cons. reflexivity.
Qed.

(* the data an element refers to is the same before and after (unless the row carried the dangling name `new`) *)
Lemma rename_resolve l a b l' r : rename_std l a b = Ok l' -> row_type r <> VS b ->
  resolve l' (rename_row a b r) = resolve l r.
Proof.
  intros R NB. destruct (rename_lget l a b l' R) as (d & A & B & L).
  unfold resolve. rewrite rename_row_type. destruct (row_type r) as [| | |s] eqn:E; try reflexivity.
  destruct (String.eqb s a) eqn:Ea.
  - apply String.eqb_eq in Ea. subst s. rewrite L. unfold fupd. rewrite String.eqb_refl. symmetry. exact A.
  - rewrite L. unfold fupd. destruct (String.eqb b s) eqn:Eb; [apply String.eqb_eq in Eb; subst; congruence|].
    rewrite String.eqb_sym, Ea. reflexivity.
Qed.
Lemma rename_no_old l a b l' r : rename_std l a b = Ok l' -> row_type (rename_row a b r) <> VS a.
Proof.
  intros R. destruct (rename_lget l a b l' R) as (d & A & B & _).
  rewrite rename_row_type. destruct (row_type r) as [| | |s] eqn:E; try discriminate.
  destruct (String.eqb s a) eqn:Ea.
  - intros H. inversion H. congruence.
  - intros H. inversion H. subst. rewrite String.eqb_refl in Ea. discriminate.
Qed.

(* the call either fails without touching anything or succeeds completely: for rename_net (raises = false) and, with
   raises = true, for the kinds with an element table *)
Lemma rename_atomic_gen raises l tab a b : raises = false \/ G25r tab = true ->
  let '(l', tab', e) := rename_net_gen raises l tab a b in
  (e = None <-> exists l1, rename_std l a b = Ok l1) /\ (e <> None -> l' = l /\ tab' = tab).
Proof.
  intros G. unfold rename_net_gen. destruct (rename_std l a b) as [l1|e1].
  - assert (E : match tab with Some _ => None | None => if raises then Some "KeyError" else None end = None).
    { destruct tab; [reflexivity|]. destruct G as [->|G]; [reflexivity | discriminate G]. }
    destruct tab; simpl in E; [|rewrite E]; (split; [split; [eauto|reflexivity]|intros H; congruence]).
  - split; [split; [discriminate|intros [l1 H]; discriminate]|]. auto.
Qed.

Example rename_follows_nonvacuous :
  rename_net [("A", [("r_ohm_per_km", q 1 8)])] (Some [[("std_type", VS "A"); ("length_km", N 2)]; [("std_type", VNaN)]]) "A" "B" =
  ([("B", [("r_ohm_per_km", q 1 8)])], Some [[("std_type", VS "B"); ("std_type", VS "A"); ("length_km", N 2)]; [("std_type", VNaN)]], None).
Proof. reflexivity. Qed.

Lemma cell_eqb_iff a b : cell_eqb a b = true <-> a = b.
Proof. split; [apply cell_eqb_eq|intros ->; apply cell_eqb_refl]. Qed.

Lemma G25_col_In cols c : G25_col cols c = true <-> In c cols.
Proof.
  unfold G25_col. rewrite existsb_exists. split.
  - intros [x [Hx E]]. apply String.eqb_eq in E. subst. exact Hx.
  - intros H. exists c. split; [exact H|apply String.eqb_refl].
Qed.
Lemma written_cols_In cols ty c : In c (written_cols cols ty) <-> c = "std_type" \/ (G25_col cols c = true /\ has ty c = true).
Proof. unfold written_cols. cbn [In]. rewrite filter_In, G25_col_In. intuition. Qed.

(* a type column without explicit argument holds the type's parameter, where the type defines it *)
Lemma ev_param ty v : forall s p, src_param s = Some p -> lookup ty p = Some v -> ev true ty [] s = Some v.
Proof.
  induction s; intros q Hs Hl; simpl in *; try discriminate; try (inversion Hs; subst; rewrite Hl; reflexivity).
  unfold getarg. eapply IHs; eauto.
Qed.
Lemma fresh_of_param ds ty c v : type_col ds c = true -> lookup ty c = Some v -> fresh_val ds ty c = v.
Proof.
  unfold type_col, fresh_val, single_val. destruct (spec_of ds c) as [s|]; [|discriminate].
  destruct (src_param s) as [p|] eqn:P; [|discriminate]. intros E Hl. apply String.eqb_eq in E. subst p.
  rewrite (ev_param ty v s c P Hl). reflexivity.
Qed.

(* a transformer with a tap changer changed to a type without tap data: the tap columns are stale *)
Definition w_cols := ["std_type"; "sn_mva"; "vk_percent"; "tap_side"; "tap_step_percent"; "tap_pos"; "shift_degree"].
Definition w_ty : amap := [("sn_mva", q 25 1); ("vk_percent", q 12 1)].
Definition w_row : amap := [("std_type", VS "OLD"); ("sn_mva", q 40 1); ("vk_percent", q 16 1); ("tap_side", VS "hv");
                            ("tap_step_percent", q 3 2); ("tap_pos", N 3); ("shift_degree", N 150)].
Example nostale_nonvacuous :
  G25_nostale d_trafo_s w_cols (w_ty ++ [("tap_side", VS "lv"); ("tap_step_percent", q 5 2); ("shift_degree", N 0)]) w_row = true /\
  type_col d_trafo_s "tap_side" = true.
Proof. split; reflexivity. Qed.
