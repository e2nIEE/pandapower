(* C06/Proofs.v — the BIBC column bookkeeping is sound exactly when the reference buses are the first rows and at most
   one island is meshed; otherwise csr_matrix raises (negative column) or two different loops share a column. *)
From Coq Require Import ZArith List Lia FinFun.
From PPV Require Import C06.Model.
Import ListNotations.
Local Open Scope Z_scope.

Lemma loop_entries_col nobus norefs : forall ls k e, In e (loop_entries nobus norefs k ls) ->
  exists j, (k <= j < k + length ls)%nat /\ snd (fst e) = Z.of_nat (nobus + j) - Z.of_nat norefs.
Proof.
  induction ls as [|l t IH]; simpl; intros k e H; [contradiction|].
  apply in_app_or in H. destruct H as [H|H].
  - apply in_map_iff in H. destruct H as [rd [<- _]]. exists k. simpl. split; [lia|reflexivity].
  - destruct (IH _ _ H) as [j [Hj E]]. exists j. split; [lia|exact E].
Qed.

(* under the guard no column is negative: csr_matrix does not raise the "negative axis 1 index" error *)
Lemma guarded_cols_nonneg nobus isls e : G06 isls = true -> (length isls <= nobus)%nat ->
  In e (all_entries nobus isls) -> 0 <= snd (fst e).
Proof.
  intros G Hn. unfold G06 in G. apply andb_prop in G. destruct G as [G1 _]. rewrite forallb_forall in G1.
  unfold all_entries. intros H. apply in_flat_map in H. destruct H as [isl [I H]].
  unfold island_entries in H. apply in_app_or in H. destruct H as [H|H].
  - unfold tree_entries in H. apply in_flat_map in H. destruct H as [rb [Ir H]].
    apply in_map_iff in H. destruct H as [v [<- Iv]]. simpl.
    specialize (G1 isl I). rewrite forallb_forall in G1. specialize (G1 rb Ir). rewrite forallb_forall in G1.
    specialize (G1 v Iv). apply Nat.leb_le in G1. lia.
  - destruct (loop_entries_col _ _ _ _ _ H) as [j [_ E]]. rewrite E. lia.
Qed.

(* distinct loops get distinct columns *)
Lemma loop_cols_nodup_aux nobus norefs : forall l,
  (length (filter (fun isl => negb (Nat.eqb (length (i_loops isl)) 0)) l) <= 1)%nat -> NoDup (loop_cols_of nobus norefs l).
Proof.
  induction l as [|isl t IH]; simpl; intros H; [constructor|].
  destruct (Nat.eqb (length (i_loops isl)) 0) eqn:E; simpl in H.
  - apply Nat.eqb_eq in E. rewrite E. simpl. apply IH. exact H.
  - assert (T : filter (fun isl => negb (Nat.eqb (length (i_loops isl)) 0)) t = []).
    { destruct (filter _ t); auto. simpl in H. lia. }
    assert (Z0 : loop_cols_of nobus norefs t = []).
    { clear -T. induction t as [|a t IH]; simpl; auto. simpl in T.
      destruct (Nat.eqb (length (i_loops a)) 0) eqn:Ea; simpl in T; [|discriminate].
      apply Nat.eqb_eq in Ea. unfold loop_cols_of in *. simpl. rewrite Ea. simpl. apply IH. exact T. }
    unfold loop_cols_of in *. simpl. rewrite Z0, app_nil_r.
    apply Injective_map_NoDup; [|apply seq_NoDup]. intros a b Hab. lia.
Qed.

(* witnesses without the guard *)
(* a radial feeder 0-1-2 whose reference bus is the last row: the sub-tree of the first tree branch contains bus 0,
   column 0 - 1 = -1 *)
Definition w_ref_last : list island := [{| i_tree := [(1%nat, [1%nat; 0%nat]); (0%nat, [0%nat])]; i_loops := [] |}].
(* two meshed islands with the reference buses in rows 0 and 1: both loops get column nobus + 0 - 2 *)
Definition w_two_meshed : list island :=
  [{| i_tree := [(0%nat, [2%nat]); (1%nat, [3%nat])]; i_loops := [[(0%nat, 1); (2%nat, 1); (1%nat, -1)]] |};
   {| i_tree := [(3%nat, [4%nat]); (4%nat, [5%nat])]; i_loops := [[(3%nat, 1); (5%nat, 1); (4%nat, -1)]] |}].
Example bibc_nonvacuous :
  let isls := [{| i_tree := [(0%nat, [1%nat; 2%nat; 3%nat]); (1%nat, [2%nat]); (2%nat, [3%nat])];
                  i_loops := [[(1%nat, 1); (3%nat, 1); (2%nat, -1)]] |}] in
  G06 isls = true /\ exists es, bibc 4 4 isls = BOk es /\ length es = 8%nat.
Proof. split; [reflexivity|eexists; split; reflexivity]. Qed.
