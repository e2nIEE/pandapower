(* C06/ShiftProofs.v — the sub-tree rotations of _run_bfswpf add up to the cumulative shift along the tree path from the
   root exactly when every phase-shifting branch is a branch of the spanning tree; a phase-shifting branch that closes a
   loop rotates a sub-tree a second time. *)
From Coq Require Import QArith List Lia.
From PPV Require Import Base.QN C06.Pfsoln C06.Shift.
Import ListNotations.
Open Scope Q_scope.

Lemma memb_In x l : memb x l = true <-> In x l.
Proof.
  unfold memb. rewrite existsb_exists. split.
  - intros [y [H E]]. apply Nat.eqb_eq in E. now subst.
  - intros H. exists x. split; [exact H|apply Nat.eqb_refl].
Qed.
Lemma memb_false x l : memb x l = false <-> ~ In x l.
Proof. rewrite <- memb_In. destruct (memb x l); split; congruence. Qed.

Lemma edge_eq_dec (a b : edge) : {a = b} + {a <> b}.
Proof. decide equality; apply Nat.eq_dec. Qed.

Lemma fold_desc_mono es : forall S x, In x S -> In x (fold_left desc_step es S).
Proof. induction es as [|e t IH]; simpl; intros S x H; auto. apply IH. unfold desc_step. destruct (memb (fst e) S); simpl; auto. Qed.
Lemma desc_self es x : memb x (desc es x) = true.
Proof. apply memb_In, fold_desc_mono. simpl. auto. Qed.
Lemma fold_desc_sub es : forall S y, In y (fold_left desc_step es S) -> In y S \/ In y (map snd es).
Proof.
  induction es as [|e t IH]; simpl; intros S y H; auto. apply IH in H. destruct H as [H|H]; auto.
  unfold desc_step in H. destruct (memb (fst e) S); simpl in H; [destruct H as [<-|H]|]; auto.
Qed.
Lemma fold_desc_noparent es x : (forall e, In e es -> fst e <> x) -> fold_left desc_step es [x] = [x].
Proof.
  induction es as [|e t IH]; simpl; intros H; auto.
  assert (E : desc_step [x] e = [x]).
  { unfold desc_step, memb. simpl. destruct (Nat.eqb (fst e) x) eqn:E; [|reflexivity]. apply Nat.eqb_eq in E. elim (H e (or_introl eq_refl) E). }
  rewrite E. apply IH. intros e' H'. apply H. now right.
Qed.
Lemma desc_snoc es e x : desc (es ++ [e]) x = desc_step (desc es x) e.
Proof. unfold desc. now rewrite fold_left_app. Qed.

Lemma ok_parents root r : ok_rev root r = true -> forall e, In e r -> In (fst e) (root :: map snd r).
Proof.
  induction r as [|[p c] r' IH]; intros H e He; [contradiction|]. cbn [ok_rev] in H.
  apply andb_prop in H. destruct H as [H H3]. apply andb_prop in H. destruct H as [H1 H2].
  destruct He as [<-|He].
  - apply memb_In in H1. simpl in *. destruct H1; auto.
  - specialize (IH H3 e He). simpl in *. destruct IH; auto.
Qed.
Lemma ok_nodup root r : ok_rev root r = true -> NoDup (map snd r).
Proof.
  induction r as [|[p c] r' IH]; intros H; [constructor|]. cbn [ok_rev] in H.
  apply andb_prop in H. destruct H as [H H3]. apply andb_prop in H. destruct H as [_ H2].
  simpl. constructor; [|auto]. apply negb_true_iff, memb_false in H2. simpl in H2. tauto.
Qed.
Lemma ok_app root x : forall y, ok_rev root (x ++ y) = true -> ok_rev root y = true.
Proof. induction x as [|[p c] x IH]; intros y H; auto. rewrite <- app_comm_cons in H. cbn [ok_rev] in H. apply andb_prop in H. destruct H as [_ H]. auto. Qed.

(* the path shift is the sum of the branch shifts over the branches whose sub-tree contains the bus *)
Lemma path_as_sum (w : nat -> nat -> Q) root : forall r, ok_rev root r = true -> forall b,
  path_rev w r b == qsum (map (fun e : edge => if memb b (desc (rev r) (snd e)) then w (fst e) (snd e) else 0) r).
Proof.
  induction r as [|[p c] r' IH]; intros H b; [reflexivity|].
  pose proof H as H0. cbn [ok_rev] in H. apply andb_prop in H. destruct H as [H H3]. apply andb_prop in H. destruct H as [H1 H2].
  apply memb_In in H1. apply negb_true_iff, memb_false in H2.
  assert (Pc : p <> c) by (intros ->; auto).
  (* the sub-tree of the new child is the child alone *)
  assert (Dc : desc (@rev edge (@cons edge (p, c) r')) c = [c]).
  { simpl rev. rewrite desc_snoc. unfold desc. rewrite fold_desc_noparent.
    - unfold desc_step, memb. simpl. destruct (Nat.eqb p c) eqn:E; [apply Nat.eqb_eq in E; contradiction|reflexivity].
    - intros e He Ee. apply in_rev in He. pose proof (ok_parents root r' H3 e He) as P. rewrite Ee in P. auto. }
  (* the other sub-trees gain c exactly when they contain p *)
  assert (De : forall e, In e r' -> memb b (desc (@rev edge (@cons edge (p, c) r')) (snd e)) =
                                    memb (if Nat.eqb b c then p else b) (desc (rev r') (snd e))).
  { intros e He. simpl rev. rewrite desc_snoc.
    assert (cD : memb c (desc (rev r') (snd e)) = false).
    { apply memb_false. intros I. apply fold_desc_sub in I. apply H2. simpl. right. destruct I as [[I|[]]|I].
      - rewrite <- I. apply in_map. exact He.
      - rewrite map_rev in I. now apply in_rev in I. }
    remember (desc (rev r') (snd e)) as D eqn:HD. clear HD.
    unfold desc_step. cbn [fst snd]. destruct (Nat.eqb b c) eqn:E.
    - apply Nat.eqb_eq in E. subst b. destruct (memb p D) eqn:EP; [|exact cD]. unfold memb. simpl. now rewrite Nat.eqb_refl.
    - destruct (memb p D); [|reflexivity]. unfold memb at 1. simpl. rewrite E. reflexivity. }
  cbn [path_rev map qsum fold_right fst snd]. rewrite Dc.
  rewrite (map_ext_in _ (fun e : edge => if memb (if Nat.eqb b c then p else b) (desc (rev r') (snd e)) then w (fst e) (snd e) else 0))
    by (intros e He; rewrite (De e He); reflexivity).
  unfold memb at 1. cbn [existsb]. rewrite orb_false_r.
  destruct (Nat.eqb b c) eqn:E.
  - rewrite (IH H3 p). unfold qsum. qstrip. ring.
  - rewrite (IH H3 b). unfold qsum. qstrip. ring.
Qed.

Lemma posn_app_in x l1 l2 : In x l1 -> posn (l1 ++ l2) x = posn l1 x /\ (posn l1 x < length l1)%nat.
Proof.
  induction l1 as [|y t IH]; simpl; intros H; [contradiction|].
  destruct (Nat.eqb x y) eqn:E; [split; [reflexivity|lia]|].
  destruct H as [H|H]; [subst; rewrite Nat.eqb_refl in E; discriminate|]. destruct (IH H). split; lia.
Qed.
Lemma posn_app_notin x l1 l2 : ~ In x l1 -> posn (l1 ++ x :: l2) x = length l1.
Proof.
  induction l1 as [|y t IH]; simpl; intros H; [now rewrite Nat.eqb_refl|].
  destruct (Nat.eqb x y) eqn:E; [apply Nat.eqb_eq in E; subst; tauto|]. rewrite IH; tauto.
Qed.
Lemma edge_pos root es p c : tree_ok root es = true -> In (p, c) es ->
  (posn (order root es) p < posn (order root es) c)%nat.
Proof.
  intros T I. apply in_split in I. destruct I as [a [b' ->]]. unfold tree_ok in T.
  rewrite rev_app_distr in T. simpl in T. rewrite <- app_assoc in T. apply ok_app in T. cbn [ok_rev] in T.
  apply andb_prop in T. destruct T as [T _]. apply andb_prop in T. destruct T as [T1 T2].
  apply memb_In in T1. apply negb_true_iff, memb_false in T2.
  assert (P : In p (root :: map snd a)). { simpl in *. rewrite map_rev in T1. destruct T1; auto. right. now apply in_rev. }
  assert (N : ~ In c (root :: map snd a)). { intros X. apply T2. simpl in *. rewrite map_rev. destruct X; auto. right. now apply in_rev in H. }
  unfold order. rewrite map_app. simpl map.
  change (root :: map snd a ++ c :: map snd b') with ((root :: map snd a) ++ c :: map snd b').
  rewrite (posn_app_notin _ _ _ N). destruct (posn_app_in p _ (c :: map snd b') P) as [-> L]. exact L.
Qed.

Lemma qsum_map_ext {A} (F G : A -> Q) l : (forall x, In x l -> F x == G x) -> qsum (map F l) == qsum (map G l).
Proof.
  induction l as [|a t IH]; simpl; intros H; [reflexivity|]. qstrip. rewrite (H a (or_introl eq_refl)), IH; [reflexivity|].
  intros x Hx. apply H. now right.
Qed.
Lemma qsum_map_add {A} (F G : A -> Q) l : qsum (map (fun x => qadd (F x) (G x)) l) == qsum (map F l) + qsum (map G l).
Proof. induction l as [|a t IH]; simpl; [ring|]. qstrip. rewrite IH. ring. Qed.
Lemma qsum_map_0 {A} (l : list A) : qsum (map (fun _ => 0) l) == 0.
Proof. induction l as [|a t IH]; simpl; [reflexivity|]. qstrip. rewrite IH. ring. Qed.
Lemma sum_zero (h : nat -> bool) (g : edge -> Q) l : (forall e, In e l -> g e == 0) ->
  qsum (map (fun e => if h (snd e) then g e else 0) l) == 0.
Proof.
  intros H. rewrite (qsum_map_ext _ (fun _ => 0)); [apply qsum_map_0|]. intros e He. destruct (h (snd e)); [apply H, He|reflexivity].
Qed.
Lemma collapse (h : nat -> bool) (g : edge -> Q) e0 : forall l, NoDup (map snd l) -> In e0 l ->
  (forall e, In e l -> e <> e0 -> g e == 0) -> qsum (map (fun e => if h (snd e) then g e else 0) l) == if h (snd e0) then g e0 else 0.
Proof.
  induction l as [|a t IH]; simpl; intros N I Z; [contradiction|]. inversion N as [|x l' Nx Nt]; subst. qstrip.
  destruct (edge_eq_dec a e0) as [->|Ne].
  - rewrite sum_zero; [ring|]. intros e He. apply Z; auto. intros ->. apply Nx. now apply in_map.
  - destruct I as [I|I]; [contradiction|]. rewrite (IH Nt I) by (intros e He; apply Z; auto).
    pose proof (Z a (or_introl eq_refl) Ne) as Za. destruct (h (snd a)); [rewrite Za|]; ring.
Qed.
Lemma exchange (d : list trafo) (hb : edge -> bool) (W : trafo -> edge -> Q) : forall l : list edge,
  qsum (map (fun e => if hb e then qsum (map (fun tr => W tr e) d) else 0) l) ==
  qsum (map (fun tr => qsum (map (fun e => if hb e then W tr e else 0) l)) d).
Proof.
  induction l as [|a t IH]; simpl.
  - now rewrite qsum_map_0.
  - rewrite (qsum_map_add (fun tr => if hb a then W tr a else 0)). qstrip. rewrite IH.
    destruct (hb a); [reflexivity|]. rewrite qsum_map_0. reflexivity.
Qed.

Lemma edge_in_In p c es : edge_in p c es = true <-> In (p, c) es.
Proof.
  unfold edge_in. rewrite existsb_exists. split.
  - intros [[a b] [I E]]. simpl in E. apply andb_prop in E. destruct E as [E1 E2]. apply Nat.eqb_eq in E1, E2. now subst.
  - intros I. exists (p, c). simpl. now rewrite !Nat.eqb_refl.
Qed.

(* a tree branch that is neither the transformer's (f, t) nor (t, f) carries none of its shift *)
Lemma w_tr_other f t s p c : (p, c) <> (f, t) -> (p, c) <> (t, f) -> w_tr (f, t, s) p c = 0.
Proof.
  intros N1 N2. cbn [w_tr].
  destruct (Nat.eqb f p && Nat.eqb t c) eqn:A.
  { apply andb_prop in A. destruct A as [A1 A2]. apply Nat.eqb_eq in A1, A2. subst. now elim N1. }
  destruct (Nat.eqb f c && Nat.eqb t p) eqn:B; [|reflexivity].
  apply andb_prop in B. destruct B as [B1 B2]. apply Nat.eqb_eq in B1, B2. subst. now elim N2.
Qed.

(* one tree transformer — the branches of the tree carrying its shift collapse to its sub-tree rotation *)
Lemma one_trafo root es f t s b : tree_ok root es = true -> edge_in f t es || edge_in t f es = true ->
  qsum (map (fun e : edge => if memb b (desc es (snd e)) then w_tr (f, t, s) (fst e) (snd e) else 0) (rev es)) ==
  contrib root es (f, t, s) b.
Proof.
  intros T G. pose proof (ok_nodup root _ T) as N.
  assert (X : forall x y, In (x, y) es -> In (y, x) es -> False).
  { intros x y I1 I2. pose proof (edge_pos root es x y T I1). pose proof (edge_pos root es y x T I2). lia. }
  unfold contrib. destruct (edge_in f t es) eqn:E1.
  - apply edge_in_In in E1. pose proof (edge_pos root es f t T E1) as L. apply Nat.ltb_lt in L. rewrite L.
    rewrite (collapse (fun c => memb b (desc es c)) (fun e => w_tr (f, t, s) (fst e) (snd e)) (f, t) (rev es) N).
    + cbn [fst snd w_tr]. rewrite !Nat.eqb_refl. reflexivity.
    + now apply in_rev in E1.
    + intros [p c] He Ne. apply in_rev in He. cbn [fst snd]. rewrite w_tr_other; [reflexivity|exact Ne|].
      intros Q. inversion Q; subst. exact (X _ _ He E1).
  - simpl in G. apply edge_in_In in G. pose proof (edge_pos root es t f T G) as L.
    assert (L' : Nat.ltb (posn (order root es) f) (posn (order root es) t) = false) by (apply Nat.ltb_ge; lia). rewrite L'.
    assert (Nft : Nat.eqb f t = false). { apply Nat.eqb_neq. intros ->. lia. }
    rewrite (collapse (fun c => memb b (desc es c)) (fun e => w_tr (f, t, s) (fst e) (snd e)) (t, f) (rev es) N).
    + cbn [fst snd w_tr]. rewrite Nft, !Nat.eqb_refl. reflexivity.
    + now apply in_rev in G.
    + intros [p c] He Ne. apply in_rev in He. cbn [fst snd]. rewrite w_tr_other; [reflexivity| |exact Ne].
      intros Q. inversion Q; subst. exact (X _ _ G He).
Qed.

(* the post-rotation equals the cumulative shift along the tree path, for every set of phase-shifting branches *)
Lemma non_tree_zero es f t s (h : nat -> bool) : edge_in f t es || edge_in t f es = false ->
  qsum (map (fun e : edge => if h (snd e) then w_tr (f, t, s) (fst e) (snd e) else 0) (rev es)) == 0.
Proof.
  intros N. apply orb_false_elim in N. destruct N as [N1 N2]. apply sum_zero. intros [p c] He. apply in_rev, edge_in_In in He.
  cbn [fst snd]. rewrite w_tr_other; [reflexivity| |]; intros Q; inversion Q; subst; congruence.
Qed.
Theorem rot_eq_path root es trafos b : tree_ok root es = true -> rot_impl root es trafos b == path_shift es trafos b.
Proof.
  intros T. unfold rot_impl, path_shift. rewrite (path_as_sum _ root (rev es) T b). rewrite rev_involutive. unfold w_of.
  rewrite (exchange (dict_of trafos) (fun e => memb b (desc es (snd e))) (fun tr e => w_tr tr (fst e) (snd e))).
  apply qsum_map_ext. intros [[f t] s] I. symmetry. unfold is_tree. cbn [fst snd].
  destruct (edge_in f t es || edge_in t f es) eqn:E.
  - apply one_trafo; assumption.
  - apply (non_tree_zero es f t s (fun c => memb b (desc es c)) E).
Qed.

Example rot_nonvacuous :
  let es := [(0, 1); (0, 2); (2, 3)]%nat in let trafos := [(0%nat, 2%nat, 30); (1%nat, 2%nat, 30); (1%nat, 2%nat, 30)] in
  tree_ok 0 es = true /\ G06t es trafos = false /\ rot_impl 0 es trafos 3 == -30 /\ rot_impl 0 es trafos 1 == 0 /\
  path_shift es trafos 3 == -30.
Proof. repeat split; reflexivity. Qed.
