(* C06/PfsolnProofs.v — the three pfsoln variants give the same slack P/Q exactly under the guard of _get_numba_functions.
   Main line: the complex power balance  sum_k baseMVA*Sbus[k] = sum_br (Sf + St) + sum_k |V_k|^2 (GS_k - j BS_k)
   (a consequence of Ybus = Cf.T*Yf + Ct.T*Yt + diag(Ysh)), from which
     single - std = sum_{k <> slack} mismatch_k - sum_k |V_k|^2 (GS_k - j BS_k). *)
From Coq Require Import QArith List Lia.
From PPV Require Import Base.QN Base.QC C06.Pfsoln.
Import ListNotations.
Open Scope Q_scope.

(* leaf algebra on abstract complex numbers: conjugation is additive and scaling by b is multiplication by b *)
Lemma alg_conj_add b v x R : Cscale b (Cmul v (Cconj (Cadd x R))) ==c
  Cadd (Cscale b (Cmul v (Cconj x))) (Cscale b (Cmul v (Cconj R))).
Proof. rewrite Cconj_add, !Cscale_mul. ring. Qed.
Lemma alg_flow b v a c : Cscale b (Cmul v (Cconj (Cadd a c))) ==c Cmul (Cadd (Cscale b (Cconj a)) (Cscale b (Cconj c))) v.
Proof. rewrite Cconj_add, !Cscale_mul. ring. Qed.
Lemma alg_conj_0 b v : Cscale b (Cmul v (Cconj C0)) ==c C0.
Proof. cstrip; ring. Qed.
Lemma alg_shunt b g s v : ~ b == 0 ->
  Cscale b (Cmul v (Cconj (Cmul (mkC (qdiv g b) (qdiv s b)) v))) ==c Cscale (cnorm2 v) (mkC g (qopp s)).
Proof. intros H. cstrip; field; exact H. Qed.

Lemma Csum_map_ext {A} (F G : A -> C) l : (forall x, In x l -> F x ==c G x) -> Csum (map F l) ==c Csum (map G l).
Proof.
  induction l as [|a t IH]; simpl; intros H; [reflexivity|].
  rewrite (H a (or_introl eq_refl)), IH; [reflexivity|]. intros x Hx. apply H. now right.
Qed.
Lemma Csum_map_add {A} (F G : A -> C) l : Csum (map (fun x => Cadd (F x) (G x)) l) ==c Cadd (Csum (map F l)) (Csum (map G l)).
Proof.
  induction l as [|a t IH]; simpl; [ring|]. rewrite IH. ring.
Qed.
Lemma Csum_map_0 {A} (l : list A) : Csum (map (fun _ => C0) l) ==c C0.
Proof. induction l as [|a t IH]; simpl; [reflexivity|]. rewrite IH. ring. Qed.
(* one bus collects a term: sum_k [f = k] h = h for f among the k *)
Lemma Csum_indicator_out f h : forall n a, (f < a)%nat -> Csum (map (fun k => if Nat.eqb f k then h else C0) (seq a n)) ==c C0.
Proof.
  induction n as [|n IH]; simpl; intros a H; [reflexivity|].
  destruct (Nat.eqb f a) eqn:E; [apply Nat.eqb_eq in E; lia|]. rewrite IH by lia. ring.
Qed.
Lemma Csum_indicator f h : forall n a, (a <= f < a + n)%nat -> Csum (map (fun k => if Nat.eqb f k then h else C0) (seq a n)) ==c h.
Proof.
  induction n as [|n IH]; simpl; intros a H; [lia|].
  destruct (Nat.eqb f a) eqn:E.
  - apply Nat.eqb_eq in E. rewrite Csum_indicator_out by lia. ring.
  - apply Nat.eqb_neq in E. rewrite IH by lia. ring.
Qed.
Lemma Csum_exchange {A} (f : A -> nat) (h : A -> C) n : forall l, (forall x, In x l -> (f x < n)%nat) ->
  Csum (map (fun k => Csum (map (fun x => if Nat.eqb (f x) k then h x else C0) l)) (seq 0 n)) ==c Csum (map h l).
Proof.
  induction l as [|a t IH]; intros H.
  - simpl. apply Csum_map_0.
  - cbn [map Csum fold_right].
    rewrite (Csum_map_add (fun k => if Nat.eqb (f a) k then h a else C0)
                          (fun k => fold_right Cadd C0 (map (fun x => if Nat.eqb (f x) k then h x else C0) t))).
    rewrite Csum_indicator by (pose proof (H a (or_introl eq_refl)); lia).
    fold (Csum (map h t)). rewrite <- IH by (intros x Hx; apply H; now right). reflexivity.
Qed.
Lemma Csum_split (F : nat -> C) n s : (s < n)%nat ->
  Csum (map F (seq 0 n)) ==c Cadd (F s) (Csum (map (fun k => if Nat.eqb k s then C0 else F k) (seq 0 n))).
Proof.
  intros H.
  rewrite (Csum_map_ext F (fun k => Cadd (if Nat.eqb s k then F s else C0) (if Nat.eqb k s then C0 else F k))).
  - rewrite (Csum_map_add (fun k => if Nat.eqb s k then F s else C0)). rewrite Csum_indicator by lia. reflexivity.
  - intros k _. rewrite (Nat.eqb_sym s k). destruct (Nat.eqb k s) eqn:E.
    + apply Nat.eqb_eq in E. subst. ring.
    + ring.
Qed.
(* v * conj(sum_br [c br] g br) scaled = sum_br [c br] g' br *)
Lemma Csum_conj_push {A} b v (c : A -> bool) (g g' : A -> C) : forall l,
  (forall x, In x l -> c x = true -> Cscale b (Cmul v (Cconj (g x))) ==c g' x) ->
  Cscale b (Cmul v (Cconj (Csum (map (fun x => if c x then g x else C0) l)))) ==c Csum (map (fun x => if c x then g' x else C0) l).
Proof.
  induction l as [|a t IH]; intros H; cbn [map Csum fold_right]; [apply alg_conj_0|].
  rewrite alg_conj_add. fold (Csum (map (fun x => if c x then g x else C0) t)). rewrite IH by (intros x Hx; apply H; now right).
  destruct (c a) eqn:E.
  - rewrite (H a (or_introl eq_refl) E). reflexivity.
  - rewrite alg_conj_0. reflexivity.
Qed.
Lemma map_seq_nth {A B} (f : A -> B) d l : map (fun k => f (nth k l d)) (seq 0 (length l)) = map f l.
Proof. induction l as [|a t IH]; simpl; [reflexivity|]. f_equal. rewrite <- seq_shift, map_map. exact IH. Qed.
Lemma Csum_re_im {A} (h : A -> C) l :
  Csum (map h l) ==c mkC (qsum (map (fun x => re (h x)) l)) (qsum (map (fun x => im (h x)) l)).
Proof. induction l as [|a t IH]; simpl; [reflexivity|]. rewrite IH. split; reflexivity. Qed.

(* the two ways of computing the branch flows agree: all three variants write the same PF QF PT QT *)
Lemma sf_mat_nb p br : sf_mat p br ==c sf_nb p br.
Proof. unfold sf_mat, sf_nb, i_f. apply alg_flow. Qed.
Lemma st_mat_nb p br : st_mat p br ==c st_nb p br.
Proof. unfold st_mat, st_nb, i_t. apply alg_flow. Qed.
Definition flows_eq (a b : list (C * C)) : Prop := Forall2 (fun x y => fst x ==c fst y /\ snd x ==c snd y) a b.
Global Instance flows_eq_equiv : Equivalence flows_eq.
Proof.
  split.
  - intros l. induction l; constructor; [split; reflexivity | assumption].
  - intros a b H. induction H as [|x y a b [H1 H2] _ IH]; constructor; [split; symmetry; assumption | exact IH].
  - intros a b c H. revert c. induction H as [|x y a b [H1 H2] _ IH]; intros c Hc; inversion Hc as [|? z ? c' [H3 H4] Hc']; subst;
      constructor; [split; etransitivity; eassumption | apply IH, Hc'].
Qed.
(* every variant writes what the numba loop computes *)
Lemma flows_loop_form p v : flows_eq (flows_of v p) (map (fun br => (sf_nb p br, st_nb p br)) (p_br p)).
Proof.
  destruct v; try reflexivity. simpl. induction (p_br p); simpl; constructor; [|assumption].
  split; [apply sf_mat_nb | apply st_mat_nb].
Qed.

Section Balance.
Variable p : ppc.
Hypothesis W : wf p = true.
Hypothesis B0 : ~ p_base p == 0.

Lemma wf_br br : In br (p_br p) -> (b_f br < nb p)%nat /\ (b_t br < nb p)%nat.
Proof.
  pose proof W as W'. unfold wf in W'. apply andb_prop in W'. destruct W' as [_ F]. rewrite forallb_forall in F. intros H.
  specialize (F br H). apply andb_prop in F. destruct F as [F1 F2]. apply Nat.ltb_lt in F1, F2. auto.
Qed.
Lemma wf_slack : (p_slack p < nb p)%nat.
Proof. pose proof W as W'. unfold wf in W'. apply andb_prop in W'. destruct W' as [W' _]. apply andb_prop in W'. destruct W' as [W' _].
  apply andb_prop in W'. destruct W' as [W' _]. now apply Nat.ltb_lt in W'. Qed.

Definition shunt_c : C := Csum (map (fun k => Cscale (cnorm2 (vat p k)) (mkC (gs (row p k)) (qopp (bs (row p k))))) (seq 0 (nb p))).
Definition Sbr : C := Csum (map (fun br => Cadd (sf_nb p br) (st_nb p br)) (p_br p)).
Definition Sld : C := Csum (map (fun r => mkC (pd r) (qd r)) (p_bus p)).

Lemma sbus_decomp k : Cscale (p_base p) (sbus p k) ==c
  Cadd (Cadd (Csum (map (fun br => if Nat.eqb (b_f br) k then sf_nb p br else C0) (p_br p)))
             (Csum (map (fun br => if Nat.eqb (b_t br) k then st_nb p br else C0) (p_br p))))
       (Cscale (cnorm2 (vat p k)) (mkC (gs (row p k)) (qopp (bs (row p k))))).
Proof.
  unfold sbus, ybusv. rewrite !alg_conj_add. unfold ysh. rewrite (alg_shunt _ _ _ _ B0).
  rewrite (Csum_conj_push (p_base p) (vat p k) (fun br => Nat.eqb (b_f br) k) (i_f p) (sf_nb p)).
  2:{ intros br _ E. apply Nat.eqb_eq in E. subst k. apply sf_mat_nb. }
  rewrite (Csum_conj_push (p_base p) (vat p k) (fun br => Nat.eqb (b_t br) k) (i_t p) (st_nb p)).
  2:{ intros br _ E. apply Nat.eqb_eq in E. subst k. apply st_mat_nb. }
  reflexivity.
Qed.

Theorem power_balance : Csum (map (fun k => Cscale (p_base p) (sbus p k)) (seq 0 (nb p))) ==c Cadd Sbr shunt_c.
Proof.
  rewrite (Csum_map_ext _ _ _ (fun k _ => sbus_decomp k)).
  rewrite (Csum_map_add (fun k => Cadd (Csum (map (fun br => if Nat.eqb (b_f br) k then sf_nb p br else C0) (p_br p)))
                                       (Csum (map (fun br => if Nat.eqb (b_t br) k then st_nb p br else C0) (p_br p))))).
  rewrite (Csum_map_add (fun k => Csum (map (fun br => if Nat.eqb (b_f br) k then sf_nb p br else C0) (p_br p)))).
  rewrite (Csum_exchange b_f (sf_nb p)) by (intros br H; apply (wf_br br H)).
  rewrite (Csum_exchange b_t (st_nb p)) by (intros br H; apply (wf_br br H)).
  unfold Sbr, shunt_c. rewrite (Csum_map_add (sf_nb p) (st_nb p)). reflexivity.
Qed.

Definition std_c : C := mis p (p_slack p).
Definition single_c : C := Cadd Sbr Sld.
Definition rest_mis : C := Csum (map (fun k => if Nat.eqb k (p_slack p) then C0 else mis p k) (seq 0 (nb p))).

Lemma Sld_seq : Sld = Csum (map (fun k => mkC (pd (row p k)) (qd (row p k))) (seq 0 (nb p))).
Proof. unfold Sld, nb, row. now rewrite (map_seq_nth (fun r => mkC (pd r) (qd r)) row0). Qed.

(* single - std = sum of the mismatches of the other buses - shunt power *)
Theorem single_vs_std_c : single_c ==c Cadd std_c (Csub rest_mis shunt_c).
Proof.
  assert (T : Csum (map (mis p) (seq 0 (nb p))) ==c Cadd (Cadd Sbr shunt_c) Sld).
  { unfold mis. rewrite (Csum_map_add (fun k => Cscale (p_base p) (sbus p k))). rewrite power_balance, <- Sld_seq. reflexivity. }
  rewrite (Csum_split (mis p) (nb p) (p_slack p) wf_slack) in T. fold rest_mis std_c in T.
  unfold single_c. transitivity (Csub (Cadd (Cadd Sbr shunt_c) Sld) shunt_c); [ring|]. rewrite <- T. ring.
Qed.

Lemma single_is : mkC (fst (slack_single p)) (snd (slack_single p)) ==c single_c.
Proof. unfold slack_single, single_c, Sbr, Sld. rewrite !Csum_re_im. cbn [fst snd re im Cadd]. split; reflexivity. Qed.
Lemma std_is : mkC (fst (slack_std p false)) (snd (slack_std p false)) ==c std_c.
Proof. unfold slack_std, std_c, mis, sload_p, sload_q. generalize (sbus p (p_slack p)). intros z. cstrip; ring. Qed.
End Balance.

Definition solved (p : ppc) : Prop := forall k, (k < nb p)%nat -> k <> p_slack p -> mis p k ==c C0.
Definition slack_eq (a b : Q * Q) : Prop := fst a == fst b /\ snd a == snd b.

Lemma rest_mis_0 p : solved p -> rest_mis p ==c C0.
Proof.
  intros S. unfold rest_mis. rewrite (Csum_map_ext _ (fun _ => C0)); [apply Csum_map_0|].
  intros k Hk. apply in_seq in Hk. destruct (Nat.eqb k (p_slack p)) eqn:E; [reflexivity|]. apply Nat.eqb_neq in E. apply S; lia.
Qed.
Lemma shunt_c_0 p : forallb (fun r => qeqb (gs r) 0 && qeqb (bs r) 0) (p_bus p) = true -> shunt_c p ==c C0.
Proof.
  intros G. rewrite forallb_forall in G. unfold shunt_c. rewrite (Csum_map_ext _ (fun _ => C0)); [apply Csum_map_0|].
  intros k Hk. apply in_seq in Hk. assert (I : In (row p k) (p_bus p)) by (apply nth_In; unfold nb in Hk; lia).
  specialize (G _ I). apply andb_prop in G. destruct G as [G1 G2]. apply qeqb_eq in G1, G2.
  generalize (cnorm2 (vat p k)). intros n. cstrip; rewrite ?G1, ?G2; ring.
Qed.

Lemma existsb_negb_forallb {A} (f : A -> bool) l : negb (existsb (fun x => negb (f x)) l) = forallb f l.
Proof. induction l as [|a t IH]; simpl; [reflexivity|]. rewrite negb_orb, negb_involutive, IH. reflexivity. Qed.
Definition ymk (a b : Q) : C := mkC a b.
(* two buses, one line y = 1 - 2j, V = (1, 0.9), a bus conductance GS = 0.1 MW at bus 1; PD/QD of bus 1 chosen such that
   the power flow equations hold exactly *)
Definition w_gs : ppc :=
  {| p_base := 1;
     p_bus := [row0; {| pd := 9#1000; qd := 9#50; gs := 1#10; bs := 0; ci_p := 0; cz_p := 0; ci_q := 0; cz_q := 0 |}];
     p_br := [{| b_f := 0; b_t := 1; yff := ymk 1 (-2); yft := ymk (-1) 2; ytf := ymk (-1) 2; ytt := ymk 1 (-2) |}];
     p_V := [mkC 1 0; mkC (9#10) 0]; p_vm := [1; 9#10]; p_slack := 0 |}.
Lemma w_gs_solved : solved w_gs.
Proof. intros k Hk Hs. destruct k as [|[|k]]; [now elim Hs| vm_compute; split; reflexivity | unfold nb in Hk; simpl in Hk; lia]. Qed.
(* voltage dependent load (constant impedance share 1) at the slack bus held at 1.05 p.u.: Sload differs from PD *)
Definition w_vdl : ppc :=
  {| p_base := 1;
     p_bus := [{| pd := 1; qd := 0; gs := 0; bs := 0; ci_p := 0; cz_p := 1; ci_q := 0; cz_q := 0 |}];
     p_br := []; p_V := [mkC (21#20) 0]; p_vm := [21#20]; p_slack := 0 |}.
(* non-vacuity: a solved two-bus feeder without shunts on which the guard holds and the slack power is not zero *)
Definition w_ok : ppc :=
  {| p_base := 1;
     p_bus := [row0; {| pd := 9#100; qd := 9#50; gs := 0; bs := 0; ci_p := 0; cz_p := 0; ci_q := 0; cz_q := 0 |}];
     p_br := [{| b_f := 0; b_t := 1; yff := ymk 1 (-2); yft := ymk (-1) 2; ytf := ymk (-1) 2; ytt := ymk 1 (-2) |}];
     p_V := [mkC 1 0; mkC (9#10) 0]; p_vm := [1; 9#10]; p_slack := 0 |}.
Example guarded_nonvacuous : wf w_ok = true /\ solved w_ok /\ G06s 1 false false (p_bus w_ok) = true /\
  select true 1 false false (p_bus w_ok) = VSingle /\ fst (slack_single w_ok) == 1#10 /\ snd (slack_single w_ok) == 1#5.
Proof.
  split; [reflexivity|]. split.
  - intros k Hk Hs. destruct k as [|[|k]]; [now elim Hs| vm_compute; split; reflexivity | unfold nb in Hk; simpl in Hk; lia].
  - repeat split; reflexivity.
Qed.
