(* C09 — frame argument for calculations (write-before-read) and the start vector for init="results" *)
From Coq Require Import QArith List.
From PPV Require Import Base.QN C09.Model.
Import ListNotations.

Lemma memn_In x l : memn x l = true <-> In x l.
Proof.
  induction l as [|y l IH]; cbn; [split; [discriminate|tauto]|].
  rewrite orb_true_iff, IH, Nat.eqb_eq. split; intros [H|H]; auto.
Qed.
(* inclusion and disjointness of field lists, decided by the boolean test *)
Lemma incl_memn l1 l2 : forallb (fun c => memn c l2) l1 = true -> forall c, In c l1 -> In c l2.
Proof. rewrite forallb_forall. intros H c Hc. apply memn_In. now apply H. Qed.
Lemma disj_memn l1 l2 : forallb (fun c => negb (memn c l2)) l1 = true -> forall c, In c l1 -> ~ In c l2.
Proof.
  rewrite forallb_forall. intros H c Hc Hin. apply H in Hc. apply memn_In in Hin. now rewrite Hin in Hc.
Qed.

Section Frame.
Variable sem : nat -> list val -> val.
Variable T : env.

Lemma reads_agree (W : list nat) (a : action) (C1 C2 : env) :
  (forall c, memn c W = true -> C1 c = C2 c) ->
  (forall c, In c (filter (fun c => negb (memn c W)) (cache_reads a)) -> C1 c = C2 c) ->
  map (read T C1) (a_reads a) = map (read T C2) (a_reads a).
Proof.
  intros HW HR. unfold cache_reads in HR. induction (a_reads a) as [|l ls IH]; cbn; [reflexivity|].
  f_equal.
  - destruct l as [t|c]; cbn; [reflexivity|].
    destruct (memn c W) eqn:E; [now apply HW|].
    apply HR. cbn. rewrite E. cbn. now left.
  - apply IH. intros c Hc. apply HR. cbn. rewrite filter_app. apply in_or_app. now right.
Qed.

Lemma exec_agree_gen p : forall W C1 C2,
  (forall c, memn c W = true -> C1 c = C2 c) ->
  (forall c, In c (rbw_from W p) -> C1 c = C2 c) ->
  forall c, memn c W = true \/ In c (writes p) -> exec sem T p C1 c = exec sem T p C2 c.
Proof.
  induction p as [|a r IH]; intros W C1 C2 HW HR c Hc; cbn [exec].
  - destruct Hc as [Hc|[]]. now apply HW.
  - cbn [rbw_from] in HR.
    assert (E : map (read T C1) (a_reads a) = map (read T C2) (a_reads a)).
    { apply (reads_agree W); auto. intros x Hx. apply HR. apply in_or_app. now left. }
    rewrite E. set (v := sem (a_fun a) (map (read T C2) (a_reads a))).
    apply (IH (a_target a :: W)).
    + intros x Hx. unfold setc. destruct (Nat.eqb x (a_target a)) eqn:Q; [reflexivity|].
      cbn in Hx. rewrite Q in Hx. cbn in Hx. now apply HW.
    + intros x Hx. unfold setc. destruct (Nat.eqb x (a_target a)) eqn:Q; [reflexivity|].
      apply HR. apply in_or_app. now right.
    + destruct Hc as [Hc|Hc].
      * left. cbn. rewrite Hc. apply orb_true_r.
      * cbn in Hc. destruct Hc as [<-|Hc]; [left; cbn; now rewrite Nat.eqb_refl | now right].
Qed.

(* two cache states that agree on the fields the program reads before writing them give the same value to every
   field the program writes *)
Theorem exec_agree p C1 C2 :
  (forall c, In c (rbw p) -> C1 c = C2 c) ->
  forall c, In c (writes p) -> exec sem T p C1 c = exec sem T p C2 c.
Proof.
  intros H c Hc. apply (exec_agree_gen p [] C1 C2); auto. intros x Hx. discriminate.
Qed.
End Frame.

Definition ends_clean (p : program) : bool :=
  match rev p with
  | a :: _ => Nat.eqb (a_target a) F_AUX && Nat.eqb (a_fun a) FN_CLEAN && match a_reads a with [] => true | _ => false end
  | [] => false
  end.
Definition hop_ok (o : hop) : Prop := match o with Edit _ => True | Calc p => leaves_clean p = true end.

Lemma exec_app sem T p1 p2 C : exec sem T (p1 ++ p2) C = exec sem T p2 (exec sem T p1 C).
Proof. revert C. induction p1 as [|a r IH]; intros C; cbn; [reflexivity|apply IH]. Qed.

Lemma ends_clean_aux sem T p C : ends_clean p = true -> exec sem T p C F_AUX = sem FN_CLEAN [].
Proof.
  unfold ends_clean. intros H. destruct (rev p) as [|a l] eqn:E; [discriminate|].
  assert (P : p = rev l ++ [a]) by (rewrite <- (rev_involutive p), E; reflexivity).
  apply andb_true_iff in H. destruct H as [H H3]. apply andb_true_iff in H. destruct H as [H1 H2].
  apply Nat.eqb_eq in H1. apply Nat.eqb_eq in H2. destruct (a_reads a) eqn:R; [|discriminate].
  rewrite P, exec_app. cbn [exec]. unfold setc. rewrite H1, Nat.eqb_refl, H2, R. reflexivity.
Qed.

Lemma frame_ok_ends p : frame_ok p = true -> ends_clean p = true.
Proof. unfold frame_ok, ends_clean. intros H. apply andb_true_iff in H. tauto. Qed.
Lemma lc_from_aux sem T p : forall b C, (b = true -> C F_AUX = sem FN_CLEAN []) -> lc_from b p = true ->
  exec sem T p C F_AUX = sem FN_CLEAN [].
Proof.
  induction p as [|a r IH]; intros b C Hb H; cbn [exec lc_from] in *; [now apply Hb|].
  refine (IH _ _ _ H). clear IH H. unfold setc.
  destruct (Nat.eqb (a_target a) F_AUX) eqn:E.
  - apply Nat.eqb_eq in E. rewrite E, Nat.eqb_refl. intros H. apply andb_true_iff in H. destruct H as [H1 H2].
    apply Nat.eqb_eq in H1. destruct (a_reads a); [|discriminate]. now rewrite H1.
  - intros H. rewrite Nat.eqb_sym in E. rewrite E. now apply Hb.
Qed.
Lemma leaves_clean_aux sem T p C : leaves_clean p = true -> C F_AUX = sem FN_CLEAN [] -> exec sem T p C F_AUX = sem FN_CLEAN [].
Proof. intros L H. apply (lc_from_aux sem T p true C); auto. Qed.

Lemma hrun_aux sem ops : forall T C, Forall hop_ok ops -> C F_AUX = sem FN_CLEAN [] ->
  snd (hrun sem ops T C) F_AUX = sem FN_CLEAN [].
Proof.
  induction ops as [|o r IH]; intros T C F H; [exact H|].
  inversion F as [|? ? Ho Fr]; subst. destruct o as [f|p]; cbn [hrun].
  - now apply IH.
  - apply IH; [exact Fr|]. now apply leaves_clean_aux.
Qed.

(* calculations never write the user-visible state *)
Theorem tables_only_edited sem ops : forall T C,
  (forall o, In o ops -> exists p, o = Calc p) -> fst (hrun sem ops T C) = T.
Proof.
  induction ops as [|o r IH]; intros T C H; [reflexivity|].
  destruct (H o (or_introl eq_refl)) as [p ->]. cbn [hrun]. apply IH. intros o' Ho. apply H. now right.
Qed.

Lemma ends_clean_all : ends_clean prog_pf = true /\ ends_clean prog_pf_results = true /\ ends_clean prog_opf = true /\ ends_clean prog_opf_old = true.
Proof. vm_compute. auto. Qed.
(* the power flow from previous results is NOT frame-independent: it reads res_bus first (that is its purpose) *)
Lemma results_reads_previous : frame_ok prog_pf_results = false /\ In F_RES_BUS (rbw prog_pf_results).
Proof. split; vm_compute; auto. Qed.
(* before its repair the OPF read the lookups of the previous calculation first *)
Lemma opf_old_reads_lookups : frame_ok prog_opf_old = false /\ In F_LOOKUPS (rbw prog_opf_old).
Proof. split; vm_compute; auto. Qed.
(* witnesses that a read before write is a real dependence: every function adds what it reads to its number, and the
   two cache states differ in the one field c *)
Definition sum_sem (f : nat) (args : list val) : val := fold_left Z.add args (Z.of_nat f).
Definition mark (c : nat) : env := fun x => if Nat.eqb x c then 1%Z else 0%Z.

Lemma exec_not_written sem T p : forall C c, ~ In c (writes p) -> exec sem T p C c = C c.
Proof.
  induction p as [|a r IH]; intros C c H; cbn [exec]; [reflexivity|].
  rewrite IH; [|intros Hin; apply H; now right]. unfold setc.
  destruct (Nat.eqb c (a_target a)) eqn:E; [|reflexivity]. apply Nat.eqb_eq in E. exfalso. apply H. left. now symmetry.
Qed.

(* a calculation = front ++ tail: every field the front computes and the tail does not touch is independent of the
   history as soon as the front reads nothing but the tracking state before writing it *)
Theorem history_independent_front sem ops p1 p2 T C C0 :
  forallb (fun c => Nat.eqb c F_AUX) (rbw p1) = true -> Forall hop_ok ops ->
  C F_AUX = sem FN_CLEAN [] -> C0 F_AUX = sem FN_CLEAN [] ->
  forall c, In c (writes p1) -> ~ In c (writes p2) ->
  exec sem (fst (hrun sem ops T C)) (p1 ++ p2) (snd (hrun sem ops T C)) c = exec sem (fst (hrun sem ops T C)) (p1 ++ p2) C0 c.
Proof.
  intros Fp Fo HC HC0 c Hc Hn. rewrite !exec_app, !(exec_not_written _ _ p2 _ c Hn).
  apply exec_agree; [|exact Hc].
  intros x Hx. rewrite forallb_forall in Fp. apply Fp in Hx. apply Nat.eqb_eq in Hx. subst x.
  rewrite HC0. now apply hrun_aux.
Qed.

(* after ANY history (edits, calculations of any kind that leave the tracking state empty) a calculation whose only
   read-before-write is that tracking state gives, on every field it writes, what it gives from any other cache
   state with an empty tracking state - in particular from a fresh copy of the tables *)
Theorem history_independent sem ops p T C C0 :
  frame_ok p = true -> Forall hop_ok ops ->
  C F_AUX = sem FN_CLEAN [] -> C0 F_AUX = sem FN_CLEAN [] ->
  forall c, In c (writes p) ->
  exec sem (fst (hrun sem ops T C)) p (snd (hrun sem ops T C)) c = exec sem (fst (hrun sem ops T C)) p C0 c.
Proof.
  intros Fp Fo HC HC0 c Hc. rewrite <- (app_nil_r p). apply history_independent_front; auto.
  unfold frame_ok in Fp. now apply andb_true_iff in Fp.
Qed.

(* the lookup entries _pd2ppc always rewrites (bus, branch, aux) never carry history, whatever the kinds of generating
   elements in service *)
Lemma always_rewritten_lookups_irrelevant sem T C1 C2 (g : bool) :
  (forall c, c <> F_LOOKUPS -> C1 c = C2 c) ->
  forall c, In c (writes (prog_pf3ph g)) -> exec sem T (prog_pf3ph g) C1 c = exec sem T (prog_pf3ph g) C2 c.
Proof.
  intros H c Hc. apply exec_agree; [|exact Hc]. intros x Hx. apply H. intros ->.
  apply memn_In in Hx. destruct g; discriminate Hx.
Qed.

Open Scope Q_scope.

(* a start value is the set point s if there is one, else the previous value o, flat (after the repair) or as it is
   (before): the three facts below are used for magnitude and angle alike *)
Lemma set_or_flat_num (s o : option Q) d : is_num (match s with Some v => Some v | None => flat d o end) = true.
Proof. destruct s, o; reflexivity. Qed.
Lemma set_or_flat_keeps (s o : option Q) d : is_num s || is_num o = true ->
  match s with Some v => Some v | None => flat d o end = match s with Some v => Some v | None => o end.
Proof. destruct s, o; intros H; try discriminate H; reflexivity. Qed.
Lemma set_or_prev_num (s o : option Q) : is_num (match s with Some v => Some v | None => o end) = is_num s || is_num o.
Proof. destruct s, o; reflexivity. Qed.

(* after the repair every entry handed to the solver is a number, whatever the previous results contain *)
Theorem start_vector_defined bs : defined (start_vector bs) = true.
Proof.
  unfold defined, start_vector. induction bs as [|b r IH]; cbn; [reflexivity|].
  destruct (b_kept b); cbn; [|exact IH]. rewrite IH. unfold start_vm, start_va. now rewrite !set_or_flat_num.
Qed.

(* bus 2 was unsupplied in the previous calculation (NaN) and is supplied now *)
Definition feeder : list busrow :=
  [ {| b_prev_vm := Some 1; b_prev_va := Some 0; b_set_vm := Some 1; b_set_va := Some 0; b_kept := true |};
    {| b_prev_vm := Some (100000328 # 100000000); b_prev_va := Some 0; b_set_vm := None; b_set_va := None; b_kept := true |};
    {| b_prev_vm := None; b_prev_va := None; b_set_vm := None; b_set_va := None; b_kept := true |} ].
Example nonvacuous_aux :
  start_vector_aux feeder
    [ {| a_prev_vm := None; a_prev_va := None; a_bus := 2%nat; a_set_vm := None; a_kept := true |};
      {| a_prev_vm := Some (101 # 100); a_prev_va := Some (-3 # 2); a_bus := 1%nat; a_set_vm := Some (51 # 50); a_kept := true |};
      {| a_prev_vm := None; a_prev_va := None; a_bus := 0%nat; a_set_vm := None; a_kept := false |} ]
  = [(Some 1, Some 0); (Some (100000328 # 100000000), Some 0); (Some 1, Some 0); (Some 1, Some 0); (Some (51 # 50), Some (-3 # 2))].
Proof. vm_compute. reflexivity. Qed.

(* buses that are not part of the solution do not matter *)
Theorem dropped_buses_irrelevant bs : start_vector bs = start_vector (filter b_kept bs).
Proof.
  unfold start_vector. f_equal. induction bs as [|b r IH]; cbn; [reflexivity|].
  destruct (b_kept b) eqn:K; cbn; [rewrite K; f_equal; exact IH | exact IH].
Qed.

Example nonvacuous :
  start_vector feeder = [(Some 1, Some 0); (Some (100000328 # 100000000), Some 0); (Some 1, Some 0)] /\
  G09 [ {| b_prev_vm := Some 1; b_prev_va := Some 0; b_set_vm := Some (51 # 50); b_set_va := Some 0; b_kept := true |};
        {| b_prev_vm := None; b_prev_va := None; b_set_vm := None; b_set_va := None; b_kept := false |};
        {| b_prev_vm := Some (99 # 100); b_prev_va := Some (-1 # 2); b_set_vm := None; b_set_va := None; b_kept := true |} ] = true
  /\ frame_ok prog_pf = true /\ In F_RES_BUS (writes prog_pf).
Proof. vm_compute. auto 10. Qed.
