From Coq Require Import ZArith QArith List Bool Lia.
From PPV Require Import Base.QN C14.Model C14.Proofs C15.Model C15.Chunk.
Import ListNotations.

Lemma chunks_f_concat {A} k : (1 <= k)%nat -> forall fuel (l : list A),
  (length l <= fuel)%nat -> concat (chunks_f fuel k l) = l.
Proof.
  intros Hk. induction fuel as [|f IH]; intros l Hl; cbn [chunks_f].
  - destruct l; [reflexivity | cbn in Hl; lia].
  - destruct l as [|a l']; [reflexivity|]. cbn [concat]. rewrite IH.
    + apply firstn_skipn.
    + rewrite skipn_length. cbn [length] in *. lia.
Qed.
Lemma chunks_concat {A} k (l : list A) : (1 <= k)%nat -> concat (chunks k l) = l.
Proof. intros Hk. unfold chunks. apply chunks_f_concat; [exact Hk | lia]. Qed.

(* a worker that hands the net back as it was on every task of a chunk does so on the chunk *)
Lemma run_chunk_stable (work : worker) st0 (pp : task -> wpack) ts :
  (forall t, In t ts -> work st0 t = (st0, pp t)) -> run_chunk work st0 ts = (st0, map pp ts).
Proof.
  induction ts as [|t ts IH]; intros H; cbn [run_chunk map]; [reflexivity|].
  rewrite (H t (or_introl eq_refl)), IH; [reflexivity|]. intros t' Ht'. apply H. right. exact Ht'.
Qed.

(* the scheduler, for any worker whose chunks leave the held net as it was *)
Lemma lookup_stable ws w st0 : Forall (fun e : nat * state => snd e = st0) ws -> lookup_state ws w st0 = st0.
Proof.
  unfold lookup_state. induction 1 as [|e ws He _ IH]; cbn [find]; [reflexivity|].
  destruct (Nat.eqb (fst e) w); [exact He | exact IH].
Qed.

Lemma run_sched_stable work persist st0 chs assign (pp : task -> wpack) :
  (forall i, run_chunk work st0 (nth i chs []) = (st0, map pp (nth i chs []))) ->
  forall order ws, Forall (fun e : nat * state => snd e = st0) ws ->
  run_sched work persist st0 chs assign order ws = map (fun i => (i, map pp (nth i chs []))) order.
Proof.
  intros Hc. induction order as [|i rest IH]; intros ws Hws; cbn [run_sched map]; [reflexivity|].
  assert (Hs : (if persist then lookup_state ws (assign i) st0 else st0) = st0).
  { destruct persist; [apply lookup_stable; exact Hws | reflexivity]. }
  rewrite Hs, Hc. f_equal. apply IH. constructor; [reflexivity | exact Hws].
Qed.

Lemma chunk_result_map (f : nat -> list wpack) order i :
  In i order -> chunk_result (map (fun j => (j, f j)) order) i = f i.
Proof.
  unfold chunk_result. induction order as [|j rest IH]; intros Hin; [destruct Hin|].
  cbn [map find fst]. destruct (Nat.eqb j i) eqn:E.
  - apply Nat.eqb_eq in E. subst. reflexivity.
  - apply IH. destruct Hin as [->|H]; [rewrite Nat.eqb_refl in E; discriminate | exact H].
Qed.

Lemma flat_map_nth_seq {A B} (g : list A -> list B) (l : list (list A)) :
  flat_map (fun i => g (nth i l [])) (seq 0 (length l)) = flat_map g l.
Proof.
  induction l as [|c l IH]; [reflexivity|].
  cbn [length]. rewrite <- cons_seq, <- seq_shift. cbn [flat_map nth]. f_equal.
  rewrite <- IH. rewrite !flat_map_concat_map, map_map. reflexivity.
Qed.

Lemma nth_incl_concat {A} (chs : list (list A)) i : incl (nth i chs []) (concat chs).
Proof.
  intros t Ht. destruct (Nat.lt_ge_cases i (length chs)) as [H|H].
  - apply in_concat. exists (nth i chs []). split; [apply nth_In; exact H | exact Ht].
  - rewrite nth_overflow in Ht by exact H. destruct Ht.
Qed.

(* main lemma: a worker that, on every task of the list, produces the pack pp and hands the net back as it was,
   makes Pool.map return  map pp tasks  for every chunk size >= 1, every worker assignment, every start order
   that covers all chunks (repetitions allowed), with or without nets persisting across chunks *)
Lemma chunked_stable work persist st0 k assign order tasks (pp : task -> wpack) :
  (forall t, In t tasks -> work st0 t = (st0, pp t)) ->
  (1 <= k)%nat -> (forall i, (i < length (chunks k tasks))%nat -> In i order) ->
  pool_map_chunked work persist st0 k assign order tasks = map pp tasks.
Proof.
  intros Hw Hk Hcov. unfold pool_map_chunked.
  assert (Hc : forall i, run_chunk work st0 (nth i (chunks k tasks) []) = (st0, map pp (nth i (chunks k tasks) []))).
  { intros i. apply run_chunk_stable. intros t Ht. apply Hw.
    rewrite <- (chunks_concat k tasks Hk). exact (nth_incl_concat _ i t Ht). }
  rewrite (run_sched_stable work persist st0 _ assign pp Hc order [] (Forall_nil _)).
  rewrite flat_map_concat_map.
  rewrite (map_ext_in _ (fun i => map pp (nth i (chunks k tasks) []))).
  - rewrite <- flat_map_concat_map, (flat_map_nth_seq (map pp)), flat_map_concat_map, <- concat_map,
      (chunks_concat k tasks Hk). reflexivity.
  - intros i Hi. apply in_seq in Hi.
    apply (chunk_result_map (fun j => map pp (nth j (chunks k tasks) []))). apply Hcov. lia.
Qed.

(* the sequential path gives the same packs and leaves the net as it was *)
Lemma seq_packs_plain ev st0 tasks :
  tasks_in_service st0 tasks = true -> seq_packs ev st0 tasks = (st0, map (plain_pack ev st0) tasks).
Proof.
  unfold tasks_in_service. induction tasks as [|t ts IH]; intros H; cbn [seq_packs map]; [reflexivity|].
  cbn [forallb] in H. apply andb_true_iff in H. destruct H as [Ht Hts].
  rewrite (set_nth_restore st0 (snd t) Ht), (IH Hts). reflexivity.
Qed.

(* a raising outage that is not the last of its chunk *)
Definition m2_st0 : state := [true; true; true].
Definition m2_tasks : list task := [((0%nat, 10%Z), 0%nat); ((0%nat, 11%Z), 1%nat); ((0%nat, 12%Z), 2%nat)].
Definition m2_ev : evalS := fun st =>
  if beq_list st [false; true; true] then None                       (* the outage of row 0 does not converge *)
  else Some (map (fun b : bool => if b then Some 1%Q else Some 0%Q) st).
Definition m2_order : list nat := [0%nat; 1%nat; 2%nat].

Lemma chunks_f_length {A} k fuel : forall l : list A, (length (chunks_f fuel k l) <= fuel)%nat.
Proof.
  induction fuel as [|f IH]; intros l; cbn [chunks_f]; [reflexivity|].
  destruct l; cbn [length]; [lia | apply le_n_S, IH].
Qed.
(* three tasks make at most three chunks, whatever the chunk size *)
Lemma m2_order_covers k i : (i < length (chunks k m2_tasks))%nat -> In i m2_order.
Proof.
  intros H. pose proof (chunks_f_length k (length m2_tasks) m2_tasks) as L. fold (chunks k m2_tasks) in L.
  cbn [length m2_tasks] in L. repeat (destruct i as [|i]; [cbn; tauto|]). lia.
Qed.

(* non-vacuity of the positive statements: the same input (with its raising outage) through the worker as it is *)
Example chunked_eq_plain_nonvacuous :
  pool_map_chunked (work_copy m2_ev) false m2_st0 2 (fun i => i) [1%nat; 0%nat] m2_tasks =
  pool_map_chunked (work_copy m2_ev) true m2_st0 1 (fun _ => 0%nat) [2%nat; 0%nat; 1%nat; 0%nat] m2_tasks /\
  map (fun p : wpack => match snd p with Some _ => true | None => false end)
      (pool_map_chunked (work_copy m2_ev) false m2_st0 2 (fun i => i) [1%nat; 0%nat] m2_tasks) = [false; true; true] /\
  chunks 2 m2_tasks = [[((0%nat, 10%Z), 0%nat); ((0%nat, 11%Z), 1%nat)]; [((0%nat, 12%Z), 2%nat)]] /\
  pool_chunksize 10 2 = 2%nat /\ pool_chunksize 10 3 = 1%nat /\ pool_chunksize 3 2 = 1%nat.
Proof. repeat split; reflexivity. Qed.
Example shared_partial_nonvacuous :
  tasks_in_service m2_st0 (tl m2_tasks) = true /\ all_succeed m2_ev m2_st0 (tl m2_tasks) = true /\
  all_succeed m2_ev m2_st0 m2_tasks = false.
Proof. repeat split; reflexivity. Qed.
