From Coq Require Import ZArith QArith List Bool Permutation.
From PPV Require Import Base.QN C14.Model C14.Proofs C15.Model.
Import ListNotations.
Open Scope Q_scope.

Lemma par_eq_seq_cases tasks ev : par_cases (pool_map tasks ev) = seq_cases tasks ev.
Proof.
  unfold par_cases, seq_cases, pool_map. induction tasks as [|t tasks IH]; cbn; [reflexivity|].
  rewrite IH. reflexivity.
Qed.

(* The extreme of a list with respect to an antisymmetric order
   (Qle for the maximum, its converse for the minimum) is determined by the elements, whatever their order *)
Section ExtremeOrder.
Variable R : Q -> Q -> Prop.
Hypothesis R_compat : forall x x' y, x == x' -> R x y -> R x' y.
Hypothesis R_antisym : forall x y, R x y -> R y x -> x == y.

Lemma extreme_unique m m' vs : extreme R m vs -> extreme R m' vs -> m == m'.
Proof.
  intros [[v [Hv Hvm]] Hall] [[v' [Hv' Hvm']] Hall'].
  apply R_antisym.
  - apply (R_compat v); [exact Hvm | apply Hall'; exact Hv].
  - apply (R_compat v'); [exact Hvm' | apply Hall; exact Hv'].
Qed.
Lemma extreme_perm m vs vs' : Permutation vs vs' -> extreme R m vs -> extreme R m vs'.
Proof.
  intros P [[v [Hv Hvm]] Hall]. split.
  - exists v. split; [eapply Permutation_in; eassumption | exact Hvm].
  - intros u Hu. apply Hall. eapply Permutation_in; [apply Permutation_sym; exact P | exact Hu].
Qed.
Lemma extreme_opt_perm r r' vs vs' :
  Permutation vs vs' -> extreme_opt R r vs -> extreme_opt R r' vs' -> feq r r'.
Proof.
  intros P H H'. destruct r as [m|], r' as [m'|]; cbn in *.
  - apply (extreme_unique m m' vs'); [apply (extreme_perm m vs); assumption | exact H'].
  - rewrite H' in P. apply Permutation_sym, Permutation_nil in P. rewrite P in H. destruct H as [[v [[] _]] _].
  - rewrite H in P. apply Permutation_nil in P. rewrite P in H'. destruct H' as [[v [[] _]] _].
  - exact I.
Qed.
End ExtremeOrder.

Lemma Qle_eq_l x x' y : x == x' -> x <= y -> x' <= y.
Proof. intros E H. rewrite <- E. exact H. Qed.
Lemma Qle_eq_r x x' y : x == x' -> y <= x -> y <= x'.
Proof. intros E H. rewrite <- E. exact H. Qed.

Lemma valid_vals_perm l l' : Permutation l l' -> Permutation (valid_vals l) (valid_vals l').
Proof. intros P. unfold valid_vals. apply Permutation_flat_map. exact P. Qed.
