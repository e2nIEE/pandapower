(* C34 — the run_control branch: every inner power flow is configured like the plain call *)
From Coq Require Import QArith List String Lia.
From PPV Require Import Base.QN C34.Model C34.Proofs C34.ModelCtl.
Import ListNotations.
Open Scope string_scope.

Lemma lookup_app k (d1 d2 : dict) :
  lookup k (d1 ++ d2)%list = match lookup k d1 with Some v => Some v | None => lookup k d2 end.
Proof. induction d1 as [|[k' v] d1 IH]; cbn; [reflexivity|]. destruct (String.eqb k k'); auto. Qed.
Lemma lookup_remove_keys k ks d : lookup k (remove_keys ks d) = if mem k ks then None else lookup k d.
Proof.
  unfold remove_keys. rewrite (lookup_filter_key (fun k => negb (mem k ks))). now destruct (mem k ks).
Qed.
Lemma lookup_update_nodup k e : forall d, NoDup (keys e) ->
  lookup k (update d e) = match lookup k e with Some v => Some v | None => lookup k d end.
Proof.
  intros d ND. destruct (lookup k e) as [v|] eqn:E.
  - now apply lookup_update_in.
  - apply lookup_update_notin. now apply lookup_none_keys.
Qed.
Lemma lookup_set k k' v d : lookup k (set k' v d) = if String.eqb k k' then Some v else lookup k d.
Proof.
  destruct (String.eqb k k') eqn:E.
  - apply String.eqb_eq in E. subst. apply lookup_set_same.
  - now apply lookup_set_other.
Qed.
Lemma mem_keys_lookup_b k d : mem k (keys d) = match lookup k d with Some _ => true | None => false end.
Proof.
  destruct (lookup k d) eqn:E; [eapply lookup_some_keys; eauto | now apply lookup_none_keys].
Qed.
Lemma lookup_call_named_none k ex : lookup k named_defaults = None -> lookup k (call_named ex) = None.
Proof.
  intros L. unfold call_named. induction named_defaults as [|[k1 d1] nd IH]; cbn in *; [reflexivity|].
  destruct (String.eqb k k1); [discriminate | auto].
Qed.
Lemma lookup_call_kwargs_named k ex d : lookup k named_defaults = Some d -> lookup k (call_kwargs ex) = None.
Proof.
  intros L. unfold call_kwargs. rewrite (lookup_filter_key (fun k => negb (mem k (keys named_defaults)))).
  now rewrite (lookup_some_keys _ _ _ L).
Qed.

Lemma lookup_inner k ex : NoDup (keys ex) ->
  lookup k (inner_explicit ex)
  = if String.eqb k "only_v_results" then Some (VB false)
    else if String.eqb k "recycle" then Some VNone
    else if mem k ["ctrl_variables"; "max_iter"] then None
    else if String.eqb k "run_control" then Some (VB false)
    else match lookup k (call_kwargs ex) with
         | Some v => Some v
         | None => match lookup k (call_named ex) with
                   | Some v => Some v
                   | None => if String.eqb k "kwargs" then Some (VD (call_kwargs ex)) else None
                   end
         end.
Proof.
  intros ND. unfold inner_explicit, control_parameters.
  rewrite !lookup_set, lookup_remove_keys, lookup_set.
  rewrite lookup_update_nodup by (unfold call_kwargs; now apply NoDup_keys_filter).
  rewrite lookup_app. cbn [lookup]. reflexivity.
Qed.

(* no named argument of runpp is one of the keys that run_control adds or consumes *)
Lemma named_not_ctl k d : lookup k named_defaults = Some d -> mem k ctl_keys = false.
Proof.
  intros L. destruct (mem k ctl_keys) eqn:C; [|reflexivity]. apply mem_In in C.
  assert (T : forallb (fun s => negb (mem s (keys named_defaults))) ctl_keys = true) by reflexivity.
  rewrite forallb_forall in T. specialize (T k C). rewrite (lookup_some_keys _ _ _ L) in T. discriminate.
Qed.
Lemma not_named_not_run_control k : lookup k named_defaults = None -> String.eqb k "run_control" = false.
Proof.
  intros L. destruct (String.eqb_spec k "run_control") as [->|]; [cbn in L; discriminate | reflexivity].
Qed.

Lemma mem_false_eqb k s l : mem k l = false -> mem s l = true -> String.eqb k s = false.
Proof. intros C M. destruct (String.eqb_spec k s) as [->|]; [congruence | reflexivity]. Qed.
(* a key outside ctl_keys other than run_control passes through run_control unchanged *)
Lemma lookup_outside_ctl k ex : NoDup (keys ex) -> mem k ctl_keys = false -> String.eqb k "run_control" = false ->
  lookup k (inner_explicit ex)
  = match lookup k (call_kwargs ex) with Some v => Some v | None => lookup k (call_named ex) end
  /\ lookup k (plain_explicit ex) = lookup k ex.
Proof.
  intros ND C R. pose proof (fun s => mem_false_eqb k s _ C) as N. split.
  - rewrite (lookup_inner _ _ ND). cbn [mem].
    rewrite (N "only_v_results"), (N "recycle"), (N "ctrl_variables"), (N "max_iter"), R, (N "kwargs") by reflexivity.
    destruct (lookup k (call_kwargs ex)); [reflexivity|]. destruct (lookup k (call_named ex)); reflexivity.
  - unfold plain_explicit, control_args. rewrite lookup_remove_keys. cbn [mem].
    rewrite R, (N "continue_on_divergence"), (N "check_each_level"), (N "max_iter") by reflexivity. reflexivity.
Qed.

(* the named arguments of an inner call are those of the plain call *)
Lemma getd_inner_named k d ex : NoDup (keys ex) -> lookup k named_defaults = Some d ->
  getd k (inner_explicit ex) d = getd k (plain_explicit ex) d.
Proof.
  intros ND L. unfold getd. destruct (String.eqb_spec k "run_control") as [->|R].
  - cbn in L. injection L as <-. rewrite (lookup_inner _ _ ND). unfold plain_explicit. rewrite lookup_remove_keys. reflexivity.
  - apply String.eqb_neq in R. destruct (lookup_outside_ctl k ex ND (named_not_ctl _ _ L) R) as [-> ->].
    rewrite (lookup_call_kwargs_named _ _ _ L), (lookup_call_named _ _ _ L). unfold getd.
    destruct (lookup k ex); reflexivity.
Qed.
Lemma call_named_inner ex : NoDup (keys ex) -> call_named (inner_explicit ex) = call_named (plain_explicit ex).
Proof.
  intros ND. unfold call_named. apply map_ext_in. intros [k d] Hin. cbn [fst snd]. f_equal.
  apply getd_inner_named; [exact ND|]. apply lookup_In_NoDup; [apply named_defaults_nodup | exact Hin].
Qed.

(* the **kwargs of an inner call agree with those of the plain call on every key outside ctl_keys *)
Lemma lookup_inner_other k ex : NoDup (keys ex) ->
  lookup k named_defaults = None -> mem k ctl_keys = false ->
  lookup k (inner_explicit ex) = lookup k ex /\ lookup k (plain_explicit ex) = lookup k ex.
Proof.
  intros ND L C. destruct (lookup_outside_ctl k ex ND C (not_named_not_run_control _ L)) as [-> ->].
  split; [|reflexivity]. rewrite (lookup_call_kwargs _ _ L), (lookup_call_named_none _ _ L). now destruct (lookup k ex).
Qed.

(* the **kwargs entries that _init_runpp_options reads, with the defaults it uses *)
Definition kw_reads : list (key * val) :=
  [ ("numba", VB true); ("init_vm_pu", VNone); ("init_va_degree", VNone); ("lightsim2grid", VS "auto");
    ("switch_rx_ratio", VZ 2); ("recycle", VNone); ("delta_q", VZ 0); ("trafo3w_losses", VS "hv");
    ("neglect_open_switch_branches", VB false); ("v_debug", VB false); ("only_v_results", VB false);
    ("use_umfpack", VB true); ("permc_spec", VNone); ("tdpf_update_r_theta", VB true) ].
Definition kw_agree (kw1 kw2 : dict) : Prop := forall k d, In (k, d) kw_reads -> getd k kw1 d = getd k kw2 d.

Lemma getd_update_agree k dflt ov : forall kw1 kw2,
  getd k kw1 dflt = getd k kw2 dflt -> getd k (update kw1 ov) dflt = getd k (update kw2 ov) dflt.
Proof.
  induction ov as [|[k' v] ov IH]; intros kw1 kw2 H; cbn [update]; [exact H|].
  apply IH. unfold getd. rewrite !lookup_set. destruct (String.eqb k k'); [reflexivity | exact H].
Qed.

(* the option code depends on **kwargs only through the entries it reads *)
Lemma init_core_kw_agree f named kw1 kw2 ov : kw_agree kw1 kw2 ->
  init_core f named kw1 ov = init_core f named kw2 ov.
Proof.
  intros A.
  assert (E : map (fun kd => getd (fst kd) (update kw1 ov) (snd kd)) kw_reads
            = map (fun kd => getd (fst kd) (update kw2 ov) (snd kd)) kw_reads).
  { apply map_ext_in. intros [k d] Hin. apply getd_update_agree, A, Hin. }
  cbn [map kw_reads fst snd] in E. injection E as E1 E2 E3 E4 E5 E6 E7 E8 E9 E10 E11 E12 E13 _.
  assert (T : getd "tdpf_update_r_theta" kw1 (VB true) = getd "tdpf_update_r_theta" kw2 (VB true))
    by (apply A; unfold kw_reads; do 13 right; left; reflexivity).
  unfold init_core, base_dict.
  (* the left side as a function F of its 14 reads; replacing them one by one in the unfolded term would re-check the
     whole term each time *)
  pattern (getd "numba" (update kw1 ov) (VB true)), (getd "init_vm_pu" (update kw1 ov) VNone),
     (getd "init_va_degree" (update kw1 ov) VNone), (getd "lightsim2grid" (update kw1 ov) (VS "auto")),
     (getd "switch_rx_ratio" (update kw1 ov) (VZ 2)), (getd "recycle" (update kw1 ov) VNone),
     (getd "delta_q" (update kw1 ov) (VZ 0)), (getd "trafo3w_losses" (update kw1 ov) (VS "hv")),
     (getd "neglect_open_switch_branches" (update kw1 ov) (VB false)), (getd "v_debug" (update kw1 ov) (VB false)),
     (getd "only_v_results" (update kw1 ov) (VB false)), (getd "use_umfpack" (update kw1 ov) (VB true)),
     (getd "permc_spec" (update kw1 ov) VNone), (getd "tdpf_update_r_theta" kw1 (VB true)).
  match goal with |- ?P _ _ _ _ _ _ _ _ _ _ _ _ _ _ => set (F := P) end.
  rewrite E1, E2, E3, E4, E5, E6, E7, E8, E9, E10, E11, E12, E13, T. reflexivity.
Qed.

Lemma Gctl_explicit stored ex : Gctl stored ex = true ->
  lookup "recycle" ex = None /\ lookup "only_v_results" ex = None.
Proof.
  unfold Gctl. rewrite andb_true_iff. intros [_ H]. cbn [forallb] in H.
  repeat (apply andb_true_iff in H; destruct H as [? H]).
  split; apply lookup_none_keys; match goal with X : negb (mem ?k _) = true |- mem ?k _ = false => now destruct (mem k (keys ex)) end.
Qed.
Lemma Gctl_stored stored ex k : Gctl stored ex = true -> mem k (keys stored) = true -> mem k ctl_keys = false.
Proof.
  unfold Gctl. rewrite andb_true_iff. intros [H _] M. rewrite forallb_forall in H.
  destruct (mem k ctl_keys) eqn:C; [|reflexivity].
  apply mem_In in C. specialize (H _ C). rewrite M in H. discriminate.
Qed.

Lemma kw_agree_inner stored ex : NoDup (keys ex) -> Gctl stored ex = true ->
  kw_agree (call_kwargs (inner_explicit ex)) (call_kwargs (plain_explicit ex)).
Proof.
  intros ND G k d Hin. destruct (Gctl_explicit _ _ G) as [Grec Govr].
  (* the keys read are **kwargs keys, and run_control touches none of them except recycle and only_v_results *)
  assert (T : forallb (fun kd => negb (mem (fst kd) (keys named_defaults))
                                 && (negb (mem (fst kd) ctl_keys) || mem (fst kd) ["recycle"; "only_v_results"]))
                      kw_reads = true) by reflexivity.
  rewrite forallb_forall in T. specialize (T _ Hin). cbn [fst mem] in T.
  apply andb_true_iff in T. destruct T as [L C]. apply negb_true_iff, lookup_none_keys in L.
  assert (D : lookup k kw_reads = Some d) by (apply lookup_In_NoDup; [apply nodupb_NoDup; reflexivity | exact Hin]).
  unfold getd. rewrite !(lookup_call_kwargs _ _ L).
  destruct (String.eqb_spec k "recycle") as [->|_]; [|destruct (String.eqb_spec k "only_v_results") as [->|_]].
  - injection D as <-. rewrite (lookup_inner _ _ ND). unfold plain_explicit. rewrite lookup_remove_keys. now rewrite Grec.
  - injection D as <-. rewrite (lookup_inner _ _ ND). unfold plain_explicit. rewrite lookup_remove_keys. now rewrite Govr.
  - rewrite orb_false_r in C. apply negb_true_iff in C. destruct (lookup_inner_other _ _ ND L C) as [-> ->]. reflexivity.
Qed.

(* the same keys count as passed, outside ctl_keys *)
Lemma passed_inner k ex : NoDup (keys ex) -> mem k ctl_keys = false ->
  mem k (keys (passed_set (inner_explicit ex))) = mem k (keys (passed_set (plain_explicit ex))).
Proof.
  intros ND C. rewrite !passed_set_char. destruct (lookup k named_defaults) as [d|] eqn:L.
  - now rewrite (getd_inner_named _ _ _ ND L).
  - rewrite !mem_keys_lookup_b. destruct (lookup_inner_other _ _ ND L C) as [-> ->]. reflexivity.
Qed.

(* the whole trace: every entry is the option code run on the same keyword arguments *)
Section Trace.
  Variable fs : nat -> facts.
  Variable pf : nat -> bool.
  Variable steps : list nat.
  Variable stored inner : dict.
  Variable cod check_each : bool.
  Variable max_iter : nat.

  Definition Inv (s : st) : Prop :=
    List.length (s_trace s) = s_n s /\
    forall i o, nth_error (s_trace s) i = Some o -> o = runpp_options (fs i) stored inner.

  Lemma do_run_inv s : Inv s -> Inv (fst (do_run fs pf stored inner s)).
  Proof.
    intros [HL HT]. unfold do_run.
    assert (I' : forall c o', o' = runpp_options (fs (s_n s)) stored inner ->
                 Inv {| s_n := S (s_n s); s_trace := (s_trace s ++ [o'])%list; s_conv := c |}).
    { intros c o' Eo. split; cbn [s_n s_trace].
      - rewrite app_length. cbn. lia.
      - intros i o H. destruct (Nat.lt_ge_cases i (List.length (s_trace s))) as [Lt|Ge].
        + rewrite nth_error_app1 in H by exact Lt. now apply HT.
        + rewrite nth_error_app2 in H by exact Ge.
          destruct (i - List.length (s_trace s))%nat as [|m] eqn:E; cbn in H.
          * assert (Ei : i = s_n s) by lia. subst i. inversion H. congruence.
          * destruct m; discriminate. }
    cbv zeta. destruct (runpp_options (fs (s_n s)) stored inner) eqn:E; cbn [fst]; apply I'; reflexivity.
  Qed.
  Lemma evaluate_inv s : Inv s -> Inv (fst (evaluate fs pf stored inner cod s)).
  Proof.
    intros I. unfold evaluate.
    pose proof (do_run_inv _ I) as I1. destruct (do_run fs pf stored inner s) as [s1 e1]. cbn [fst] in I1.
    destruct e1 as [e|]; [|exact I1].
    destruct (is_errors e); [|exact I1]. destruct cod; [|exact I1].
    pose proof (do_run_inv _ I1) as I2. destruct (do_run fs pf stored inner s1) as [s2 e2]. cbn [fst] in I2.
    destruct e2 as [e'|]; [destruct (is_errors e')|]; exact I2.
  Qed.
  Lemma level_loop_inv fuel : forall lvl rc s, Inv s ->
    Inv (fst (fst (level_loop fs pf steps stored inner cod max_iter fuel lvl rc s))).
  Proof.
    induction fuel as [|fuel IH]; intros lvl rc s I; cbn [level_loop]; [exact I|].
    destruct (Nat.leb rc max_iter); [|exact I].
    destruct (cc steps lvl rc); [exact I|].
    pose proof (evaluate_inv _ I) as I1. destruct (evaluate fs pf stored inner cod s) as [s' e]. cbn [fst] in I1.
    destruct e; [exact I1 | now apply IH].
  Qed.
  Lemma levels_loop_inv lvls : forall rc s, Inv s ->
    Inv (fst (fst (levels_loop fs pf steps stored inner cod check_each max_iter lvls rc s))).
  Proof.
    induction lvls as [|lvl rest IH]; intros rc s I; cbn [levels_loop]; [exact I|].
    destruct (s_conv s).
    - pose proof (level_loop_inv (S (S max_iter)) lvl 0 s I) as I1.
      destruct (level_loop fs pf steps stored inner cod max_iter (S (S max_iter)) lvl 0 s) as [[s' rc'] e].
      cbn [fst] in I1. destruct e; [exact I1|].
      destruct (if check_each then check_final max_iter rc' (s_conv s') else None); [exact I1 | now apply IH].
    - destruct (if check_each then check_final max_iter 0 (s_conv s) else None); [exact I | now apply IH].
  Qed.
  Lemma control_trace_inv ir i o :
    nth_error (fst (control_trace fs pf steps stored inner cod check_each max_iter ir)) i = Some o ->
    o = runpp_options (fs i) stored inner.
  Proof.
    unfold control_trace.
    set (s0 := {| s_n := 0; s_trace := []; s_conv := true |}).
    assert (I0 : Inv s0) by (split; [reflexivity | intros [|j] o' H; discriminate H]).
    assert (I1 : Inv (fst (if ir then do_run fs pf stored inner s0 else (s0, None)))).
    { destruct ir; [now apply do_run_inv | exact I0]. }
    destruct (if ir then do_run fs pf stored inner s0 else (s0, None)) as [s1 e1]. cbn [fst] in I1.
    destruct e1; [cbn [fst]; apply I1|].
    pose proof (levels_loop_inv (seq 0 (List.length steps)) 0 s1 I1) as I2.
    destruct (levels_loop fs pf steps stored inner cod check_each max_iter (seq 0 (List.length steps)) 0 s1)
      as [[s2 rc] e2]. cbn [fst] in I2.
    destruct e2; [cbn [fst]; apply I2|].
    destruct (check_final max_iter rc (s_conv s2)); cbn [fst]; apply I2.
  Qed.
End Trace.

(* the guard Gctl is needed: run_control overwrites recycle / only_v_results of the caller (run_control.py:277) *)
Definition explicit_ovr : dict := [("run_control", VB true); ("only_v_results", VB true)].
(* ... and a stored option under one of run_control's keys is overruled in the inner runs only *)
Definition stored_ovr : dict := [("only_v_results", VB true)].

(* non-vacuity: a run with initial run, two control iterations, a diverging second power flow that is retried after
   repair_control *)
Definition explicit_cnv : dict :=
  [("run_control", VB true); ("continue_on_divergence", VB true); ("tolerance_mva", VQ (1 # 1000000)); ("numba", VB false)].
Definition stored_cnv : dict := [("tolerance_mva", VQ (1 # 1000)); ("max_iteration", VZ 25)].
Example control_nonvacuous :
  NoDup (keys explicit_cnv) /\ Gctl stored_cnv explicit_cnv = true /\ G34 (plain_explicit explicit_cnv) = true /\
  let '(tr, out) := runpp_control (fun _ => facts0) (fun i => negb (Nat.eqb i 1)) [2%nat] true stored_cnv explicit_cnv in
  List.length tr = 4%nat /\ out = "ok" /\
  (exists o, nth_error tr 2 = Some (Ok o) /\ lookup "tolerance_mva" o = Some (VQ (1 # 1000000))
             /\ lookup "max_iteration" o = Some (VZ 25) /\ lookup "numba" o = Some (VB false)).
Proof.
  split; [apply nodupb_NoDup; vm_compute; reflexivity|].
  split; [vm_compute; reflexivity|]. split; [vm_compute; reflexivity|].
  vm_compute. split; [reflexivity|]. split; [reflexivity|]. eexists. split; [reflexivity|]. repeat split.
Qed.
