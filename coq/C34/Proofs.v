(* C34 — lemmas about the finite-map model of _passed_runpp_parameters / _init_runpp_options *)
From Coq Require Import QArith List String.
From PPV Require Import Base.QN Base.Lists C34.Model.
Import ListNotations.
Open Scope string_scope.

Lemma seqb_sym a b : String.eqb a b = String.eqb b a.
Proof. apply String.eqb_sym. Qed.

Lemma mem_In k l : mem k l = true <-> In k l.
Proof.
  induction l as [|a l IH]; cbn; [split; [discriminate | tauto]|].
  rewrite orb_true_iff, IH, String.eqb_eq. split; intros [H|H]; auto.
Qed.
Lemma mem_false_In k l : mem k l = false <-> ~ In k l.
Proof. rewrite <- mem_In. destruct (mem k l); split; congruence. Qed.

Lemma lookup_none_keys k d : lookup k d = None <-> mem k (keys d) = false.
Proof.
  induction d as [|[k' v] d IH]; cbn; [tauto|].
  destruct (String.eqb k k'); cbn; [split; discriminate | exact IH].
Qed.
Lemma lookup_some_keys k d v : lookup k d = Some v -> mem k (keys d) = true.
Proof.
  intros H. destruct (mem k (keys d)) eqn:E; [reflexivity|].
  apply lookup_none_keys in E. congruence.
Qed.
Lemma mem_keys_lookup k d : mem k (keys d) = true -> exists v, lookup k d = Some v.
Proof.
  intros H. destruct (lookup k d) eqn:E; [eauto|]. apply lookup_none_keys in E. congruence.
Qed.

Lemma lookup_set_same k v d : lookup k (set k v d) = Some v.
Proof.
  induction d as [|[k' v'] d IH]; cbn; [now rewrite String.eqb_refl|].
  destruct (String.eqb k k') eqn:E; cbn; rewrite E; auto.
Qed.
Lemma lookup_set_other k k' v d : String.eqb k k' = false -> lookup k (set k' v d) = lookup k d.
Proof.
  intros N. induction d as [|[k2 v2] d IH]; cbn; [now rewrite N|].
  destruct (String.eqb k' k2) eqn:E; cbn.
  - apply String.eqb_eq in E. subst k2. now rewrite N.
  - destruct (String.eqb k k2); auto.
Qed.
Lemma mem_keys_set k k' v d : mem k (keys (set k' v d)) = String.eqb k k' || mem k (keys d).
Proof.
  unfold keys. induction d as [|[k2 v2] d IH]; cbn; [now rewrite orb_false_r|].
  destruct (String.eqb k' k2) eqn:E; cbn.
  - apply String.eqb_eq in E. subst k2. destruct (String.eqb k k'); reflexivity.
  - rewrite IH. destruct (String.eqb k k2), (String.eqb k k'); reflexivity.
Qed.

Lemma lookup_update_notin k e : forall d, mem k (keys e) = false -> lookup k (update d e) = lookup k d.
Proof.
  induction e as [|[k' v] e IH]; intros d H; cbn in *; [reflexivity|].
  apply orb_false_iff in H. destruct H as [H1 H2].
  rewrite IH by exact H2. now apply lookup_set_other.
Qed.
Lemma lookup_update_in k v e : forall d,
  NoDup (keys e) -> lookup k e = Some v -> lookup k (update d e) = Some v.
Proof.
  induction e as [|[k' v'] e IH]; intros d ND H; cbn in *; [discriminate|].
  inversion ND as [|? ? Hn ND']; subst.
  destruct (String.eqb k k') eqn:E.
  - apply String.eqb_eq in E. subst k'. inversion H; subst.
    rewrite lookup_update_notin by (now apply mem_false_In). apply lookup_set_same.
  - now apply IH.
Qed.
Lemma mem_keys_update k e : forall d, mem k (keys (update d e)) = mem k (keys d) || mem k (keys e).
Proof.
  induction e as [|[k' v] e IH]; intros d; cbn; [now rewrite orb_false_r|].
  rewrite IH, mem_keys_set. clear IH. unfold keys.
  destruct (String.eqb k k'), (mem k (map fst d)), (mem k (map fst e)); reflexivity.
Qed.

(* filters whose predicate looks at the key only *)
Lemma lookup_filter_key (q : key -> bool) k d :
  lookup k (filter (fun kv => q (fst kv)) d) = if q k then lookup k d else None.
Proof.
  induction d as [|[k' v] d IH]; cbn; [now destruct (q k)|].
  destruct (q k') eqn:Q; cbn.
  - destruct (String.eqb k k') eqn:E; [apply String.eqb_eq in E; subst; now rewrite Q | exact IH].
  - destruct (String.eqb k k') eqn:E; [apply String.eqb_eq in E; subst; rewrite IH; now rewrite Q | exact IH].
Qed.
Lemma mem_keys_filter_key (q : key -> bool) k d :
  mem k (keys (filter (fun kv => q (fst kv)) d)) = q k && mem k (keys d).
Proof.
  unfold keys. induction d as [|[k' v] d IH]; cbn; [now rewrite andb_false_r|].
  destruct (q k') eqn:Q; cbn; rewrite IH.
  - destruct (String.eqb k k') eqn:E; [apply String.eqb_eq in E; subst; now rewrite Q | reflexivity].
  - destruct (String.eqb k k') eqn:E; [apply String.eqb_eq in E; subst; now rewrite Q | reflexivity].
Qed.
Lemma NoDup_keys_filter (p : key * val -> bool) d : NoDup (keys d) -> NoDup (keys (filter p d)).
Proof.
  induction d as [|[k v] d IH]; cbn; intros ND; [constructor|].
  inversion ND as [|? ? Hn ND']; subst. destruct (p (k, v)); cbn; auto.
  constructor; auto. intros Hin. apply Hn.
  unfold keys in *. apply in_map_iff in Hin. destruct Hin as [[k2 v2] [E Hin]].
  apply filter_In in Hin. apply in_map_iff. exists (k2, v2). tauto.
Qed.
Lemma filter_filter_same {A} (p : A -> bool) l : filter p (filter p l) = filter p l.
Proof.
  induction l as [|a l IH]; cbn; [reflexivity|]. destruct (p a) eqn:E; cbn; [rewrite E, IH|]; auto.
Qed.
Lemma lookup_In_NoDup k v d : NoDup (keys d) -> In (k, v) d -> lookup k d = Some v.
Proof.
  induction d as [|[k' v'] d IH]; cbn; intros ND H; [tauto|].
  inversion ND as [|? ? Hn ND']; subst. destruct H as [H|H].
  - inversion H; subst. now rewrite String.eqb_refl.
  - destruct (String.eqb k k') eqn:E; [|auto].
    apply String.eqb_eq in E. subst k'. exfalso. apply Hn. unfold keys. apply in_map_iff. now exists (k, v).
Qed.

Lemma val_eqb_refl v : is_scalar v = true -> val_eqb v v = true.
Proof.
  destruct v as [b|z|q|s| | | | | |]; cbn; intros H; try discriminate H; try reflexivity;
    try (apply Qeq_bool_iff; reflexivity).
  apply String.eqb_refl.
Qed.
(* for scalars  bool(v != d)  is the negated ==, and never raises *)
Lemma ne_truth_scalar v d : is_scalar v = true -> ne_truth v d = Some (negb (val_eqb v d)).
Proof. destruct v; cbn; intros H; try discriminate H; reflexivity. Qed.
Lemma ne_true_raises_excl v d : ne_true v d = true -> ne_raises v d = false.
Proof. unfold ne_true, ne_raises. destruct (ne_truth v d); [reflexivity | discriminate]. Qed.

Fixpoint nodupb (l : list key) : bool :=
  match l with [] => true | a :: l' => negb (mem a l') && nodupb l' end.
Lemma nodupb_NoDup l : nodupb l = true -> NoDup l.
Proof.
  induction l as [|a l IH]; cbn; intros H; [constructor|].
  apply andb_true_iff in H. destruct H as [H1 H2]. constructor; auto.
  apply mem_false_In. now destruct (mem a l).
Qed.
Lemma named_defaults_nodup : NoDup (keys named_defaults).
Proof. apply nodupb_NoDup. vm_compute. reflexivity. Qed.

(* generic form over a sub-list nd of the signature *)
Lemma passed_named_char_gen ex k : forall nd,
  NoDup (keys nd) -> (forall k0 d0, In (k0, d0) nd -> lookup k0 named_defaults = Some d0) ->
  mem k (keys (filter (fun kv => negb (mem (fst kv) (keys named_defaults))
                                 || ne_true (snd kv) (getd (fst kv) named_defaults VNone))
                      (map (fun kd => (fst kd, getd (fst kd) ex (snd kd))) nd)))
  = match lookup k nd with Some d => ne_true (getd k ex d) d | None => false end.
Proof.
  induction nd as [|[k1 d1] nd IH]; intros ND C; [reflexivity|].
  cbn [map filter fst snd lookup].
  inversion ND as [|? ? Hn ND']; subst.
  assert (L1 : lookup k1 named_defaults = Some d1) by (apply C; now left).
  assert (M1 : mem k1 (keys named_defaults) = true) by (eapply lookup_some_keys; eauto).
  unfold getd at 2. rewrite L1, M1. cbn [negb orb].
  specialize (IH ND' (fun k0 d0 H => C k0 d0 (or_intror H))).
  destruct (String.eqb k k1) eqn:E.
  - apply String.eqb_eq in E. subst k1.
    destruct (ne_true (getd k ex d1) d1) eqn:V.
    + unfold keys. cbn [map fst mem]. now rewrite String.eqb_refl.
    + rewrite IH. apply mem_false_In in Hn. apply lookup_none_keys in Hn. now rewrite Hn.
  - destruct (ne_true (getd k1 ex d1) d1); [| exact IH].
    unfold keys in *. cbn [map fst mem]. rewrite E. exact IH.
Qed.

Lemma passed_named_char ex k :
  mem k (keys (passed_named (call_named ex)))
  = match lookup k named_defaults with Some d => ne_true (getd k ex d) d | None => false end.
Proof.
  unfold passed_named, call_named. apply passed_named_char_gen.
  - apply named_defaults_nodup.
  - intros k0 d0 H. apply lookup_In_NoDup; [apply named_defaults_nodup | exact H].
Qed.

Lemma mem_keys_call_kwargs ex k :
  mem k (keys (call_kwargs ex)) = negb (mem k (keys named_defaults)) && mem k (keys ex).
Proof. unfold call_kwargs. apply (mem_keys_filter_key (fun k => negb (mem k (keys named_defaults)))). Qed.

Definition passed_set (ex : dict) : dict := update (passed_named (call_named ex)) (call_kwargs ex).

(* "passed" <=> a named argument whose value differs from the default, or any **kwargs key *)
Lemma passed_set_char ex k :
  mem k (keys (passed_set ex))
  = match lookup k named_defaults with
    | Some d => ne_true (getd k ex d) d
    | None => mem k (keys ex)
    end.
Proof.
  unfold passed_set. rewrite mem_keys_update, passed_named_char, mem_keys_call_kwargs.
  destruct (lookup k named_defaults) eqn:L.
  - rewrite (lookup_some_keys _ _ _ L). now rewrite orb_false_r.
  - apply lookup_none_keys in L. rewrite L. reflexivity.
Qed.

Lemma In_lookup_defaults k d : lookup k named_defaults = Some d -> In (k, d) named_defaults.
Proof.
  induction named_defaults as [|[k' d'] l IH]; cbn; [discriminate|].
  destruct (String.eqb k k') eqn:Q; [apply String.eqb_eq in Q; intros H; inversion H; subst; now left | right; auto].
Qed.

Lemma G34_spec ex : G34 ex = true ->
  forall k d v, lookup k named_defaults = Some d -> lookup k ex = Some v -> ne_true v d = true.
Proof.
  unfold G34. rewrite forallb_forall. intros H k d v L E.
  pose proof (In_lookup_defaults _ _ L) as Hin.
  specialize (H _ Hin). cbn in H. rewrite E in H. exact H.
Qed.

(* every default of the runpp signature is a scalar: `val != default` never compares two composite values *)
Lemma named_defaults_scalar k d : lookup k named_defaults = Some d -> is_scalar d = true.
Proof.
  intros L.
  assert (A : forallb (fun kd => is_scalar (snd kd)) named_defaults = true) by (vm_compute; reflexivity).
  rewrite forallb_forall in A.
  pose proof (In_lookup_defaults _ _ L) as Hin.
  exact (A _ Hin).
Qed.
Lemma ne_true_default d : is_scalar d = true -> ne_true d d = false.
Proof. intros S. unfold ne_true. rewrite (ne_truth_scalar _ _ S), (val_eqb_refl _ S). reflexivity. Qed.
Lemma ne_raises_default d : is_scalar d = true -> ne_raises d d = false.
Proof. intros S. unfold ne_raises. now rewrite (ne_truth_scalar _ _ S). Qed.

(* under the guard the passed keys are exactly the explicit keys *)
Lemma passed_set_guard ex k : G34 ex = true -> mem k (keys (passed_set ex)) = mem k (keys ex).
Proof.
  intros G. rewrite passed_set_char. destruct (lookup k named_defaults) as [d|] eqn:L; [|reflexivity].
  unfold getd. destruct (lookup k ex) as [v|] eqn:E.
  - rewrite (G34_spec _ G _ _ _ L E). symmetry. eapply lookup_some_keys; eauto.
  - rewrite (ne_true_default _ (named_defaults_scalar _ _ L)). symmetry. now apply lookup_none_keys.
Qed.

(* under the guard no comparison raises *)
Lemma passed_raises_char ex :
  passed_raises (call_named ex)
  = existsb (fun kd => ne_raises (getd (fst kd) ex (snd kd)) (snd kd)) named_defaults.
Proof.
  unfold passed_raises, call_named. rewrite existsb_map. apply existsb_ext_in.
  intros [k d] Hin. cbn [fst snd].
  assert (L : lookup k named_defaults = Some d) by (apply lookup_In_NoDup; [apply named_defaults_nodup | exact Hin]).
  rewrite (lookup_some_keys _ _ _ L). unfold getd at 2. now rewrite L.
Qed.
Lemma passed_raises_guard ex : G34 ex = true -> passed_raises (call_named ex) = false.
Proof.
  intros G. rewrite passed_raises_char.
  apply not_true_is_false. intros H. apply existsb_exists in H. destruct H as [[k d] [Hin H]]. cbn [fst snd] in H.
  assert (L : lookup k named_defaults = Some d) by (apply lookup_In_NoDup; [apply named_defaults_nodup | exact Hin]).
  unfold getd in H. destruct (lookup k ex) as [v|] eqn:E.
  - rewrite (ne_true_raises_excl _ _ (G34_spec _ G _ _ _ L E)) in H. discriminate.
  - rewrite (ne_raises_default _ (named_defaults_scalar _ _ L)) in H. discriminate.
Qed.

(* the whole path: ValueError when user options are stored and some comparison raises, otherwise the option code runs
   with the stored options of the keys that do not count as passed *)
Lemma runpp_options_unfold f stored ex :
  runpp_options f stored ex
  = if negb (is_empty stored) && passed_raises (call_named ex) then Err "ValueError"
    else init_core f (call_named ex) (call_kwargs ex)
           (filter (fun kv => negb (mem (fst kv) (keys (passed_set ex)))) stored).
Proof.
  unfold runpp_options, init_runpp_options, passed_parameters, passed_set.
  destruct stored as [|s0 stored]; cbn [is_empty negb andb overrule filter]; [reflexivity|].
  destruct (passed_raises (call_named ex)); reflexivity.
Qed.
Lemma runpp_options_guard f stored ex : G34 ex = true ->
  runpp_options f stored ex
  = init_core f (call_named ex) (call_kwargs ex)
      (filter (fun kv => negb (mem (fst kv) (keys (passed_set ex)))) stored).
Proof. intros G. rewrite runpp_options_unfold, (passed_raises_guard _ G), andb_false_r. reflexivity. Qed.
Lemma runpp_options_ok f stored ex o : runpp_options f stored ex = Ok o ->
  init_core f (call_named ex) (call_kwargs ex)
      (filter (fun kv => negb (mem (fst kv) (keys (passed_set ex)))) stored) = Ok o.
Proof.
  rewrite runpp_options_unfold. destruct (negb (is_empty stored) && passed_raises (call_named ex)); [discriminate | auto].
Qed.

Lemma filter_ext_key (p q : key -> bool) (d : dict) :
  (forall k, p k = q k) -> filter (fun kv => p (fst kv)) d = filter (fun kv => q (fst kv)) d.
Proof. intros H. apply filter_ext. intros [k v]. apply H. Qed.

(* shape of a successful result *)
Lemma init_core_ok f named kwargs ov o :
  init_core f named kwargs ov = Ok o ->
  exists cva vdl numba ls mi ivm iva, o = update (base_dict named kwargs ov cva vdl numba ls mi ivm iva) ov.
Proof.
  cbv beta delta [init_core]. intros H.
  (* which values the lets bind does not matter: each is replaced by a variable before the let is unfolded, so that
     none is copied into its uses *)
  repeat match type of H with
         | (let x := ?a in @?B x) = ?r => is_var a; change (B a = r) in H; cbv beta in H
         | (let x := ?a in _) = _ => revert H; generalize a; intros ? H
         | (match ?x with _ => _ end) = _ => destruct x; try discriminate
         end.
  inversion H. repeat eexists.
Qed.

Lemma lookup_call_named k ex d : lookup k named_defaults = Some d ->
  lookup k (call_named ex) = Some (getd k ex d).
Proof.
  intros L. unfold call_named.
  assert (forall nd, NoDup (keys nd) -> lookup k nd = Some d ->
          lookup k (map (fun kd => (fst kd, getd (fst kd) ex (snd kd))) nd) = Some (getd k ex d)) as A.
  { induction nd as [|[k1 d1] nd IH]; cbn; intros ND H; [discriminate|].
    inversion ND; subst. destruct (String.eqb k k1) eqn:E.
    - apply String.eqb_eq in E. subst. now inversion H.
    - auto. }
  exact (A _ named_defaults_nodup L).
Qed.
Lemma getd_call_named k ex d : lookup k named_defaults = Some d ->
  getd k (call_named ex) VNone = getd k ex d.
Proof. intros L. unfold getd at 1. now rewrite (lookup_call_named _ _ _ L). Qed.
Lemma lookup_call_kwargs k ex : lookup k named_defaults = None -> lookup k (call_kwargs ex) = lookup k ex.
Proof.
  intros L. unfold call_kwargs.
  rewrite (lookup_filter_key (fun k => negb (mem k (keys named_defaults)))).
  apply lookup_none_keys in L. now rewrite L.
Qed.

(* the plainly copied options: when nothing is stored under the key, net._options has the named argument or the
   **kwargs entry (with the default d the option code uses) *)
Lemma base_dict_plain named kwargs ov cva vdl numba ls mi ivm iva k :
  mem k plain_keys = true -> lookup k ov = None ->
  exists d, lookup k (base_dict named kwargs ov cva vdl numba ls mi ivm iva)
            = Some (match lookup k named_defaults with Some _ => getd k named VNone | None => getd k kwargs d end).
Proof.
  intros PK Lov. apply mem_In in PK. pose proof (proj1 (lookup_none_keys _ _) Lov) as Nov.
  unfold plain_keys in PK. cbn [In] in PK.
  repeat (destruct PK as [<-|PK];
          [eexists; cbv [base_dict lookup named_defaults String.eqb Ascii.eqb Bool.eqb fst snd];
           unfold getd; rewrite ?Lov, ?(lookup_update_notin _ _ _ Nov); reflexivity|]).
  destruct PK.
  (* for a named argument the default is not used *)
  Unshelve. all: exact VNone.
Qed.

(* the facts of the witnesses below *)
Definition facts0 : facts :=
  {| f_numba_installed := true; f_ls2g_available := true; f_zip_loads := false; f_hv_line := false;
     f_with_facts := false; f_res_bus_empty := true; f_init_vm_auto := VQ (51 # 50);
     f_multi_slack := false; f_ls2g_blocked := false; f_tdpf_ok := false |}.

Lemma res_ok_inj {A} (a b : A) : Ok a = Ok b -> a = b. Proof. now inversion 1. Qed.

Definition stored_nv : dict := [("tolerance_mva", VQ (1 # 1000)); ("max_iteration", VZ 25); ("numba", VB false)].
Definition explicit_nv : dict := [("tolerance_mva", VQ (1 # 1000000)); ("algorithm", VS "bfsw"); ("numba", VB true)].
Example nonvacuous :
  G34 explicit_nv = true /\ NoDup (keys stored_nv) /\
  (exists o, runpp_options facts0 stored_nv explicit_nv = Ok o
             /\ lookup "tolerance_mva" o = Some (VQ (1 # 1000000))
             /\ lookup "max_iteration" o = Some (VZ 25)
             /\ lookup "numba" o = Some (VB true)) /\
  mem "max_iteration" (keys (passed_set explicit_nv)) = false.
Proof.
  split; [vm_compute; reflexivity|]. split; [apply nodupb_NoDup; vm_compute; reflexivity|].
  split; [|vm_compute; reflexivity].
  eexists. split; [vm_compute; reflexivity|]. repeat split.
Qed.

(* composite values in `val != default`: list / tuple / dict / object *)
Definition is_container (v : val) : bool := match v with VL _ | VD _ | VO _ => true | _ => false end.

(* explicit wins for every container-valued or differing value: the guard seen from the value side *)
Lemma G34_intro ex :
  (forall k d v, lookup k named_defaults = Some d -> lookup k ex = Some v -> ne_truth v d = Some true) -> G34 ex = true.
Proof.
  intros H. unfold G34. apply forallb_forall. intros [k d] Hin. cbn [fst snd].
  destruct (lookup k ex) as [v|] eqn:E; [|reflexivity].
  assert (L : lookup k named_defaults = Some d) by (apply lookup_In_NoDup; [apply named_defaults_nodup | exact Hin]).
  unfold ne_true. now rewrite (H _ _ _ L E).
Qed.

Definition stored_c : dict := [("tolerance_mva", VQ (1 # 1000)); ("recycle", VD [("bus_pq", VB true)])].
Example composite_nonvacuous :
  (* size-2 array for a named argument: ValueError with stored options, plain copy without *)
  runpp_options facts0 stored_c [("tolerance_mva", VA [VQ (1 # 100); VQ (1 # 10)])] = Err "ValueError" /\
  (exists o, runpp_options facts0 [] [("tolerance_mva", VA [VQ (1 # 100); VQ (1 # 10)])] = Ok o
             /\ lookup "tolerance_mva" o = Some (VA [VQ (1 # 100); VQ (1 # 10)])) /\
  (* size-1 array equal to the default: not passed, the stored value wins (the recorded defect, array form) *)
  (exists o, runpp_options facts0 stored_c [("tolerance_mva", VA [VQ tol_default])] = Ok o
             /\ lookup "tolerance_mva" o = Some (VQ (1 # 1000))) /\
  (* list value: passed; explicit dict-valued kwargs option beats the stored dict *)
  (exists o, runpp_options facts0 stored_c [("tolerance_mva", VL [VQ tol_default]); ("recycle", VD [])] = Ok o
             /\ lookup "tolerance_mva" o = Some (VL [VQ tol_default]) /\ lookup "recycle" o = Some (VD [])).
Proof.
  split; [vm_compute; reflexivity|].
  split; [eexists; split; vm_compute; reflexivity|].
  split; [eexists; split; vm_compute; reflexivity|].
  eexists; split; [vm_compute; reflexivity|]. split; vm_compute; reflexivity.
Qed.
