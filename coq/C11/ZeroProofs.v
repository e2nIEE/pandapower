(* C11.ZeroProofs — what the zero-sequence transformer rows of pd2ppc_zero.py mean: the pi equivalent written into the row
   is the T equivalent (hv leakage z1 = si0*z0, lv leakage z2 = (1-si0)*z0, magnetising z3 = z_m0) seen through makeYbus. *)
From Coq Require Import ZArith QArith Qabs List Bool Lia Lqa Setoid Morphisms.
From PPV Require Import Base.QN Base.QC C11.Base3 C11.Base3Proofs C11.Zero.
Open Scope Q_scope.

Definition Dsum (z1 z2 z3 : C) : C := Cadd (Cadd (Cmul z1 z2) (Cmul z2 z3)) (Cmul z1 z3).

Lemma t_to_pi_spec z1 z2 z3 :
  ~ z1 ==c C0 -> ~ z2 ==c C0 -> ~ z3 ==c C0 -> ~ Dsum z1 z2 z3 ==c C0 ->
  let p := t_to_pi z1 z2 z3 in
  p_zc p ==c Cdiv (Dsum z1 z2 z3) z3 /\ p_YAB p ==c Cdiv z3 (Dsum z1 z2 z3) /\
  p_YAN p ==c Cdiv z2 (Dsum z1 z2 z3) /\ p_YBN p ==c Cdiv z1 (Dsum z1 z2 z3).
Proof.
  intros N1 N2 N3 ND. unfold t_to_pi; cbn [p_zc p_YAB p_YAN p_YBN]. fold (Dsum z1 z2 z3).
  set (D := Dsum z1 z2 z3) in *. clearbody D.
  split; [reflexivity |]. split; [| split]; field; auto.
Qed.

(* (tap_lv / tap_hv) * TAP^2 = 1 : the factor in y_sym of YNyn only undoes the division by |tap|^2 in makeYbus *)
Lemma ratio_factor sn z q :
  ~ sn == 0 -> ~ t_basekv_lv (z_t z) == 0 -> ~ t_basekv_hv (z_t z) == 0 ->
  ~ vn_trafo_lv (z_t z) q == 0 -> ~ vn_trafo_hv (z_t z) q == 0 ->
  trafo_ratio (z_t z) q * trafo_ratio (z_t z) q * (ztap_lv sn z q / ztap_hv sn z q) == 1.
Proof.
  intros. unfold trafo_ratio, ztap_lv, ztap_hv, qsq. qstrip. field. repeat split; auto.
Qed.

Definition ctap (r : zrow) (e : C) : C := Cq (if qeqb (zr_tap r) 0 then 1 else zr_tap r) e.

Lemma Cq_mul k z : Cq k z ==c Cmul (CofQ k) z. Proof. apply Cscale_mul. Qed.
Lemma Cq_1 z : Cq 1 z ==c z. Proof. apply Cscale_1. Qed.
Lemma Cq_Cq a b z : Cq a (Cq b z) ==c Cq (a * b) z. Proof. unfold Cq. cstrip; ring. Qed.
Global Instance Cq_proper : Proper (Qeq ==> Ceq ==> Ceq) Cq. Proof. intros a b H x y H'. unfold Cq. rewrite H, H'. reflexivity. Qed.

Lemma bv_generic r e : zr_status r = 1 ->
  let s := branch_vectors r e in let T := ctap r e in let Ys := Cinv (mkC (zr_r r) (zr_x r)) in
  ~ T ==c C0 -> ~ Cconj T ==c C0 ->
  Cmul (Yff s) (Cmul T (Cconj T)) ==c Cadd Ys (Cq (1 # 2) (zr_ysym r)) /\
  Cmul (Yft s) (Cconj T) ==c Copp Ys /\
  Cmul (Ytf s) T ==c Copp Ys /\
  Ytt s ==c Cadd Ys (Cq (1 # 2) (Cadd (zr_ysym r) (zr_yasym r))).
Proof.
  intros ST s T Ys NT NTC. unfold s, branch_vectors. cbn [Yff Yft Ytf Ytt]. rewrite ST.
  fold (ctap r e). fold T. fold Ys. rewrite !Cq_1.
  generalize (Cq (1 # 2) (zr_ysym r)) (Cq (1 # 2) (Cadd (zr_ysym r) (zr_yasym r))). intros h1 h2.
  clearbody T Ys.
  split; [| split; [| split]].
  - field. split; auto.
  - field. auto.
  - field. auto.
  - reflexivity.
Qed.

Lemma zero_row_status sn bm z q sx sm : z_ins z = true -> zr_status (zero_row sn bm z q sx sm) = 1.
Proof. intros INS. unfold zero_row. rewrite INS. destruct (z_vg z); reflexivity. Qed.

Lemma qsign_sq x : ~ x == 0 -> qsign x * qsign x == 1.
Proof.
  intros N. unfold qsign. destruct (qltb x 0) eqn:A; [reflexivity |]. destruct (qltb 0 x) eqn:B; [reflexivity |].
  apply qltb_ge in A. apply qltb_ge in B. exfalso. apply N. lra.
Qed.
(* |r + j g s|^2 / p^2 = z^2 / p^2 when s = sqrt(z^2 - r^2) and g = +-1 *)
Lemma cnorm2_sqrt_leg r g s z p : g * g == 1 -> s * s == z * z - r * r -> ~ p == 0 ->
  r / p * (r / p) + g * s / p * (g * s / p) == z / p * (z / p).
Proof.
  intros G S P. transitivity ((r * r + g * g * (s * s)) / (p * p)); [field; exact P |]. rewrite G, S. field. exact P.
Qed.
(* zero-sequence short-circuit impedance: real part vkr0, magnitude vk0 (per unit on the transformer rating), changed to
   the base  V_lv^2/(3*sn): in ohm  |z0| = vk0/100 * vn_trafo_lv^2 / sn_trafo / parallel  (free of net.sn_mva) *)
Lemma z0_k_spec sn z q sx :
  is_sqrt sx (z0_sqrt_arg sn z q) -> ~ z0_zsc sn z q == 0 -> ~ t_par (z_t z) == 0 ->
  re (z0_k sn z q sx) == z0_rsc sn z q / t_par (z_t z) /\
  cnorm2 (z0_k sn z q sx) == (z0_zsc sn z q / t_par (z_t z)) * (z0_zsc sn z q / t_par (z_t z)).
Proof.
  intros [_ S] NZ NP. unfold z0_k, cnorm2; cbn [re im]. split; [apply qdiv_correct |].
  qstrip. apply cnorm2_sqrt_leg; [exact (qsign_sq _ NZ) | | exact NP].
  rewrite S. unfold z0_sqrt_arg, qsq. qstrip. reflexivity.
Qed.
Lemma z0_ohmic sn z q : ~ sn == 0 -> ~ t_basekv_lv (z_t z) == 0 -> ~ t_sn (z_t z) == 0 ->
  let zbase := t_basekv_lv (z_t z) * t_basekv_lv (z_t z) / (3 * sn) in
  z0_zsc sn z q * zbase == vk0_eff z / 100 * (vn_trafo_lv (z_t z) q * vn_trafo_lv (z_t z) q) / t_sn (z_t z) /\
  z0_rsc sn z q * zbase == vkr0_eff z / 100 * (vn_trafo_lv (z_t z) q * vn_trafo_lv (z_t z) q) / t_sn (z_t z).
Proof.
  intros A B Cn zbase. unfold zbase, z0_zsc, z0_rsc, ztap_lv, qsq. split; qstrip; field; repeat split; auto.
Qed.
(* magnetising impedance: magnitude mag0_percent * |z0| (mag0_percent is used as the plain ratio z_mag0/z0), r/x = mag0_rx *)
Lemma z0_mag_spec sn z q sm :
  is_sqrt sm (mag_sqrt_arg z) -> ~ sm == 0 -> ~ t_par (z_t z) == 0 ->
  re (z0_mag sn z q sm) == z_mag0_rx z * im (z0_mag sn z q sm) /\
  cnorm2 (z0_mag sn z q sm) == (z_mag0 z * z0_zsc sn z q / t_par (z_t z)) * (z_mag0 z * z0_zsc sn z q / t_par (z_t z)).
Proof.
  intros [_ S] NS NP. unfold mag_sqrt_arg, qsq in S. qstrip_in S.
  unfold z0_mag, cnorm2; cbn [re im]. split; qstrip; [field; auto |].
  generalize (z0_zsc sn z q) (z_mag0 z) (z_mag0_rx z) (t_par (z_t z)) S NP. intros a m x p S' NP'.
  transitivity (a * m / p * (a * m / p) * (x * x + 1) / (sm * sm)); [field; auto |]. rewrite <- S'. field. auto.
Qed.

(* a transformer meeting every hypothesis of the zero-sequence theorems *)
Definition zero_wit (vg : vgroup) : zero_in :=
  {| z_t := trafo_wit; z_vk0 := 5; z_vkr0 := 3; z_mag0 := 100; z_mag0_rx := 3 # 4; z_si0 := 9 # 10; z_ins := true; z_vg := vg |}.
Ltac cnz := let H := fresh in let H' := fresh in intros [H H']; vm_compute in H, H'; first [discriminate H | discriminate H'].
Example zero_nonvacuous : forall vg, vg = Dyn \/ vg = YNyn ->
  let z := zero_wit vg in let sn := 1 in let q := 21 in let sx := 1323 # 200000 in let sm := 5 # 4 in let e := mkC (-3 # 5) (4 # 5) in
  G11_zero sn 1 z q sm = true /\ is_sqrt q (tap_sqrt_arg (z_t z)) /\ is_sqrt sx (z0_sqrt_arg sn z q) /\ is_sqrt sm (mag_sqrt_arg z) /\
  cnorm2 e == 1 /\
  let z0 := z0_k sn z q sx in let z1 := z1_of z z0 in let z2 := z2_of z z0 in let z3 := z0_mag sn z q sm in
  ~ z1 ==c C0 /\ ~ z2 ==c C0 /\ ~ z3 ==c C0 /\ ~ Dsum z1 z2 z3 ==c C0 /\ ~ Cadd z2 z3 ==c C0 /\ ~ Cadd z1 z3 ==c C0 /\
  let r := zero_row sn 1 z q sx sm in ~ ctap r e ==c C0 /\ ~ Cconj (ctap r e) ==c C0.
Proof.
  intros vg [-> | ->]; cbn zeta; unfold is_sqrt;
  (split; [vm_compute; reflexivity |]); (split; [split; [vm_compute; discriminate | vm_compute; reflexivity] |]);
  (split; [split; [vm_compute; discriminate | vm_compute; reflexivity] |]);
  (split; [split; [vm_compute; discriminate | vm_compute; reflexivity] |]);
  (split; [vm_compute; reflexivity |]);
  repeat (split; [cnz |]); cnz.
Qed.
