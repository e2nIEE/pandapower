(* C11.Base3Proofs — the one-third base of the pf_3ph branch rows is a consistent base change (lines, two-winding
   transformers incl. the T -> pi conversion); the impedance element's shunt part is not. *)
From Coq Require Import ZArith QArith Qabs List Bool Lia Lqa Setoid Morphisms.
From PPV Require Import Base.QN Base.QC C11.Base3.
Open Scope Q_scope.

Lemma negb_qeqb x y : negb (qeqb x y) = true <-> ~ x == y.
Proof. rewrite negb_true_iff. apply qeqb_false. Qed.
Global Instance qeqb_proper : Proper (Qeq ==> Qeq ==> eq) qeqb.
Proof.
  intros a b H c d H'. destruct (qeqb a c) eqn:E, (qeqb b d) eqn:F; try reflexivity.
  - apply qeqb_eq in E. apply qeqb_false in F. exfalso. apply F. rewrite <- H, <- H'. exact E.
  - apply qeqb_eq in F. apply qeqb_false in E. exfalso. apply E. rewrite H, H'. exact F.
Qed.
Global Instance qltb_proper : Proper (Qeq ==> Qeq ==> eq) qltb.
Proof.
  intros a b H c d H'. destruct (qltb a c) eqn:E, (qltb b d) eqn:F; try reflexivity.
  - apply qltb_lt in E. apply qltb_ge in F. rewrite H, H' in E. exfalso. apply (Qlt_not_le _ _ E F).
  - apply qltb_lt in F. apply qltb_ge in E. rewrite H, H' in E. exfalso. apply (Qlt_not_le _ _ F E).
Qed.

Lemma is_sqrt_unique a b x y : is_sqrt a x -> is_sqrt b y -> x == y -> a == b.
Proof. intros [A1 A2] [B1 B2] E. rewrite <- E in B2. nra. Qed.
(* sqrt(x / k^2) = sqrt(x) / k *)
Lemma is_sqrt_scale a b x y k : 0 < k -> is_sqrt a x -> is_sqrt b y -> x == k * k * y -> a == k * b.
Proof.
  intros K [A1 A2] [B1 B2] E.
  assert (H : a * a == (k * b) * (k * b)) by (rewrite A2, E, <- B2; ring).
  assert (0 <= k * b) by nra. nra.
Qed.

Lemma qsign_scale k z : 0 < k -> qsign (k * z) = qsign z.
Proof.
  intros K. unfold qsign.
  destruct (qltb z 0) eqn:E.
  - apply qltb_lt in E. assert (H : qltb (k * z) 0 = true) by (apply qltb_lt; nra). rewrite H. reflexivity.
  - apply qltb_ge in E. assert (H : qltb (k * z) 0 = false) by (apply qltb_ge; nra). rewrite H.
    destruct (qltb 0 z) eqn:F.
    + apply qltb_lt in F. assert (H2 : qltb 0 (k * z) = true) by (apply qltb_lt; nra). rewrite H2. reflexivity.
    + apply qltb_ge in F. assert (H2 : qltb 0 (k * z) = false) by (apply qltb_ge; nra). rewrite H2. reflexivity.
Qed.
Global Instance qsign_proper : Proper (Qeq ==> eq) qsign.
Proof. intros a b H. unfold qsign. rewrite (qltb_proper a b H 0 0 (Qeq_refl 0)), (qltb_proper 0 0 (Qeq_refl 0) a b H). reflexivity. Qed.

Ltac b3unfold :=
  unfold line_row_of, line_baseR, three_if, third_if, qsq; cbn [lr_r lr_x lr_b lr_g].

Definition line_row_eq (a b : line_row) : Prop :=
  lr_r a == lr_r b /\ lr_x a == lr_x b /\ lr_b a == lr_b b /\ lr_g a == lr_g b.

(* pf_3ph at sn = s  is  pf at sn = 3*s *)
Lemma line_third_consistency s f pi l : line_row_eq (line_row_of true s f pi l) (line_row_of false (3 * s) f pi l).
Proof. b3unfold. unfold line_row_eq; cbn [lr_r lr_x lr_b lr_g]. qstrip. repeat split; reflexivity. Qed.

Lemma Qdiv_1 x : x == x / 1. Proof. field. Qed.
Lemma G11_line_true s l : G11_line s l = true -> ~ s == 0 /\ ~ l_basekv l == 0 /\ ~ l_par l == 0.
Proof. unfold G11_line. rewrite !andb_true_iff, !negb_qeqb. tauto. Qed.

(* against pf at the same sn: r, x three times, b, g one third *)
Lemma line_third_scaling s f pi l : G11_line s l = true ->
  let r3 := line_row_of true s f pi l in let r1 := line_row_of false s f pi l in
  lr_r r3 == 3 * lr_r r1 /\ lr_x r3 == 3 * lr_x r1 /\ lr_b r3 == lr_b r1 / 3 /\ lr_g r3 == lr_g r1 / 3.
Proof.
  intros G. apply G11_line_true in G. destruct G as (S & B & P). b3unfold. qstrip. repeat split; field; auto.
Qed.

(* the ohmic values recovered with the base the row was computed on are the sn-free physical values *)
Definition line_ohm_spec (f pi : Q) (l : line_in) : Q * Q * Q * Q :=
  (l_r l * l_len l / l_par l, l_x l * l_len l / l_par l,
   2 * f * pi * l_c l * (1 # 1000000000) * l_len l * l_par l, l_g l * (1 # 1000000) * l_len l * l_par l).
Definition line_ohm_of (zbase : Q) (r : line_row) : Q * Q * Q * Q :=
  (lr_r r * zbase, lr_x r * zbase, lr_b r / zbase, lr_g r / zbase).
Definition q4eq (a b : Q * Q * Q * Q) : Prop :=
  let '(a1, a2, a3, a4) := a in let '(b1, b2, b3, b4) := b in a1 == b1 /\ a2 == b2 /\ a3 == b3 /\ a4 == b4.
Lemma line_ohmic s f pi l : G11_line s l = true ->
  let v2 := l_basekv l * l_basekv l in
  q4eq (line_ohm_of (v2 / (3 * s)) (line_row_of true s f pi l)) (line_ohm_spec f pi l) /\
  q4eq (line_ohm_of (v2 / s) (line_row_of false s f pi l)) (line_ohm_spec f pi l).
Proof.
  intros G. apply G11_line_true in G. destruct G as (S & B & P).
  unfold line_ohm_of, line_ohm_spec, q4eq. b3unfold. qstrip. repeat split; field; auto.
Qed.

(* v' is v expressed on a base k times larger: impedances * k, admittances / k *)
Definition rxgb_scaled (k : Q) (v' v : rxgb) : Prop :=
  v_r v' == k * v_r v /\ v_x v' == k * v_x v /\ v_g v' == v_g v / k /\ v_b v' == v_b v / k.

Ltac t3unfold :=
  unfold trafo_rxgb, trafo_r, trafo_x, trafo_g, trafo_b, y_scale, x_sqrt_arg, r_sc, z_sc, tap_lv_factor,
    y_baseZ, y_pfe_mw, y_vnl_squared, y_ym_mva, y_i0, three_if, third_if, qsq; cbn [v_r v_x v_g v_b].

Lemma z_sc_third s t q : z_sc true s t q == 3 * z_sc false s t q.
Proof. unfold z_sc, tap_lv_factor, three_if. qstrip. ring. Qed.
Lemma r_sc_third s t q : r_sc true s t q == 3 * r_sc false s t q.
Proof. unfold r_sc, tap_lv_factor, three_if. qstrip. ring. Qed.
Lemma z_sc_3s s t q : z_sc true s t q == z_sc false (3 * s) t q.
Proof. unfold z_sc, tap_lv_factor, three_if. qstrip. reflexivity. Qed.
Lemma r_sc_3s s t q : r_sc true s t q == r_sc false (3 * s) t q.
Proof. unfold r_sc, tap_lv_factor, three_if. qstrip. reflexivity. Qed.
Lemma x_arg_third s t q : x_sqrt_arg true s t q == 3 * 3 * x_sqrt_arg false s t q.
Proof. unfold x_sqrt_arg, qsq. qstrip. rewrite z_sc_third, r_sc_third. ring. Qed.
Lemma x_arg_3s s t q : x_sqrt_arg true s t q == x_sqrt_arg false (3 * s) t q.
Proof. unfold x_sqrt_arg, qsq. qstrip. rewrite z_sc_3s, r_sc_3s. reflexivity. Qed.

(* the clamped sqrt argument of the magnetising susceptance: pf = 9 * pf_3ph *)
Lemma clamp_scale d1 d3 : d1 == 3 * 3 * d3 -> (if qltb d1 0 then 0 else d1) == 3 * 3 * (if qltb d3 0 then 0 else d3).
Proof.
  intros E. destruct (qltb d3 0) eqn:A, (qltb d1 0) eqn:B.
  - ring.
  - apply qltb_lt in A. apply qltb_ge in B. exfalso. lra.
  - apply qltb_lt in B. apply qltb_ge in A. exfalso. lra.
  - exact E.
Qed.
Lemma b_arg_third t : b_sqrt_arg false t == 3 * 3 * b_sqrt_arg true t.
Proof.
  unfold b_sqrt_arg. cbv zeta. apply clamp_scale.
  unfold y_ym_mva, y_pfe_mw, y_i0, third_if, qsq. qstrip. field.
Qed.

(* no zero denominator (implied by the guard G11_trafo) *)
Definition trafo_wf (s : Q) (t : trafo_in) (q : Q) : Prop :=
  ~ s == 0 /\ ~ t_sn t == 0 /\ ~ t_par t == 0 /\ ~ t_vn_lv t == 0 /\ ~ t_basekv_lv t == 0 /\ ~ t_basekv_hv t == 0 /\ ~ q == 0.
Lemma G11_trafo_wf m s t q : G11_trafo m s t q = true -> trafo_wf s t q /\ 0 <= x_sqrt_arg m s t q.
Proof.
  unfold G11_trafo, trafo_wf. rewrite !andb_true_iff, !negb_qeqb. intros H. decompose [and] H. clear H.
  repeat split; auto. apply qleb_le. assumption.
Qed.
Lemma vtl_nz s t q : trafo_wf s t q -> ~ vn_trafo_lv t q == 0.
Proof. unfold trafo_wf, vn_trafo_lv. intros H. decompose [and] H. destruct (t_tap_lv_side t); assumption. Qed.
Lemma vth_nz s t q : trafo_wf s t q -> ~ t_vn_hv t == 0 -> ~ vn_trafo_hv t q == 0.
Proof. unfold trafo_wf, vn_trafo_hv. intros H. decompose [and] H. destruct (t_tap_lv_side t); auto. Qed.

Ltac wf_side W := pose proof (vtl_nz _ _ _ W); unfold trafo_wf in W; decompose [and] W; repeat split; auto.

(* g and b: pf_3ph divides numerator and vnl^2 by 3, which cancels, and takes baseZ on 3*s *)
Lemma y_scale_3s s t q n : y_scale false (3 * s) t q n == y_scale false s t q n / 3.
Proof. unfold y_scale, y_baseZ, three_if. qstrip. unfold Qdiv. rewrite (Qinv_mult_distr 3 s). ring. Qed.
Lemma trafo_g_3s s t q : trafo_wf s t q -> trafo_g true s t q == trafo_g false (3 * s) t q.
Proof. intros W. t3unfold. qstrip. field. wf_side W. Qed.
Lemma trafo_b_3s s t q sb : trafo_wf s t q -> trafo_b true s t q sb == trafo_b false (3 * s) t q (3 * sb).
Proof. intros W. t3unfold. qstrip. field. wf_side W. Qed.
Global Instance trafo_b_proper m s t q : Proper (Qeq ==> Qeq) (trafo_b m s t q).
Proof. intros a b H. unfold trafo_b, y_scale. rewrite H. reflexivity. Qed.

(* the two sqrt calls: oracle values of the two modes differ by the factor 3 (x) resp. 1/3 (b) *)
Lemma trafo_x_third s t q sx3 sx1 : is_sqrt sx3 (x_sqrt_arg true s t q) -> is_sqrt sx1 (x_sqrt_arg false s t q) ->
  trafo_x true s t q sx3 == 3 * trafo_x false s t q sx1.
Proof.
  intros X3 X1.
  assert (EX : sx3 == 3 * sx1) by (eapply (is_sqrt_scale sx3 sx1 _ _ 3); eauto using x_arg_third; lra).
  unfold trafo_x. qstrip. rewrite z_sc_third, EX, qsign_scale by lra. unfold Qdiv. ring.
Qed.
Lemma trafo_b_third s t q sb3 sb1 : trafo_wf s t q -> is_sqrt sb3 (b_sqrt_arg true t) -> is_sqrt sb1 (b_sqrt_arg false t) ->
  trafo_b true s t q sb3 == trafo_b false s t q sb1 / 3.
Proof.
  intros W B3 B1.
  assert (EB : sb1 == 3 * sb3) by (eapply (is_sqrt_scale sb1 sb3 _ _ 3); eauto using b_arg_third; lra).
  rewrite (trafo_b_3s _ _ _ _ W), EB. apply y_scale_3s.
Qed.

(* r, x, g, b of pf_3ph at sn = s  are  those of pf at sn = 3*s (any sqrt oracle values meeting the contract) *)
Lemma trafo_rxgb_consistency s t q sx3 sb3 sx1 sb1 :
  trafo_wf s t q ->
  is_sqrt sx3 (x_sqrt_arg true s t q) -> is_sqrt sx1 (x_sqrt_arg false (3 * s) t q) ->
  is_sqrt sb3 (b_sqrt_arg true t) -> is_sqrt sb1 (b_sqrt_arg false t) ->
  rxgb_scaled 1 (trafo_rxgb true s t q sx3 sb3) (trafo_rxgb false (3 * s) t q sx1 sb1).
Proof.
  intros W X3 X1 B3 B1.
  assert (EX : sx3 == sx1) by (eapply is_sqrt_unique; eauto using x_arg_3s).
  assert (EB : sb1 == 3 * sb3) by (eapply (is_sqrt_scale sb1 sb3 _ _ 3); eauto using b_arg_third; lra).
  unfold rxgb_scaled, trafo_rxgb, trafo_r, trafo_x; cbn [v_r v_x v_g v_b].
  repeat split.
  - qstrip. rewrite r_sc_3s. ring.
  - qstrip. rewrite z_sc_3s, EX. ring.
  - rewrite (trafo_g_3s _ _ _ W). apply Qdiv_1.
  - rewrite (trafo_b_3s _ _ _ _ W), EB. apply Qdiv_1.
Qed.

(* against pf at the same sn: r, x three times, g, b one third *)
Lemma trafo_rxgb_third s t q sx3 sb3 sx1 sb1 :
  trafo_wf s t q ->
  is_sqrt sx3 (x_sqrt_arg true s t q) -> is_sqrt sx1 (x_sqrt_arg false s t q) ->
  is_sqrt sb3 (b_sqrt_arg true t) -> is_sqrt sb1 (b_sqrt_arg false t) ->
  rxgb_scaled 3 (trafo_rxgb true s t q sx3 sb3) (trafo_rxgb false s t q sx1 sb1).
Proof.
  intros W X3 X1 B3 B1. unfold rxgb_scaled, trafo_rxgb; cbn [v_r v_x v_g v_b].
  repeat split.
  - unfold trafo_r. qstrip. rewrite r_sc_third. unfold Qdiv. ring.
  - apply trafo_x_third; assumption.
  - rewrite (trafo_g_3s _ _ _ W). apply y_scale_3s.
  - apply trafo_b_third; assumption.
Qed.

Lemma Cscale_mul2 k m a b : Cmul (Cscale k a) (Cscale m b) ==c Cscale (k * m) (Cmul a b).
Proof. cstrip; ring. Qed.
Lemma Cscale_div k m a b : ~ m == 0 -> Cdiv (Cscale k a) (Cscale m b) ==c Cscale (k / m) (Cdiv a b).
Proof.
  intros M. unfold Cdiv. rewrite (Cscale_inv m b M), Cscale_mul2. reflexivity.
Qed.

(* the three star impedances scaled by k: their sum of pairwise products scales by k^2, so each delta impedance
   zs / z scales by k.  No non-vanishing hypothesis on zs or z: Cinv 0 = 0 scales as well. *)
Lemma star_sum_scale k za zb zc :
  Cadd (Cadd (Cmul (Cscale k za) (Cscale k zb)) (Cmul (Cscale k za) (Cscale k zc))) (Cmul (Cscale k zb) (Cscale k zc)) ==c
  Cscale (k * k) (Cadd (Cadd (Cmul za zb) (Cmul za zc)) (Cmul zb zc)).
Proof. cstrip; ring. Qed.
Lemma delta_scale k zs zs' z z' : ~ k == 0 -> zs' ==c Cscale (k * k) zs -> z' ==c Cscale k z ->
  Cdiv zs' z' ==c Cscale k (Cdiv zs z).
Proof.
  intros K -> ->. rewrite Cscale_div by exact K. apply Cscale_proper; [field; exact K | reflexivity].
Qed.

Definition trow_scaled (k : Q) (w' w : trow) : Prop :=
  tr_r w' == k * tr_r w /\ tr_x w' == k * tr_x w /\ tr_g w' == tr_g w / k /\ tr_b w' == tr_b w / k /\
  tr_g_asym w' == tr_g_asym w / k /\ tr_b_asym w' == tr_b_asym w / k.

Lemma Qinv_nz k : ~ k == 0 -> ~ / k == 0.
Proof. intros K H. apply K. rewrite <- (Qinv_involutive k), H. reflexivity. Qed.
Lemma qeqb_div0 k x : ~ k == 0 -> qeqb (x / k) 0 = qeqb x 0.
Proof.
  intros K. apply eq_true_iff_eq. rewrite !qeqb_eq. split; intros H.
  - assert (E : x == x / k * k) by (field; exact K). rewrite E, H. ring.
  - rewrite H. field. exact K.
Qed.

Lemma wye_delta_homogeneous k v' v rr xr : ~ k == 0 -> rxgb_scaled k v' v ->
  trow_scaled k (wye_delta v' rr xr) (wye_delta v rr xr).
Proof.
  intros K (HR & HX & HG & HB). unfold wye_delta.
  assert (T : (qeqb (v_g v') 0 && qeqb (v_b v') 0)%bool = (qeqb (v_g v) 0 && qeqb (v_b v) 0)%bool).
  { rewrite HG, HB. rewrite 2 qeqb_div0 by exact K. reflexivity. }
  rewrite T. destruct (qeqb (v_g v) 0 && qeqb (v_b v) 0)%bool; unfold trow_scaled; cbn [tr_r tr_x tr_g tr_b tr_g_asym tr_b_asym].
  - repeat split; auto; unfold Qdiv; ring.
  - set (za' := mkC (qmul (v_r v') rr) _). set (za := mkC (qmul (v_r v) rr) _).
    set (zb' := mkC (qmul (v_r v') _) _). set (zb := mkC (qmul (v_r v) _) _).
    set (zc' := Cinv (mkC (v_g v') _)). set (zc := Cinv (mkC (v_g v) _)).
    set (zs' := Cadd _ (Cmul zb' zc')). set (zs := Cadd _ (Cmul zb zc)).
    assert (EA : za' ==c Cscale k za) by (unfold za', za; cstrip; [rewrite HR | rewrite HX]; ring).
    assert (EB : zb' ==c Cscale k zb) by (unfold zb', zb; cstrip; [rewrite HR | rewrite HX]; ring).
    assert (EC : zc' ==c Cscale k zc).
    { unfold zc', zc. transitivity (Cinv (Cscale (/ k) (mkC (v_g v) (v_b v)))).
      - apply Cinv_proper. cstrip; [rewrite HG | rewrite HB]; unfold Qdiv; ring.
      - rewrite Cscale_inv, Qinv_involutive by (apply Qinv_nz; exact K). reflexivity. }
    assert (ES : zs' ==c Cscale (k * k) zs) by (unfold zs', zs; rewrite EA, EB, EC; apply star_sum_scale).
    clearbody za' za zb' zb zc' zc zs' zs.
    rewrite (delta_scale k zs zs' zc zc'), (delta_scale k zs zs' zb zb'), (delta_scale k zs zs' za za') by assumption.
    rewrite !Cscale_inv by exact K. cbn [Cscale re im].
    generalize (Cdiv zs zc) (Cinv (Cdiv zs zb)) (Cinv (Cdiv zs za)). intros zab yf yt.
    qstrip. repeat split; field; exact K.
Qed.

(* sn-free ohmic specification of the transformer (referred to the lv side, at the lv bus voltage level):
     r = vkr/100 * vn_trafo_lv^2 / sn_trafo / parallel   [ohm]
     |z| = vk/100 * vn_trafo_lv^2 / sn_trafo / parallel  [ohm]  (x = sign * sqrt(z^2 - r^2))
     g = pfe_kw/1000 / vn_trafo_lv^2 * parallel           [S]
     |y|: (i0/100 * sn_trafo)  / vn_trafo_lv^2 * parallel [S]   (b = -sqrt(y^2 - g^2), clamped)
   the values recovered from the rows with the base the rows were computed on:  base 3*s for pf_3ph, s for pf *)
Definition trafo_ohm_r (t : trafo_in) (q : Q) : Q :=
  t_vkr t / 100 * (vn_trafo_lv t q * vn_trafo_lv t q) / t_sn t / t_par t.
Definition trafo_siemens_g (t : trafo_in) (q : Q) : Q :=
  t_pfe_kw t * (1 # 1000) / (vn_trafo_lv t q * vn_trafo_lv t q) * t_par t.
Lemma trafo_ohmic s t q : trafo_wf s t q ->
  let zb3 := t_basekv_lv t * t_basekv_lv t / (3 * s) in let zb1 := t_basekv_lv t * t_basekv_lv t / s in
  trafo_r true s t q * zb3 == trafo_ohm_r t q /\ trafo_r false s t q * zb1 == trafo_ohm_r t q /\
  trafo_g true s t q / zb3 == trafo_siemens_g t q /\ trafo_g false s t q / zb1 == trafo_siemens_g t q.
Proof.
  intros W. unfold trafo_ohm_r, trafo_siemens_g. cbn zeta. t3unfold. repeat split; qstrip; field; wf_side W.
Qed.
(* the reactance and the susceptance: recovered ohmic values of the two modes coincide for every pair of oracle values *)
Lemma base_change_xb x3 x1 b3 b1 v s : ~ s == 0 -> ~ v == 0 -> x3 == 3 * x1 -> b3 == b1 / 3 ->
  x3 * (v * v / (3 * s)) == x1 * (v * v / s) /\ b3 / (v * v / (3 * s)) == b1 / (v * v / s).
Proof. intros S V -> ->. split; field; auto. Qed.
Lemma trafo_ohmic_xb s t q sx3 sb3 sx1 sb1 :
  trafo_wf s t q ->
  is_sqrt sx3 (x_sqrt_arg true s t q) -> is_sqrt sx1 (x_sqrt_arg false s t q) ->
  is_sqrt sb3 (b_sqrt_arg true t) -> is_sqrt sb1 (b_sqrt_arg false t) ->
  let zb3 := t_basekv_lv t * t_basekv_lv t / (3 * s) in let zb1 := t_basekv_lv t * t_basekv_lv t / s in
  trafo_x true s t q sx3 * zb3 == trafo_x false s t q sx1 * zb1 /\
  trafo_b true s t q sb3 / zb3 == trafo_b false s t q sb1 / zb1.
Proof.
  intros W X3 X1 B3 B1 zb3 zb1. subst zb3 zb1.
  pose proof (trafo_x_third s t q sx3 sx1 X3 X1) as HX. pose proof (trafo_b_third s t q sb3 sb1 W B3 B1) as HB.
  destruct W as (S & _ & _ & _ & V & _).
  exact (base_change_xb _ _ _ _ (t_basekv_lv t) s S V HX HB).
Qed.

Definition imp_row_scaled (k : Q) (a b : imp_row) : Prop :=
  ir_r a == k * ir_r b /\ ir_x a == k * ir_x b /\ ir_r_asym a == k * ir_r_asym b /\ ir_x_asym a == k * ir_x_asym b /\
  ir_g a == ir_g b / k /\ ir_b a == ir_b b / k /\ ir_g_asym a == ir_g_asym b / k /\ ir_b_asym a == ir_b_asym b / k.
Lemma G11_imp_noshunt_true i : G11_imp_noshunt i = true -> i_gf i == 0 /\ i_bf i == 0 /\ i_gt i == 0 /\ i_bt i == 0.
Proof. unfold G11_imp_noshunt. rewrite !andb_true_iff, !qeqb_eq. tauto. Qed.
(* an impedance element with a shunt part: on it the pf_3ph row is not a base change of the pf row (Properties/C11.v) *)
Definition imp_wit : imp_in :=
  {| i_rft := 1 # 100; i_xft := 1 # 50; i_rtf := 1 # 100; i_xtf := 1 # 50; i_gf := 1 # 100; i_bf := 1 # 50;
     i_gt := 1 # 100; i_bt := 1 # 50; i_sn := 10 |}.

Definition line_wit : line_in :=
  {| l_r := 3 # 10; l_x := 2 # 5; l_c := 200; l_g := 2; l_len := 5 # 2; l_par := 2; l_basekv := 20 |}.
Example line_nonvacuous : G11_line 10 line_wit = true /\ ~ lr_r (line_row_of true 10 50 (355 # 113) line_wit) == 0 /\
  ~ lr_b (line_row_of true 10 50 (355 # 113) line_wit) == 0 /\ ~ lr_g (line_row_of true 10 50 (355 # 113) line_wit) == 0.
Proof. repeat split; vm_compute; discriminate. Qed.

(* a transformer whose three sqrt arguments are perfect squares: vk 5 %, vkr 3 % (x: 4 %), i0 0.05 %, pfe 6 kW on 20 MVA
   (ym = 10 kVA, b = 8 kvar), lv tap +2 steps of 2.5 % on 20 kV -> 21 kV *)
Definition trafo_wit : trafo_in :=
  {| t_vn_hv := 110; t_vn_lv := 20; t_sn := 20; t_vk := 5; t_vkr := 3; t_pfe_kw := 6; t_i0 := 5 # 100; t_par := 2;
     t_shift := 150; t_tap_lv_side := true; t_tap_pos := 2; t_tap_neutral := 0; t_tap_step := 5 # 2;
     t_basekv_hv := 110; t_basekv_lv := 20; t_r_ratio := 1 # 2; t_x_ratio := 1 # 2 |}.
Example trafo_nonvacuous :
  let s := 1 in let t := trafo_wit in let q := 21 in
  is_sqrt q (tap_sqrt_arg t) /\ G11_trafo true s t q = true /\ G11_trafo false s t q = true /\ G11_trafo false (3 * s) t q = true /\
  is_sqrt (1323 # 200000) (x_sqrt_arg true s t q) /\ is_sqrt (441 # 200000) (x_sqrt_arg false s t q) /\
  is_sqrt (1323 # 200000) (x_sqrt_arg false (3 * s) t q) /\
  is_sqrt (8 # 3000) (b_sqrt_arg true t) /\ is_sqrt (8 # 1000) (b_sqrt_arg false t) /\
  ~ tr_g (trafo_row_t true s t q (1323 # 200000) (8 # 3000)) == 0 /\ ~ tr_b (trafo_row_t true s t q (1323 # 200000) (8 # 3000)) == 0.
Proof.
  cbn zeta. unfold is_sqrt. repeat split; try (vm_compute; reflexivity); try (vm_compute; discriminate).
Qed.
