(* C11 — symmetrical-component identities, proved in the exact field Q(sqrt3, j) *)
From Coq Require Import ZArith QArith List Bool Lqa Setoid Morphisms.
From PPV Require Import Base.QN Base.QC Base.C11K C11.Model.
Import ListNotations.
Open Scope Q_scope.

Definition K3eq (x y : K3) : Prop :=
  let '(a, b, c) := x in let '(a', b', c') := y in a ==k a' /\ b ==k b' /\ c ==k c'.

(* plain (non-normalising) twins of the field operations: what each operation of K computes, component by component *)
Definition PKadd (x y : K) : K := mkK (k1 x + k1 y) (ks x + ks y) (kj x + kj y) (ksj x + ksj y).
Definition PKsub (x y : K) : K := mkK (k1 x - k1 y) (ks x - ks y) (kj x - kj y) (ksj x - ksj y).
Definition PKscale (q : Q) (x : K) : K := mkK (q * k1 x) (q * ks x) (q * kj x) (q * ksj x).
Definition PKmul (x y : K) : K :=
  mkK (k1 x * k1 y + 3 * (ks x * ks y) - (kj x * kj y + 3 * (ksj x * ksj y)))
      (k1 x * ks y + ks x * k1 y - (kj x * ksj y + ksj x * kj y))
      (k1 x * kj y + kj x * k1 y + 3 * (ks x * ksj y + ksj x * ks y))
      (k1 x * ksj y + ksj x * k1 y + (ks x * kj y + kj x * ks y)).
Definition PKconj (x : K) : K := mkK (k1 x) (ks x) (- kj x) (- ksj x).
Lemma Kadd_P x y : Kadd x y ==k PKadd x y. Proof. unfold PKadd. kstrip. repeat split; reflexivity. Qed.
Lemma Ksub_P x y : Ksub x y ==k PKsub x y. Proof. unfold PKsub. kstrip. repeat split; reflexivity. Qed.
Lemma Kscale_P q x : Kscale q x ==k PKscale q x. Proof. unfold PKscale. kstrip. repeat split; reflexivity. Qed.
Lemma Kmul_P x y : Kmul x y ==k PKmul x y. Proof. unfold PKmul. kstrip. repeat split; reflexivity. Qed.
Lemma Kconj_P x : Kconj x ==k PKconj x. Proof. unfold PKconj. kstrip. repeat split; reflexivity. Qed.
Global Instance PKadd_proper : Proper (Keq ==> Keq ==> Keq) PKadd.
Proof. intros x y E u v E'. rewrite <- !Kadd_P. rewrite E, E'. reflexivity. Qed.
Global Instance PKsub_proper : Proper (Keq ==> Keq ==> Keq) PKsub.
Proof. intros x y E u v E'. rewrite <- !Ksub_P. rewrite E, E'. reflexivity. Qed.
Global Instance PKmul_proper : Proper (Keq ==> Keq ==> Keq) PKmul.
Proof. intros x y E u v E'. rewrite <- !Kmul_P. rewrite E, E'. reflexivity. Qed.
Global Instance PKconj_proper : Proper (Keq ==> Keq) PKconj.
Proof. intros x y E. rewrite <- !Kconj_P. rewrite E. reflexivity. Qed.
Global Instance PKscale_proper : Proper (Qeq ==> Keq ==> Keq) PKscale.
Proof. intros p q E x y E'. rewrite <- !Kscale_P. rewrite E, E'. reflexivity. Qed.

(* Every identity below is one between polynomials in the sequence components over the ring K (Base/C11K.v): the
   3-vector operations are unfolded ([k3]), conjugates pushed to the components ([kpush]), and [ring] decides the rest
   modulo a^2 = asq = -1 - a. *)
Ltac k3 := unfold K3eq, sequence_to_phase, phase_to_sequence, S_from_VI, zip3, map3, sum3, Knorm2; cbv beta iota zeta.

Lemma balanced_phases : forall x0 x1 x2, x0 ==k K0 -> x2 ==k K0 ->
  let '(va, vb, vc) := sequence_to_phase (x0, x1, x2) in
  va ==k x1 /\ vb ==k Kmul Kasq va /\ vc ==k Kmul Ka va /\
  Knorm2 vb ==k Knorm2 va /\ Knorm2 vc ==k Knorm2 va.
Proof.
  intros x0 x1 x2 H0 H2. k3. rewrite H0, H2. kpush. ksplit; ring [Ka_sq Kasq_lin].
Qed.

Lemma power_invariance : forall v i,
  sum3 (S_from_VI (sequence_to_phase v) (sequence_to_phase i)) ==k Kscale 3 (sum3 (S_from_VI v i)).
Proof.
  intros [[v0 v1] v2] [[i0 i1] i2]. k3. kpush. ring [Ka_sq Kasq_lin].
Qed.

Lemma per_phase_thirds : forall v0 v1 v2 i0 i1 i2,
  v0 ==k K0 -> v2 ==k K0 -> i0 ==k K0 -> i2 ==k K0 ->
  let '(sa, sb, sc) := S_from_VI (sequence_to_phase (v0, v1, v2)) (sequence_to_phase (i0, i1, i2)) in
  sa ==k Kmul v1 (Kconj i1) /\ sb ==k sa /\ sc ==k sa /\
  sa ==k Kscale (1 # 3) (Kadd (Kadd sa sb) sc).
Proof.
  intros v0 v1 v2 i0 i1 i2 Hv0 Hv2 Hi0 Hi2. k3. rewrite Hv0, Hv2, Hi0, Hi2. kpush. ksplit; ring [Ka_sq Kasq_lin].
Qed.

(* sums over the phases *)
Lemma sum3_mul c x : sum3 (map3 (Kmul c) x) ==k Kmul c (sum3 x).
Proof. destruct x as [[x0 x1] x2]. k3. ring. Qed.
Lemma sum3_add x y : sum3 (zip3 Kadd x y) ==k Kadd (sum3 x) (sum3 y).
Proof. destruct x as [[x0 x1] x2], y as [[y0 y1] y2]. k3. ring. Qed.
(* the neutral current is three times the zero-sequence current *)
Lemma sum3_s2p x : sum3 (sequence_to_phase x) ==k Kscale 3 (fst (fst x)).
Proof. destruct x as [[x0 x1] x2]. k3. cbn [fst]. kpush. ring [Kasq_lin]. Qed.

(* element writers *)
Definition q3sum (x : Q * Q * Q) : Q := let '(a, b, c) := x in a + b + c.
Fixpoint signed_total (els : list elem) : Q :=
  match els with [] => 0 | e :: rest => elem_sign e * elem_total e + signed_total rest end.
