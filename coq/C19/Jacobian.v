(* C19 — the branch rows of the measurement Jacobian (matrix_base.py _dSbr_dv, _dImbr_dV, modelled in C19.Model) are
   the partial derivatives of the measurement functions h:
     * in rectangular form the complex power S = Vs*conj(ys*Vs + ye*Ve) is a quadratic form, so
         S(V + dV) = S(V) + DS(V)[dV] + S(dV)            exactly (the remainder is the quadratic form of the increment);
     * every polar Jacobian entry of the implementation is DS(V) applied to the tangent vector of the polar
       parametrisation V = vm*(cos th + j sin th):  d/dth -> j*V,  d/dvm -> V/|V| ;
     * the polar parametrisation itself: with the angle increment given as an oracle pair (cd, sd), cd^2 + sd^2 = 1,
         V(th+delta, vm+dv) = V + sd*(j*V) + dv*(V/|V|) + rho,  rho = -(sd^2/(1+cd))*(V + dv*Vn) + dv*sd*(j*Vn)
       (every term of rho carries two small factors);
     * all together: h(x (+) d) - h(x) - J*d == DS(V)[rho] + S(DeltaV)   (second order in d), stated as an exact identity;
     * |I|: with m = |I|, m' = |I + dI| (oracles, squares constrained), (m' - m - J*d)*(m' + m) == |dI|^2 - (J*d)*(m' - m).
   Here: the differential DS, the polar displacement and the lemmas these statements are assembled from in Properties/C19.v. *)
From Coq Require Import ZArith QArith List Bool Lqa Setoid Morphisms.
From PPV Require Import Base.QN Base.QC C19.Model.
Open Scope Q_scope.

(* the real-linear differential of S at (Vs, Ve) in direction (dVs, dVe) *)
Definition DS (ys ye Vs Ve dVs dVe : C) : C :=
  Cadd (Cmul dVs (Cconj (I_side ys ye Vs Ve))) (Cmul Vs (Cconj (I_side ys ye dVs dVe))).

(* conjugation is a ring morphism: [push_conj] moves it to the atoms (and writes real scalings as products with CofQ),
   after which an identity between branch quantities is an identity of the field C.  One top-down pass ([autorewrite] with the
   same base is slow to check). *)
Lemma Cconj_Cj : Cconj Cj ==c Copp Cj. Proof. cstrip; ring. Qed.
Lemma Cconj_C0 : Cconj C0 ==c C0. Proof. cstrip; ring. Qed.
Lemma Cconj_CofQ k : Cconj (CofQ k) ==c CofQ k. Proof. cstrip; ring. Qed.
Global Hint Rewrite Cscale_mul Cconj_mul Cconj_add Cconj_Cj Cconj_C0 Cconj_CofQ CofQ_mul : conj.
Ltac push_conj := rewrite_strat (topdown (hints conj)).

Global Instance I_side_proper : Proper (Ceq ==> Ceq ==> Ceq ==> Ceq ==> Ceq) I_side.
Proof. intros ys ys' Hs ye ye' He a a' Ha b b' Hb. unfold I_side. rewrite Hs, He, Ha, Hb. reflexivity. Qed.
Global Instance S_side_proper : Proper (Ceq ==> Ceq ==> Ceq ==> Ceq ==> Ceq) S_side.
Proof. intros ys ys' Hs ye ye' He a a' Ha b b' Hb. unfold S_side. rewrite Hs, He, Ha, Hb. reflexivity. Qed.

(* I is linear in V *)
Lemma I_side_add : forall ys ye a b a' b',
  I_side ys ye (Cadd a a') (Cadd b b') ==c Cadd (I_side ys ye a b) (I_side ys ye a' b').
Proof. intros. unfold I_side. ring. Qed.

(* the differential is real-linear *)
Lemma DS_scale : forall ys ye Vs Ve t dVs dVe,
  DS ys ye Vs Ve (Cscale t dVs) (Cscale t dVe) ==c Cscale t (DS ys ye Vs Ve dVs dVe).
Proof. intros. unfold DS, I_side. push_conj. ring. Qed.
Lemma DS_add : forall ys ye Vs Ve a b a' b',
  DS ys ye Vs Ve (Cadd a a') (Cadd b b') ==c Cadd (DS ys ye Vs Ve a b) (DS ys ye Vs Ve a' b').
Proof. intros. unfold DS. rewrite I_side_add, Cconj_add. ring. Qed.
(* both at once, for a real combination of directions that move one end only *)
Lemma DS_lincomb : forall ys ye Vs Ve t t' u u' a b a' b',
  DS ys ye Vs Ve (Cadd (Cscale t a) (Cscale u a')) (Cadd (Cscale t' b) (Cscale u' b')) ==c
  Cadd (Cadd (Cscale t (DS ys ye Vs Ve a C0)) (Cscale t' (DS ys ye Vs Ve C0 b)))
       (Cadd (Cscale u (DS ys ye Vs Ve a' C0)) (Cscale u' (DS ys ye Vs Ve C0 b'))).
Proof.
  intros. unfold DS. generalize (Cconj (I_side ys ye Vs Ve)). intros cI. unfold I_side. push_conj. ring.
Qed.

(* the four entries of a _dSbr_dv row are DS at the tangent vectors of the polar parametrisation *)
Lemma dS_entries_are_DS : forall ys ye s e,
  dS_dth_s ys ye s e ==c DS ys ye (Vof s) (Vof e) (Cmul Cj (Vof s)) C0 /\
  dS_dth_e ys ye s e ==c DS ys ye (Vof s) (Vof e) C0 (Cmul Cj (Vof e)) /\
  dS_dvm_s ys ye s e ==c DS ys ye (Vof s) (Vof e) (Vn s) C0 /\
  dS_dvm_e ys ye s e ==c DS ys ye (Vof s) (Vof e) C0 (Vn e).
Proof.
  intros. unfold dS_dth_s, dS_dth_e, dS_dvm_s, dS_dvm_e, DS.
  generalize (Cconj (I_side ys ye (Vof s) (Vof e))) (Vof s) (Vof e) (Vn s) (Vn e). intros cI Vs Ve Ns Ne. unfold I_side.
  split; [| split; [| split]]; push_conj; ring.
Qed.

Definition unit (c s : Q) : Prop := c * c + s * s == 1.
(* theta + delta (delta given by its cosine cd and sine sd), vm + dv *)
Definition move (p : pol) (cd sd dv : Q) : pol :=
  {| vm := qadd (vm p) dv; pc := qsub (qmul (pc p) cd) (qmul (ps p) sd); ps := qadd (qmul (ps p) cd) (qmul (pc p) sd) |}.
(* first-order part of the displacement of V, and the rest *)
Definition lin (p : pol) (sd dv : Q) : C := Cadd (Cscale sd (Cmul Cj (Vof p))) (Cscale dv (Vn p)).
Definition rho (p : pol) (cd sd dv : Q) : C :=
  Cadd (Cadd (Cscale (cd - 1) (Vof p)) (Cscale (dv * (cd - 1)) (Vn p))) (Cscale (dv * sd) (Cmul Cj (Vn p))).

Lemma move_displacement : forall p cd sd dv,
  Vof (move p cd sd dv) ==c Cadd (Vof p) (Cadd (lin p sd dv) (rho p cd sd dv)).
Proof. intros. unfold lin, rho, move, Vof, Vn. cbn [vm pc ps]. cstrip; ring. Qed.

(* cd - 1 is itself of second order: (1 - cd)(1 + cd) = sd^2 *)
Lemma one_minus_cos : forall cd sd, unit cd sd -> (1 - cd) * (1 + cd) == sd * sd.
Proof. intros cd sd H. unfold unit in H. rewrite <- (Qplus_inj_r _ _ (cd * cd)). ring_simplify. rewrite <- H. ring. Qed.

(* J*d with the real increments (sd_s, sd_e, dv_s, dv_e) of (th_s, th_e, vm_s, vm_e) *)
Definition Jd_S (ys ye : C) (s e : pol) (sds sde dvs dve : Q) : C :=
  Cadd (Cadd (Cscale sds (dS_dth_s ys ye s e)) (Cscale sde (dS_dth_e ys ye s e)))
       (Cadd (Cscale dvs (dS_dvm_s ys ye s e)) (Cscale dve (dS_dvm_e ys ye s e))).

Lemma Jd_S_is_DS_lin : forall ys ye s e sds sde dvs dve,
  Jd_S ys ye s e sds sde dvs dve ==c DS ys ye (Vof s) (Vof e) (lin s sds dvs) (lin e sde dve).
Proof.
  intros. unfold Jd_S, lin. destruct (dS_entries_are_DS ys ye s e) as (Ts & Te & Ms & Me).
  rewrite Ts, Te, Ms, Me. symmetry. apply DS_lincomb.
Qed.

Global Instance cnorm2_proper : Proper (Ceq ==> Qeq) cnorm2.
Proof. intros a b H. unfold cnorm2. rewrite H. reflexivity. Qed.

(* generic: m = |I|, m' = |I + dI| ; the linear term is re(conj(I)/m * dI) *)
Lemma abs_taylor : forall I dI m m',
  ~ m == 0 -> m * m == cnorm2 I -> m' * m' == cnorm2 (Cadd I dI) ->
  let Jd := re (Cmul (Cscale (1 / m) (Cconj I)) dI) in
  (m' - m - Jd) * (m' + m) == cnorm2 dI - Jd * (m' - m).
Proof.
  intros I dI m m' Hm H1 H2 Jd.
  assert (E : m * Jd == re I * re dI + im I * im dI).
  { unfold Jd. cunfold. qstrip. field. exact Hm. }
  assert (X : m' * m' - m * m == 2 * (m * Jd) + cnorm2 dI).
  { rewrite H1, H2, E. cunfold. qstrip. ring. }
  clearbody Jd. lra.
Qed.

(* J*d of the |I| row = re(Inorm * I(lin_s, lin_e)) : the entries of _dImbr_dV are the coefficients of that linear form *)
Definition Jd_I (ys ye : C) (s e : pol) (m : Q) (sds sde dvs dve : Q) : Q :=
  let inorm := Inorm ys ye s e m in
  sds * dIm_dth inorm ys s + sde * dIm_dth inorm ye e + dvs * dIm_dvm inorm ys s + dve * dIm_dvm inorm ye e.

