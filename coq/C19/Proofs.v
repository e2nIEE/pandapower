(* C19 — lemmas about the state-estimation kernels; grouped by the question they answer, in the order of Properties/C19.v *)
From Coq Require Import ZArith QArith List Bool Lia Lqa Setoid Permutation Arith.
From PPV Require Import Base.QN Base.QC C19.Model.
Import ListNotations.
Open Scope Q_scope.

(* np.unique of the concatenated masks and np.isin against one of them: strictly increasing lists with the same members
   are equal, so selecting the flagged positions of the merged list gives that mask back (select_isin_mask) *)
Fixpoint sortedP (l : list nat) : Prop :=
  match l with [] => True | x :: l' => (forall y, In y l' -> (x < y)%nat) /\ sortedP l' end.

Lemma strictly_sorted_sortedP : forall l, strictly_sorted l = true -> sortedP l.
Proof.
  induction l as [|x l IH]; [exact (fun _ => I)|].
  intros H. destruct l as [|y l'].
  - split; [intros ? []| exact I].
  - cbn [strictly_sorted] in H. apply andb_prop in H. destruct H as [H1 H2].
    apply Nat.ltb_lt in H1. specialize (IH H2). split; [|exact IH].
    intros z [->|Hz]; [exact H1|]. destruct IH as [IH1 _]. specialize (IH1 z Hz). lia.
Qed.

Lemma insert_u_spec : forall x l, sortedP l ->
  sortedP (insert_u x l) /\ forall y, In y (insert_u x l) <-> y = x \/ In y l.
Proof.
  intros x l. induction l as [|a l IH]; intros Hs.
  - cbn. split; [split; [intros ? []|exact I]|]. intros y; split; [intros [H|[]]; auto | intros [H|[]]; auto].
  - cbn [insert_u]. destruct Hs as [Ha Hs].
    destruct (Nat.ltb x a) eqn:E1.
    + apply Nat.ltb_lt in E1. split.
      * split; [|split; assumption]. intros y [->|Hy]; [exact E1|]. specialize (Ha y Hy). lia.
      * intros y. cbn. split; [intros [H|[H|H]]; auto | intros [H|[H|H]]; auto].
    + apply Nat.ltb_ge in E1. destruct (Nat.eqb x a) eqn:E2.
      * apply Nat.eqb_eq in E2. subst. split; [split; assumption|]. intros y. cbn. split; [auto|]. intros [->|H]; auto.
      * apply Nat.eqb_neq in E2. destruct (IH Hs) as [IH1 IH2]. split.
        -- split; [|exact IH1]. intros y Hy. apply IH2 in Hy. destruct Hy as [->|Hy]; [lia|auto].
        -- intros y. cbn. rewrite IH2. tauto.
Qed.

Lemma np_unique_spec : forall l, sortedP (np_unique l) /\ forall y, In y (np_unique l) <-> In y l.
Proof.
  induction l as [|x l [IH1 IH2]]; [cbn; split; [exact I|tauto]|].
  cbn [np_unique fold_right]. fold (np_unique l).
  destruct (insert_u_spec x (np_unique l) IH1) as [A B]. split; [exact A|].
  intros y. rewrite B, IH2. cbn. split; intros [H|H]; auto.
Qed.

Lemma select_isin_filter : forall (tot m : list nat),
  select tot (isin tot m) = filter (fun x => existsb (Nat.eqb x) m) tot.
Proof.
  intros tot m. unfold isin. induction tot as [|a l IH]; [reflexivity|].
  cbn. rewrite IH. reflexivity.
Qed.

Lemma filter_sortedP : forall f l, sortedP l -> sortedP (filter f l).
Proof.
  intros f l. induction l as [|a l IH]; intros Hs; [exact I|].
  destruct Hs as [Ha Hs]. cbn. destruct (f a).
  - split; [|exact (IH Hs)]. intros y Hy. apply filter_In in Hy. apply Ha. tauto.
  - exact (IH Hs).
Qed.

Lemma sortedP_ext : forall a b, sortedP a -> sortedP b -> (forall x, In x a <-> In x b) -> a = b.
Proof.
  induction a as [|x a IH]; intros b Ha Hb Hext.
  - destruct b as [|y b]; [reflexivity|]. exfalso. apply (Hext y). left. reflexivity.
  - destruct b as [|y b]; [exfalso; apply (Hext x); left; reflexivity|].
    destruct Ha as [Ha1 Ha2]. destruct Hb as [Hb1 Hb2].
    assert (x = y) as ->.
    { assert (In x (y :: b)) as H1 by (apply Hext; left; reflexivity).
      assert (In y (x :: a)) as H2 by (apply Hext; left; reflexivity).
      destruct H1 as [H1|H1]; [congruence|]. destruct H2 as [H2|H2]; [congruence|].
      specialize (Hb1 x H1). specialize (Ha1 y H2). lia. }
    f_equal. apply IH; try assumption.
    intros z. split; intros Hz.
    + assert (In z (y :: b)) as H by (apply Hext; right; exact Hz).
      destruct H as [H|H]; [|exact H]. subst. specialize (Ha1 z Hz). lia.
    + assert (In z (y :: a)) as H by (apply Hext; right; exact Hz).
      destruct H as [H|H]; [|exact H]. subst. specialize (Hb1 z Hz). lia.
Qed.

Lemma existsb_eqb_In : forall x m, existsb (Nat.eqb x) m = true <-> In x m.
Proof.
  intros x m. rewrite existsb_exists. split.
  - intros [y [H1 H2]]. apply Nat.eqb_eq in H2. subst. exact H1.
  - intros H. exists x. split; [exact H | apply Nat.eqb_refl].
Qed.

(* selecting from the merged index list the positions flagged for one of the masks gives that mask back *)
Lemma select_isin_mask : forall l m, strictly_sorted m = true -> (forall x, In x m -> In x l) ->
  select (np_unique l) (isin (np_unique l) m) = m.
Proof.
  intros l m H Hin. rewrite select_isin_filter. destruct (np_unique_spec l) as [S1 S2].
  apply sortedP_ext.
  - apply filter_sortedP. exact S1.
  - apply strictly_sorted_sortedP. exact H.
  - intros x. rewrite filter_In, S2, existsb_eqb_In. split; [tauto | auto].
Qed.

(* the bus injection is the sum over the branch ends at the bus: the Ybus stamps give the branch currents, and
   V_i conj(.) distributes over them (C19_h_bus_is_sum_of_h_branch) *)
Lemma Cmul_conj_Csum : forall v l,
  Cmul v (Cconj (Csum l)) ==c Csum (map (fun x => Cmul v (Cconj x)) l).
Proof.
  intros v l. induction l as [|x l IH]; cbn [map].
  - cstrip; ring.
  - rewrite !Csum_cons, <- IH, Cconj_add. ring.
Qed.

(* currents / powers that the branches inject at bus i *)
Definition inj_I (V : list C) (i : nat) (brs : list branch) : list C :=
  flat_map (fun b => (if Nat.eqb (bf b) i then [I_from V b] else []) ++
                     (if Nat.eqb (bt b) i then [I_to V b] else [])) brs.
Definition inj_S (V : list C) (i : nat) (brs : list branch) : list C :=
  flat_map (fun b => (if Nat.eqb (bf b) i then [S_from V b] else []) ++
                     (if Nat.eqb (bt b) i then [S_to V b] else [])) brs.

Lemma Ibus_stamp_branches : forall V i brs,
  Csum (map (fun p => Cmul (snd p) (nthC V (fst p)))
            (flat_map (fun b => (if Nat.eqb (bf b) i then [(bf b, yff b); (bt b, yft b)] else []) ++
                                (if Nat.eqb (bt b) i then [(bf b, ytf b); (bt b, ytt b)] else [])) brs))
  ==c Csum (inj_I V i brs).
Proof.
  intros V i brs. induction brs as [|b brs IH]; [reflexivity|].
  unfold inj_I in *. cbn [flat_map]. rewrite !map_app, !Csum_app, IH.
  destruct (Nat.eqb (bf b) i); destruct (Nat.eqb (bt b) i); cbn [map app fst snd];
    unfold I_from, I_to, Csum; cbn [fold_right]; ring.
Qed.

Lemma inj_S_of_I : forall V i brs,
  Csum (inj_S V i brs) ==c Csum (map (fun x => Cmul (nthC V i) (Cconj x)) (inj_I V i brs)).
Proof.
  intros V i brs. induction brs as [|b brs IH]; [reflexivity|].
  unfold inj_S, inj_I in *. cbn [flat_map]. rewrite !map_app, !Csum_app, IH.
  destruct (Nat.eqb_spec (bf b) i) as [e1|n1]; destruct (Nat.eqb_spec (bt b) i) as [e2|n2]; cbn [map app];
    rewrite ?Csum_cons; unfold S_from, S_to; rewrite ?e1, ?e2; reflexivity.
Qed.

(* qsum, for the sums over measurements in gain, rhs and objective *)
Lemma qsum_cons : forall x l, qsum (x :: l) = qadd x (qsum l).
Proof. reflexivity. Qed.
Lemma qsum_nil : qsum [] = 0.
Proof. reflexivity. Qed.
Lemma qsum_app : forall a b, qsum (a ++ b) == qsum a + qsum b.
Proof.
  induction a as [|x a IH]; intros b; cbn [app].
  - rewrite qsum_nil. ring.
  - rewrite !qsum_cons. qstrip. rewrite IH. ring.
Qed.
Lemma qsum_perm : forall a b, Permutation a b -> qsum a == qsum b.
Proof.
  intros a b P. induction P; rewrite ?qsum_cons; qstrip.
  - reflexivity.
  - rewrite IHP. reflexivity.
  - ring.
  - etransitivity; eassumption.
Qed.
Lemma qsum_zero : forall l, (forall x, In x l -> x == 0) -> qsum l == 0.
Proof.
  induction l as [|x l IH]; intros H; [reflexivity|]. rewrite qsum_cons. qstrip.
  rewrite IH by (intros; apply H; right; assumption). rewrite (H x (or_introl eq_refl)). ring.
Qed.
Lemma qsum_nonneg : forall l, (forall x, In x l -> 0 <= x) -> 0 <= qsum l.
Proof.
  induction l as [|x l IH]; intros H; [rewrite qsum_nil; lra|]. rewrite qsum_cons. qstrip.
  specialize (IH (fun y Hy => H y (or_intror Hy))). specialize (H x (or_introl eq_refl)). lra.
Qed.

Lemma qsum_nonneg_zero : forall l, (forall x, In x l -> 0 <= x) -> qsum l == 0 -> forall x, In x l -> x == 0.
Proof.
  induction l as [|a l IH]; intros Hn Hs x Hx; [destruct Hx|].
  rewrite qsum_cons in Hs. qstrip_in Hs.
  pose proof (Hn a (or_introl eq_refl)) as Ha.
  pose proof (qsum_nonneg l (fun y Hy => Hn y (or_intror Hy))) as Hl.
  destruct Hx as [<-|Hx]; [lra|]. apply IH; try assumption; [intros; apply Hn; right; assumption | lra].
Qed.

(* with zero residuals the normal equations have right-hand side zero and the objective is at its minimum *)
Lemma rhs_zero_residual : forall ms j, (forall m, In m ms -> res m == 0) -> rhs j ms == 0.
Proof.
  intros ms j H. unfold rhs. apply qsum_zero. intros x Hx. apply in_map_iff in Hx.
  destruct Hx as [m [<- Hm]]. qstrip. rewrite (H m Hm). ring.
Qed.
Lemma objective_zero_residual : forall ms, (forall m, In m ms -> res m == 0) -> objective ms == 0.
Proof.
  intros ms H. unfold objective. apply qsum_zero. intros x Hx. apply in_map_iff in Hx.
  destruct Hx as [m [<- Hm]]. qstrip. rewrite (H m Hm). ring.
Qed.
Lemma objective_nonneg : forall ms, (forall m, In m ms -> 0 <= wgt m) -> 0 <= objective ms.
Proof.
  intros ms H. unfold objective. apply qsum_nonneg. intros x Hx. apply in_map_iff in Hx.
  destruct Hx as [m [<- Hm]]. qstrip. specialize (H m Hm). nra.
Qed.
Lemma normal_eq_app : forall a b j k,
  gain j k (a ++ b) == gain j k a + gain j k b /\ rhs j (a ++ b) == rhs j a + rhs j b.
Proof. intros. unfold gain, rhs. rewrite !map_app, !qsum_app. split; reflexivity. Qed.

(* the solver's answer to a zero right-hand side is zero when the gain matrix is nonsingular: the state is a fixed point *)
Lemma zero_residual_fixed_point : forall n ms d,
  (forall m, In m ms -> res m == 0) ->
  (forall j, (j < n)%nat -> gain_times n ms d j == rhs j ms) ->                       (* contract of spsolve *)
  (forall d', (forall j, (j < n)%nat -> gain_times n ms d' j == 0) ->
              forall k, (k < n)%nat -> nth k d' 0 == 0) ->                            (* G nonsingular *)
  forall k, (k < n)%nat -> nth k d 0 == 0.
Proof.
  intros n ms d Hr Hs Hinj k Hk. apply Hinj; [|exact Hk].
  intros j Hj. rewrite (Hs j Hj). apply rhs_zero_residual. exact Hr.
Qed.

(* several measurements of one quantity enter gain and rhs as one with the summed weight (C19_redundant_measurements_equiv_merged) *)
Definition dup_meas (h : list Q) (hx : Q) (zs : list (Q * Q)) : list meas :=
  map (fun p => {| hrow := h; wgt := mweight (snd p); res := qsub (fst p) hx |}) zs.
Definition merged_meas (h : list Q) (hx : Q) (zs : list (Q * Q)) (s : Q) : meas :=
  {| hrow := h; wgt := qdiv 1 (qmul s s); res := qsub (merged_value zs) hx |}.
Definition wsum (zs : list (Q * Q)) : Q := qsum (map (fun p => mweight (snd p)) zs).
Definition wzsum (zs : list (Q * Q)) : Q := qsum (map (fun p => qmul (mweight (snd p)) (fst p)) zs).

Lemma dup_gain : forall h hx zs j k,
  gain j k (dup_meas h hx zs) == nth j h 0 * wsum zs * nth k h 0.
Proof.
  intros. unfold gain, dup_meas, wsum. rewrite map_map. induction zs as [|p zs IH].
  - cbn [map]. rewrite !qsum_nil. ring.
  - cbn [map]. rewrite !qsum_cons. qstrip. rewrite IH. unfold col. cbn [hrow wgt]. ring.
Qed.
Lemma dup_rhs : forall h hx zs j,
  rhs j (dup_meas h hx zs) == nth j h 0 * (wzsum zs - hx * wsum zs).
Proof.
  intros. unfold rhs, dup_meas, wsum, wzsum. rewrite map_map. induction zs as [|p zs IH].
  - cbn [map]. rewrite !qsum_nil. ring.
  - cbn [map]. rewrite !qsum_cons. qstrip. rewrite IH. unfold col. cbn [hrow wgt res]. qstrip. ring.
Qed.

(* the last step of wls_loop: the residual it stores is the one of the state before the last increment *)
Lemma wls_loop_app : forall h z steps x r d,
  wls_loop h z x r (steps ++ [d]) =
  (qadd (fst (wls_loop h z x r steps)) d, qsub z (h (fst (wls_loop h z x r steps)))).
Proof.
  intros h z steps. induction steps as [|s steps IH]; intros x r d; cbn [app wls_loop fst]; [reflexivity|].
  apply IH.
Qed.

(* the gain matrix is positive definite on full column rank *)
Definition hd_l (m : meas) (d : list Q) (l : list nat) : Q := qsum (map (fun k => qmul (col k m) (nth k d 0)) l).
Definition hd (n : nat) (m : meas) (d : list Q) : Q := hd_l m d (seq 0 n).          (* h_i . d *)
Definition gt_l (l : list nat) (ms : list meas) (d : list Q) (j : nat) : Q :=
  qsum (map (fun k => qmul (gain j k ms) (nth k d 0)) l).
Definition qf_l (n : nat) (l : list nat) (ms : list meas) (d : list Q) : Q :=
  qsum (map (fun j => qmul (nth j d 0) (gain_times n ms d j)) l).

Lemma gain_cons : forall j k m ms, gain j k (m :: ms) == col j m * wgt m * col k m + gain j k ms.
Proof. intros. unfold gain. cbn [map]. rewrite qsum_cons. qstrip. reflexivity. Qed.

Lemma gt_l_cons : forall l m ms d j,
  gt_l l (m :: ms) d j == col j m * wgt m * hd_l m d l + gt_l l ms d j.
Proof.
  induction l as [|a l IH]; intros m ms d j; unfold gt_l, hd_l in *; cbn [map].
  - rewrite !qsum_nil. ring.
  - rewrite !qsum_cons. qstrip. rewrite IH. rewrite gain_cons. ring.
Qed.
Lemma gain_times_cons : forall n m ms d j,
  gain_times n (m :: ms) d j == col j m * wgt m * hd n m d + gain_times n ms d j.
Proof. intros. apply (gt_l_cons (seq 0 n)). Qed.

Lemma qf_l_cons : forall n l m ms d,
  qf_l n l (m :: ms) d ==
  wgt m * hd n m d * qsum (map (fun j => qmul (nth j d 0) (col j m)) l) + qf_l n l ms d.
Proof.
  intros n l m ms d. induction l as [|a l IH]; unfold qf_l in *; cbn [map].
  - rewrite !qsum_nil. ring.
  - rewrite !qsum_cons. qstrip. rewrite IH. rewrite gain_times_cons. ring.
Qed.
Lemma dh_hd : forall m d l, qsum (map (fun j => qmul (nth j d 0) (col j m)) l) == hd_l m d l.
Proof.
  intros m d l. unfold hd_l. induction l as [|a l IH]; cbn [map]; [reflexivity|].
  rewrite !qsum_cons. qstrip. rewrite IH. ring.
Qed.
Lemma gain_times_nil : forall n d j, gain_times n [] d j == 0.
Proof.
  intros. unfold gain_times. apply qsum_zero. intros x Hx. apply in_map_iff in Hx. destruct Hx as [k [<- _]].
  unfold gain. cbn [map]. rewrite qsum_nil. qstrip. ring.
Qed.

(* d^T G d = sum_i w_i (h_i . d)^2 *)
Lemma quadratic_form : forall n ms d,
  qf_l n (seq 0 n) ms d == qsum (map (fun m => qmul (wgt m) (qmul (hd n m d) (hd n m d))) ms).
Proof.
  intros n ms d. induction ms as [|m ms IH].
  - cbn [map]. rewrite qsum_nil. unfold qf_l. apply qsum_zero. intros x Hx. apply in_map_iff in Hx.
    destruct Hx as [j [<- _]]. qstrip. rewrite gain_times_nil. ring.
  - rewrite qf_l_cons, dh_hd, IH. cbn [map]. rewrite qsum_cons. qstrip. unfold hd. ring.
Qed.

(* G d = 0 with positive weights forces h_i . d = 0 for every measurement *)
Lemma gain_kernel : forall n ms d,
  (forall m, In m ms -> 0 < wgt m) ->
  (forall j, (j < n)%nat -> gain_times n ms d j == 0) ->
  forall m, In m ms -> hd n m d == 0.
Proof.
  intros n ms d Hw Hg m Hm.
  assert (Hq : qf_l n (seq 0 n) ms d == 0).
  { unfold qf_l. apply qsum_zero. intros x Hx. apply in_map_iff in Hx. destruct Hx as [j [<- Hj]].
    apply in_seq in Hj. qstrip. rewrite (Hg j) by lia. ring. }
  rewrite quadratic_form in Hq.
  assert (Hnn : forall x, In x (map (fun m : meas => qmul (wgt m) (qmul (hd n m d) (hd n m d))) ms) -> 0 <= x).
  { intros x Hx. apply in_map_iff in Hx. destruct Hx as [m' [<- Hm']]. qstrip. specialize (Hw m' Hm'). nra. }
  assert (Hterm : qmul (wgt m) (qmul (hd n m d) (hd n m d)) == 0).
  { apply (qsum_nonneg_zero _ Hnn Hq). apply in_map_iff. exists m. split; [reflexivity | exact Hm]. }
  revert Hterm. qstrip. intros Hterm. specialize (Hw m Hm).
  apply Qmult_integral in Hterm. destruct Hterm as [E|E]; [lra|].
  apply Qmult_integral in E. destruct E; assumption.
Qed.
