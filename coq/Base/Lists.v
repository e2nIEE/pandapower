(* General facts about lists that several properties use. *)
From Coq Require Import List Bool Arith Lia.
Import ListNotations.

Lemma filter_all {A} (f : A -> bool) l : (forall x, In x l -> f x = true) -> filter f l = l.
Proof.
  induction l as [|a l IH]; cbn [filter]; intros H; [reflexivity|].
  rewrite (H a (or_introl eq_refl)), IH; [reflexivity|]. intros x Hx. apply H. right. exact Hx.
Qed.

Lemma filter_none {A} (f : A -> bool) l : (forall x, In x l -> f x = false) -> filter f l = [].
Proof.
  induction l as [|a l IH]; cbn [filter]; intros H; [reflexivity|].
  rewrite (H a (or_introl eq_refl)). apply IH. intros x Hx. apply H. right. exact Hx.
Qed.

Lemma forallb_andb {A} (f g : A -> bool) l :
  forallb (fun x => f x && g x) l = forallb f l && forallb g l.
Proof.
  induction l as [|a l IH]; cbn [forallb]; [reflexivity|].
  rewrite IH. destruct (f a), (g a), (forallb f l); reflexivity.
Qed.

Lemma in_flat_map_if {X Y} (c : X -> bool) (f : X -> Y) l y :
  In y (flat_map (fun x => if c x then [f x] else []) l) <-> exists x, In x l /\ c x = true /\ f x = y.
Proof.
  rewrite in_flat_map. split; intros [x [I H]]; exists x.
  - destruct (c x); [|contradiction]. destruct H as [H|[]]. auto.
  - destruct H as [-> H]. split; [exact I|now left].
Qed.

Lemma existsb_ext_in {A} (f g : A -> bool) l : (forall x, In x l -> f x = g x) -> existsb f l = existsb g l.
Proof.
  induction l as [|a l IH]; cbn [existsb]; intros H; [reflexivity|].
  rewrite (H a (or_introl eq_refl)), IH; [reflexivity|]. intros x Hx. apply H. right. exact Hx.
Qed.

Lemma existsb_map {A B} (g : A -> B) (f : B -> bool) l : existsb f (map g l) = existsb (fun x => f (g x)) l.
Proof. induction l as [|a l IH]; cbn [existsb map]; [reflexivity|]. rewrite IH. reflexivity. Qed.

Lemma filter_map_comm {A B} (f : A -> B) (p : B -> bool) l : filter p (map f l) = map f (filter (fun x => p (f x)) l).
Proof. induction l as [|x l IH]; [reflexivity|]. cbn [filter map]. destruct (p (f x)); cbn [map]; rewrite IH; reflexivity. Qed.

Lemma filter_length_le {A} (p q : A -> bool) l :
  (forall x, p x = true -> q x = true) -> length (filter p l) <= length (filter q l).
Proof.
  intros H. induction l as [|a l IH]; [apply Nat.le_refl|]. cbn [filter].
  destruct (p a) eqn:P; [rewrite (H a P); cbn [length]; lia|]. destruct (q a); cbn [length]; lia.
Qed.
Lemma filter_length_bound {A} (p : A -> bool) l : length (filter p l) <= length l.
Proof. induction l as [|a l IH]; [apply Nat.le_refl|]. cbn [filter]. destruct (p a); cbn [length]; lia. Qed.
