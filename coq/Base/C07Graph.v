(* Base/C07Graph.v — finite directed graphs as arc lists over a type with decidable equality:
   an executable fuelled reachability (label-propagation rounds until nothing changes) proved equal
   to the reflexive-transitive closure of the arc relation, undirected graphs as symmetric closures,
   and connected components.  Used by C07 (supply connectivity), C26 (topology graphs), C05 and C23
   (bus fusing), C10 (islands). *)
From Coq Require Import List Bool Arith Lia Relations.
Import ListNotations.
Local Open Scope nat_scope.

Section Graph.
Variable A : Type.
Variable eq_dec : forall x y : A, {x = y} + {x <> y}.

Definition mem (x : A) (l : list A) : bool := if in_dec eq_dec x l then true else false.
Lemma mem_In x l : mem x l = true <-> In x l.
Proof. unfold mem. destruct (in_dec eq_dec x l); split; intros; auto; discriminate. Qed.
Lemma mem_nIn x l : mem x l = false <-> ~ In x l.
Proof. unfold mem. destruct (in_dec eq_dec x l); split; intros; auto; try discriminate. contradiction. Qed.

Definition add (x : A) (l : list A) : list A := if mem x l then l else x :: l.
Lemma add_In x y l : In y (add x l) <-> y = x \/ In y l.
Proof.
  unfold add. destruct (mem x l) eqn:E.
  - apply mem_In in E. split; intros; auto. destruct H; subst; auto.
  - simpl. split; intros [H|H]; subst; auto.
Qed.
Lemma add_NoDup x l : NoDup l -> NoDup (add x l).
Proof. unfold add. destruct (mem x l) eqn:E; auto. intros. constructor; auto. now apply mem_nIn. Qed.
Lemma add_shape x l : add x l = l \/ (add x l = x :: l /\ ~ In x l).
Proof. unfold add. destruct (mem x l) eqn:E; auto. right. split; auto. now apply mem_nIn. Qed.

Definition dedup (l : list A) : list A := fold_right add [] l.
Lemma dedup_In x l : In x (dedup l) <-> In x l.
Proof. induction l; simpl; [tauto|]. rewrite add_In, IHl. split; intros [H|H]; subst; auto. Qed.
Lemma dedup_NoDup l : NoDup (dedup l).
Proof. induction l; simpl; [constructor|]. now apply add_NoDup. Qed.

Definition arcs := list (A * A).
Definition step (g : arcs) (u v : A) : Prop := In (u, v) g.
Definition path (g : arcs) : A -> A -> Prop := clos_refl_trans A (step g).
Definition reach_from (g : arcs) (S : list A) (v : A) : Prop := exists s, In s S /\ path g s v.

Lemma path_refl g u : path g u u. Proof. apply rt_refl. Qed.
Lemma path_step g u v : In (u, v) g -> path g u v. Proof. intros; now apply rt_step. Qed.
Lemma path_trans g u v w : path g u v -> path g v w -> path g u w.
Proof. intros; eapply rt_trans; eauto. Qed.
Lemma path_mono g g' u v : incl g g' -> path g u v -> path g' u v.
Proof. intros I H. induction H; [apply rt_step; now apply I|apply rt_refl|eapply rt_trans; eauto]. Qed.

(* a set closed under the arcs contains everything reachable from its members *)
Lemma closed_contains_reach g (P : A -> Prop) :
  (forall u v, In (u, v) g -> P u -> P v) -> forall u v, path g u v -> P u -> P v.
Proof. intros C u v H. induction H; eauto. Qed.

Lemma path_sym g : (forall u v, In (u, v) g -> In (v, u) g) -> forall u v, path g u v -> path g v u.
Proof. intros S u v H. induction H; [apply rt_step; now apply S|apply rt_refl|eapply rt_trans; eauto]. Qed.

Definition relax (vis : list A) (e : A * A) : list A := if mem (fst e) vis then add (snd e) vis else vis.
Definition round (g : arcs) (vis : list A) : list A := fold_left relax g vis.
Fixpoint iter (fuel : nat) (g : arcs) (vis : list A) : list A :=
  match fuel with
  | O => vis
  | S f => let vis' := round g vis in if Nat.eqb (length vis') (length vis) then vis else iter f g vis'
  end.
Definition nodes_of (g : arcs) : list A := flat_map (fun e => [fst e; snd e]) g.
Definition reach (g : arcs) (S : list A) : list A := iter (1 + length (nodes_of g ++ S)) g (dedup S).

Lemma relax_shape vis e : relax vis e = vis \/ (relax vis e = snd e :: vis /\ ~ In (snd e) vis /\ In (fst e) vis).
Proof.
  unfold relax. destruct (mem (fst e) vis) eqn:E; auto.
  destruct (add_shape (snd e) vis) as [H|[H H']]; auto. right. repeat split; auto. now apply mem_In.
Qed.
Lemma relax_incl vis e : incl vis (relax vis e).
Proof. destruct (relax_shape vis e) as [H|[H _]]; rewrite H; [apply incl_refl|apply incl_tl, incl_refl]. Qed.
Lemma relax_NoDup vis e : NoDup vis -> NoDup (relax vis e).
Proof. intros. destruct (relax_shape vis e) as [H'|[H' [N _]]]; rewrite H'; auto. now constructor. Qed.
Lemma relax_len vis e : length vis <= length (relax vis e).
Proof. destruct (relax_shape vis e) as [H|[H _]]; rewrite H; simpl; lia. Qed.

(* what every relaxation step along the arcs of g preserves holds after the round *)
Lemma round_ind g (P : list A -> Prop) vis :
  (forall v e, In e g -> P v -> P (relax v e)) -> P vis -> P (round g vis).
Proof.
  unfold round. revert vis. induction g as [|e g IH]; simpl; intros vis H Pv; [exact Pv|].
  apply IH; [intros v e' I; apply H; now right|apply H; auto].
Qed.
Lemma round_incl g vis : incl vis (round g vis).
Proof. apply round_ind; [|apply incl_refl]. intros v e _ H. eapply incl_tran; [exact H|apply relax_incl]. Qed.
Lemma round_NoDup g vis : NoDup vis -> NoDup (round g vis).
Proof. apply round_ind. intros v e _. apply relax_NoDup. Qed.
Lemma round_len g vis : length vis <= length (round g vis).
Proof. apply round_ind; [|lia]. intros v e _ H. eapply Nat.le_trans; [exact H|apply relax_len]. Qed.

(* if a round does not change the number of labelled nodes, the set is closed under all arcs *)
Lemma round_same_closed g vis :
  length (round g vis) = length vis -> forall u v, In (u, v) g -> In u vis -> In v vis.
Proof.
  revert vis. induction g as [|e g IH]; simpl; intros vis L u v I U; [contradiction|].
  assert (Lr : length (relax vis e) = length vis).
  { pose proof (round_len g (relax vis e)). pose proof (relax_len vis e). lia. }
  assert (Er : relax vis e = vis).
  { destruct (relax_shape vis e) as [H|[H _]]; auto. rewrite H in Lr. simpl in Lr. lia. }
  destruct I as [->|I].
  - unfold relax in Er. simpl in Er. assert (M : mem u vis = true) by now apply mem_In.
    rewrite M in Er. rewrite <- Er. apply add_In. now left.
  - rewrite Er in L. eapply IH; eauto.
Qed.

Lemma round_sound g (P : A -> Prop) vis :
  (forall u v, In (u, v) g -> P u -> P v) ->
  (forall x, In x vis -> P x) -> forall x, In x (round g vis) -> P x.
Proof.
  intros C. apply (round_ind g (fun r => forall x, In x r -> P x)). intros v e I H y Y.
  destruct (relax_shape v e) as [E|[E [_ F]]]; rewrite E in Y; auto.
  destruct Y as [<-|Y]; auto. apply (C (fst e) (snd e)); auto. now destruct e.
Qed.

Lemma round_in_universe g U vis :
  (forall e, In e g -> In (snd e) U) -> incl vis U -> incl (round g vis) U.
Proof.
  intros G. apply (round_ind g (fun r => incl r U)). intros v e I H x X.
  destruct (relax_shape v e) as [E|[E _]]; rewrite E in X; auto. destruct X as [<-|X]; auto.
Qed.

Lemma iter_ind fuel g (P : list A -> Prop) vis : (forall v, P v -> P (round g v)) -> P vis -> P (iter fuel g vis).
Proof.
  revert vis. induction fuel; simpl; intros vis H Pv; [exact Pv|].
  destruct (Nat.eqb _ _); [exact Pv|apply IHfuel; auto].
Qed.
Lemma iter_incl fuel g vis : incl vis (iter fuel g vis).
Proof. apply iter_ind; [|apply incl_refl]. intros v H. eapply incl_tran; [exact H|apply round_incl]. Qed.
Lemma iter_sound fuel g (P : A -> Prop) vis :
  (forall u v, In (u, v) g -> P u -> P v) ->
  (forall x, In x vis -> P x) -> forall x, In x (iter fuel g vis) -> P x.
Proof. intros C. apply (iter_ind fuel g (fun r => forall x, In x r -> P x)). intros v H. now apply round_sound. Qed.
Lemma iter_NoDup fuel g vis : NoDup vis -> NoDup (iter fuel g vis).
Proof. apply iter_ind. apply round_NoDup. Qed.

(* enough fuel: the result is closed under the arcs *)
Lemma iter_closed fuel g U vis :
  (forall e, In e g -> In (snd e) U) -> NoDup vis -> incl vis U -> length U < fuel + length vis ->
  forall u v, In (u, v) g -> In u (iter fuel g vis) -> In v (iter fuel g vis).
Proof.
  revert vis. induction fuel; simpl; intros vis G N I L u v E X.
  - pose proof (NoDup_incl_length N I). lia.
  - destruct (Nat.eqb (length (round g vis)) (length vis)) eqn:Q.
    + apply Nat.eqb_eq in Q. eapply round_same_closed; eauto.
    + apply Nat.eqb_neq in Q. pose proof (round_len g vis).
      eapply IHfuel; eauto.
      * now apply round_NoDup.
      * now apply round_in_universe.
      * lia.
Qed.

Theorem reach_iff g S v : In v (reach g S) <-> reach_from g S v.
Proof.
  unfold reach. split.
  - intros H. revert H. apply (iter_sound _ g (reach_from g S)).
    + intros u w E [s [Hs P]]. exists s; split; auto. eapply path_trans; eauto. now apply path_step.
    + intros x X. rewrite dedup_In in X. exists x; split; auto. apply path_refl.
  - intros [s [Hs P]].
    set (R := iter (1 + length (nodes_of g ++ S)) g (dedup S)).
    assert (C : forall u w, In (u, w) g -> In u R -> In w R).
    { apply iter_closed with (U := nodes_of g ++ S).
      - intros e E. apply in_or_app. left. unfold nodes_of. apply in_flat_map. exists e. simpl; auto.
      - apply dedup_NoDup.
      - intros x X. rewrite dedup_In in X. apply in_or_app; now right.
      - simpl. lia. }
    apply (closed_contains_reach g (fun x => In x R) C s v P).
    apply iter_incl. now apply dedup_In.
Qed.

Lemma reach_single g x v : In v (reach g [x]) <-> path g x v.
Proof.
  rewrite reach_iff. split.
  - intros [s [[<-|[]] P]]. exact P.
  - intros P. exists x. split; [now left|exact P].
Qed.

Lemma reach_NoDup g S : NoDup (reach g S).
Proof. apply iter_NoDup, dedup_NoDup. Qed.

Definition swap (e : A * A) : A * A := (snd e, fst e).
Definition sym (g : arcs) : arcs := g ++ map swap g.
Definition upath (g : arcs) : A -> A -> Prop := path (sym g).

Lemma sym_In g u v : In (u, v) (sym g) <-> In (u, v) g \/ In (v, u) g.
Proof.
  unfold sym. rewrite in_app_iff, in_map_iff. split; intros [H|H]; auto.
  - destruct H as [[a b] [E I]]. unfold swap in E. simpl in E. inversion E; subst. now right.
  - right. exists (v, u). split; auto.
Qed.
Lemma sym_swap g u v : In (u, v) (sym g) -> In (v, u) (sym g).
Proof. rewrite !sym_In. tauto. Qed.
Lemma upath_sym g u v : upath g u v -> upath g v u.
Proof. apply path_sym. intros a b. apply sym_swap. Qed.
Lemma upath_refl g u : upath g u u. Proof. apply rt_refl. Qed.
Lemma upath_trans g u v w : upath g u v -> upath g v w -> upath g u w.
Proof. apply path_trans. Qed.
Lemma upath_edge g u v : In (u, v) g -> upath g u v.
Proof. intros. apply rt_step. apply sym_In. now left. Qed.
Lemma upath_mono g g' u v : incl g g' -> upath g u v -> upath g' u v.
Proof.
  intros I. apply path_mono. intros [a b] H. apply sym_In in H. apply sym_In.
  destruct H; [left|right]; now apply I.
Qed.

(* a predicate preserved along every edge in both directions is constant on undirected paths *)
Lemma upath_invariant g (P : A -> Prop) :
  (forall u v, In (u, v) g -> (P u <-> P v)) -> forall u v, upath g u v -> P u -> P v.
Proof.
  intros C u v H. apply (closed_contains_reach (sym g) P); auto.
  intros a b E. apply sym_In in E. destruct E as [E|E]; apply C in E; tauto.
Qed.

(* image of an undirected path under a node map *)
Lemma upath_map B (f : A -> B) (g : arcs) (R : B -> B -> Prop) :
  (forall x, R x x) -> (forall x y z, R x y -> R y z -> R x z) -> (forall x y, R x y -> R y x) ->
  (forall u v, In (u, v) g -> R (f u) (f v)) -> forall u v, upath g u v -> R (f u) (f v).
Proof.
  intros Rr Rt Rs E u v H. induction H; eauto.
  apply sym_In in H. destruct H as [H|H]; auto.
Qed.

Definition component (g : arcs) (x : A) : list A := reach (sym g) [x].
Lemma component_iff g x y : In y (component g x) <-> upath g x y.
Proof. apply reach_single. Qed.

Fixpoint comps_aux (g : arcs) (todo : list A) (acc : list (list A)) : list (list A) :=
  match todo with
  | [] => acc
  | x :: t => if existsb (mem x) acc then comps_aux g t acc else comps_aux g t (acc ++ [component g x])
  end.
Definition components (g : arcs) (V : list A) : list (list A) := comps_aux g V [].

Definition is_class g (V : list A) (c : list A) : Prop := exists x, In x V /\ forall y, In y c <-> upath g x y.

Definition disjoint (c d : list A) : Prop := forall y, In y c -> In y d -> False.
Inductive pairwise_disjoint : list (list A) -> Prop :=
| pd_nil : pairwise_disjoint []
| pd_cons c l : (forall d, In d l -> disjoint c d) -> pairwise_disjoint l -> pairwise_disjoint (c :: l).
Lemma pd_snoc l c : pairwise_disjoint l -> (forall d, In d l -> disjoint d c) -> pairwise_disjoint (l ++ [c]).
Proof.
  induction 1; simpl; intros D.
  - constructor; [intros ? []|constructor].
  - constructor.
    + intros d I. apply in_app_or in I. destruct I as [I|[<-|[]]]; auto; try (apply D; now left).
    + apply IHpairwise_disjoint. intros d I. apply D. now right.
Qed.

End Graph.

Arguments mem {A} eq_dec x l.
Arguments add {A} eq_dec x l.
Arguments dedup {A} eq_dec l.
Arguments step {A} g u v.
Arguments path {A} g _ _.
Arguments reach_from {A} g S v.
Arguments reach {A} eq_dec g S.
Arguments sym {A} g.
Arguments swap {A} e.
Arguments upath {A} g _ _.
Arguments component {A} eq_dec g x.
Arguments components {A} eq_dec g V.
Arguments is_class {A} g V c.
Arguments pairwise_disjoint {A} _.
Arguments disjoint {A} c d.
Arguments nodes_of {A} g.

(* components for any class function `comp` whose classes are those of an equivalence R *)
Section GenComps.
Variable A : Type.
Variable eq_dec : forall x y : A, {x = y} + {x <> y}.
Variable comp : A -> list A.
Variable R : A -> A -> Prop.
Hypothesis comp_iff : forall x y, In y (comp x) <-> R x y.
Hypothesis Rrefl : forall x, R x x.
Hypothesis Rsym : forall x y, R x y -> R y x.
Hypothesis Rtrans : forall x y z, R x y -> R y z -> R x z.

Fixpoint gcomps (todo : list A) (acc : list (list A)) : list (list A) :=
  match todo with
  | [] => acc
  | x :: t => if existsb (mem eq_dec x) acc then gcomps t acc else gcomps t (acc ++ [comp x])
  end.

Definition gclass (V : list A) (c : list A) : Prop := exists x, In x V /\ forall y, In y c <-> R x y.

Lemma gcomps_keeps todo acc c : In c acc -> In c (gcomps todo acc).
Proof.
  revert acc. induction todo as [|x t IH]; simpl; intros acc H; auto.
  destruct (existsb (mem eq_dec x) acc); apply IH; auto. apply in_or_app; now left.
Qed.
Lemma gcomps_class V todo acc :
  incl todo V -> (forall c, In c acc -> gclass V c) -> forall c, In c (gcomps todo acc) -> gclass V c.
Proof.
  revert acc. induction todo as [|x t IH]; simpl; intros acc I H c C; auto.
  destruct (existsb (mem eq_dec x) acc).
  - eapply IH; eauto. intros y Y; apply I; now right.
  - eapply IH; [| |exact C]. { intros y Y; apply I; now right. }
    intros c' C'. apply in_app_or in C'. destruct C' as [C'|[<-|[]]]; auto.
    exists x. split; [apply I; now left|]. intros y. apply comp_iff.
Qed.
Lemma gcomps_cover todo acc x : In x todo -> exists c, In c (gcomps todo acc) /\ In x c.
Proof.
  revert acc. induction todo as [|a t IH]; simpl; intros acc H; [contradiction|].
  destruct H as [->|H].
  - destruct (existsb (mem eq_dec x) acc) eqn:E.
    + apply existsb_exists in E. destruct E as [c [C M]]. exists c. split.
      * now apply gcomps_keeps.
      * now apply (mem_In A eq_dec).
    + exists (comp x). split.
      * apply gcomps_keeps. apply in_or_app. right. now left.
      * apply comp_iff, Rrefl.
  - destruct (existsb (mem eq_dec a) acc); now apply IH.
Qed.
Lemma gcomps_disjoint todo acc :
  (forall c, In c acc -> exists z, forall y, In y c <-> R z y) ->
  pairwise_disjoint acc -> pairwise_disjoint (gcomps todo acc).
Proof.
  revert acc. induction todo as [|x t IH]; simpl; intros acc H P; auto.
  destruct (existsb (mem eq_dec x) acc) eqn:E; [now apply IH|].
  apply IH.
  - intros c C. apply in_app_or in C. destruct C as [C|[<-|[]]]; auto.
    exists x. intros y. apply comp_iff.
  - apply pd_snoc; auto. intros d Dd y Yd Yc.
    destruct (H d Dd) as [z Z]. apply Z in Yd. apply comp_iff in Yc.
    assert (In x d). { apply Z. eapply Rtrans; [exact Yd|]. now apply Rsym. }
    assert (existsb (mem eq_dec x) acc = true). { apply existsb_exists. exists d. split; auto. now apply (mem_In A eq_dec). }
    congruence.
Qed.
End GenComps.
Arguments gcomps {A} eq_dec comp todo acc.
Arguments gclass {A} R V c.

(* the component list of a node set is a partition of it into undirected-path classes *)
Section Components.
Variable A : Type.
Variable eq_dec : forall x y : A, {x = y} + {x <> y}.

Lemma comps_aux_gcomps g todo acc :
  comps_aux A eq_dec g todo acc = gcomps eq_dec (component eq_dec g) todo acc.
Proof. revert acc. induction todo as [|x t IH]; simpl; intros acc; [reflexivity|]. now rewrite !IH. Qed.

Theorem components_class g V c : In c (components eq_dec g V) -> is_class g V c.
Proof.
  unfold components. rewrite comps_aux_gcomps.
  apply (gcomps_class A eq_dec _ (upath g) (component_iff A eq_dec g)); [apply incl_refl|intros ? []].
Qed.
Theorem components_cover g V x : In x V -> exists c, In c (components eq_dec g V) /\ In x c.
Proof.
  unfold components. rewrite comps_aux_gcomps.
  apply (gcomps_cover A eq_dec _ (upath g) (component_iff A eq_dec g)). apply upath_refl.
Qed.
Theorem components_disjoint g V : pairwise_disjoint (components eq_dec g V).
Proof.
  unfold components. rewrite comps_aux_gcomps.
  apply (gcomps_disjoint A eq_dec _ (upath g) (component_iff A eq_dec g) (upath_sym A g) (upath_trans A g));
    [intros ? []|constructor].
Qed.
End Components.
