(* Complex numbers over Q with normalising operations (see Base/QN.v).
   Equality is component-wise Qeq ([Ceq], notation ==c).  C is declared a field for [ring]/[field] (side conditions
   of the form  ~ z ==c C0);  [cstrip] turns a complex identity into its two rational components with the QN operations
   stripped, ready for ring/field/lra/nra. *)
From Coq Require Import ZArith QArith Lqa Setoid Morphisms Ring Field.
From PPV Require Import Base.QN Base.Out.
Open Scope Q_scope.

Record C : Type := mkC { re : Q; im : Q }.
Definition Ceq (a b : C) : Prop := re a == re b /\ im a == im b.
Infix "==c" := Ceq (at level 70, no associativity).

Definition C0 : C := mkC 0 0.
Definition C1 : C := mkC 1 0.
Definition Cj : C := mkC 0 1.
Definition CofQ (x : Q) : C := mkC x 0.
Definition Cadd (a b : C) : C := mkC (qadd (re a) (re b)) (qadd (im a) (im b)).
Definition Csub (a b : C) : C := mkC (qsub (re a) (re b)) (qsub (im a) (im b)).
Definition Copp (a : C) : C := mkC (qopp (re a)) (qopp (im a)).
Definition Cmul (a b : C) : C :=
  mkC (qsub (qmul (re a) (re b)) (qmul (im a) (im b))) (qadd (qmul (re a) (im b)) (qmul (im a) (re b))).
Definition Cconj (a : C) : C := mkC (re a) (qopp (im a)).
Definition Cscale (k : Q) (a : C) : C := mkC (qmul k (re a)) (qmul k (im a)).
Definition cnorm2 (a : C) : Q := qadd (qmul (re a) (re a)) (qmul (im a) (im a)).
(* 1/a ; for a = 0 this is 0 (Qinv 0 = 0): every theorem using it carries  ~ a ==c C0  (see Cnz_norm) *)
Definition Cinv (a : C) : C := let n := cnorm2 a in mkC (qdiv (re a) n) (qopp (qdiv (im a) n)).
Definition Cdiv (a b : C) : C := Cmul a (Cinv b).
Definition Csum (l : list C) : C := List.fold_right Cadd C0 l.

Global Instance Ceq_equiv : Equivalence Ceq.
Proof.
  split.
  - intros a; split; reflexivity.
  - intros a b [H1 H2]; split; symmetry; assumption.
  - intros a b c [H1 H2] [H3 H4]; split; etransitivity; eassumption.
Qed.

(* the unfolding alone, for a goal that is not one ==c identity *)
Ltac cunfold :=
  cbv beta iota zeta delta [Ceq Cdiv Cinv Cmul Cadd Csub Copp Cconj Cscale cnorm2 CofQ C0 C1 Cj re im fst snd].
(* a goal  a ==c b : its two rational components, stripped *)
Ltac cstrip := cunfold; split; qstrip.

Global Instance Cadd_proper : Proper (Ceq ==> Ceq ==> Ceq) Cadd.
Proof. intros a b [H1 H2] c d [H3 H4]. cstrip; [rewrite H1, H3 | rewrite H2, H4]; reflexivity. Qed.
Global Instance Csub_proper : Proper (Ceq ==> Ceq ==> Ceq) Csub.
Proof. intros a b [H1 H2] c d [H3 H4]. cstrip; [rewrite H1, H3 | rewrite H2, H4]; reflexivity. Qed.
Global Instance Cmul_proper : Proper (Ceq ==> Ceq ==> Ceq) Cmul.
Proof. intros a b [H1 H2] c d [H3 H4]. cstrip; rewrite H1, H2, H3, H4; reflexivity. Qed.
Global Instance Cconj_proper : Proper (Ceq ==> Ceq) Cconj.
Proof. intros a b [H1 H2]. cstrip; [rewrite H1 | rewrite H2]; reflexivity. Qed.
Global Instance Copp_proper : Proper (Ceq ==> Ceq) Copp.
Proof. intros a b [H1 H2]. cstrip; [rewrite H1 | rewrite H2]; reflexivity. Qed.
Global Instance Cscale_proper : Proper (Qeq ==> Ceq ==> Ceq) Cscale.
Proof. intros k k' Hk a b [H1 H2]. cstrip; rewrite Hk; [rewrite H1 | rewrite H2]; reflexivity. Qed.

Lemma Cmul_comm a b : Cmul a b ==c Cmul b a. Proof. cstrip; ring. Qed.
Lemma Cmul_assoc a b c : Cmul a (Cmul b c) ==c Cmul (Cmul a b) c. Proof. cstrip; ring. Qed.
Lemma Cadd_comm a b : Cadd a b ==c Cadd b a. Proof. cstrip; ring. Qed.
Lemma Cadd_assoc a b c : Cadd a (Cadd b c) ==c Cadd (Cadd a b) c. Proof. cstrip; ring. Qed.
Lemma Cmul_add_distr a b c : Cmul a (Cadd b c) ==c Cadd (Cmul a b) (Cmul a c). Proof. cstrip; ring. Qed.
Lemma Cconj_mul a b : Cconj (Cmul a b) ==c Cmul (Cconj a) (Cconj b). Proof. cstrip; ring. Qed.
Lemma Cconj_add a b : Cconj (Cadd a b) ==c Cadd (Cconj a) (Cconj b). Proof. cstrip; ring. Qed.
Lemma Cadd_0_l a : Cadd C0 a ==c a. Proof. cstrip; ring. Qed.
Lemma Cadd_0_r a : Cadd a C0 ==c a. Proof. cstrip; ring. Qed.
Lemma Cmul_1_l a : Cmul C1 a ==c a. Proof. cstrip; ring. Qed.
Lemma Cinv_r a : ~ re a * re a + im a * im a == 0 -> Cmul a (Cinv a) ==c C1.
Proof. intros H. cstrip; field; exact H. Qed.
Lemma cnorm2_nonneg a : 0 <= cnorm2 a. Proof. cunfold. qstrip. nra. Qed.

Global Instance re_proper : Proper (Ceq ==> Qeq) re. Proof. intros a b [H _]. exact H. Qed.
Global Instance im_proper : Proper (Ceq ==> Qeq) im. Proof. intros a b [_ H]. exact H. Qed.
Global Instance mkC_proper : Proper (Qeq ==> Qeq ==> Ceq) mkC.
Proof. intros a b H c d H'. split; assumption. Qed.
Global Instance CofQ_proper : Proper (Qeq ==> Ceq) CofQ.
Proof. intros a b H. split; [exact H | reflexivity]. Qed.
Global Instance Cinv_proper : Proper (Ceq ==> Ceq) Cinv.
Proof. intros a b [H1 H2]. cstrip; rewrite H1, H2; reflexivity. Qed.
Global Instance Cdiv_proper : Proper (Ceq ==> Ceq ==> Ceq) Cdiv.
Proof. intros a b H c d H'. unfold Cdiv. rewrite H, H'. reflexivity. Qed.

Lemma Cnz_norm z : ~ z ==c C0 <-> ~ re z * re z + im z * im z == 0.
Proof.
  split; intros H K; apply H.
  - destruct z as [a b]. unfold Ceq, C0. cbn [re im] in *. split; nra.
  - destruct K as [K1 K2]. cbn [re im C0] in K1, K2. rewrite K1, K2. ring.
Qed.

Lemma C_ring_theory : ring_theory C0 C1 Cadd Cmul Csub Copp Ceq.
Proof. constructor; intros; cstrip; ring. Qed.

Lemma C_field_theory : field_theory C0 C1 Cadd Cmul Csub Copp Cdiv Cinv Ceq.
Proof.
  constructor.
  - exact C_ring_theory.
  - intros [H _]. discriminate H.
  - reflexivity.
  - intros z H. apply Cnz_norm in H. cstrip; field; exact H.
Qed.

Add Field Cfield : C_field_theory.

Lemma Csum_cons x l : Csum (x :: l) = Cadd x (Csum l).
Proof. reflexivity. Qed.
Lemma Csum_app a b : Csum (a ++ b) ==c Cadd (Csum a) (Csum b).
Proof.
  induction a as [|x a IH]; cbn [app].
  - symmetry. apply Cadd_0_l.
  - rewrite !Csum_cons, IH. apply Cadd_assoc.
Qed.

Lemma Cscale_mul k a : Cscale k a ==c Cmul (CofQ k) a.
Proof. cstrip; ring. Qed.
Lemma Cscale_1 z : Cscale 1 z ==c z.
Proof. cstrip; ring. Qed.
Lemma CofQ_mul x y : CofQ (x * y) ==c Cmul (CofQ x) (CofQ y).
Proof. cstrip; ring. Qed.
(* no hypothesis on z: Cinv 0 = 0 scales as well *)
Lemma Cscale_inv k z : ~ k == 0 -> Cinv (Cscale k z) ==c Cscale (/ k) (Cinv z).
Proof.
  intros K. destruct z as [a b]. destruct (Qeq_dec (a * a + b * b) 0) as [E | E].
  - assert (A : a == 0 /\ b == 0) by (split; nra). destruct A as [A B]. cstrip; rewrite A, B; unfold Qdiv; ring.
  - assert (N : ~ k * a * (k * a) + k * b * (k * b) == 0).
    { intro H. apply E. assert (H1 : k * k * (a * a + b * b) == 0) by (rewrite <- H; ring).
      assert (H2 : ~ k * k == 0) by nra. nra. }
    cstrip; field; repeat split; auto.
Qed.
Lemma C_eta z : mkC (re z) (im z) ==c z.
Proof. split; reflexivity. Qed.
Lemma CofQ_nz k : ~ k == 0 -> ~ CofQ k ==c C0.
Proof. intros H [K _]. exact (H K). Qed.

Definition oc (a : C) : out := OL (oq (re a) :: oq (im a) :: nil).
