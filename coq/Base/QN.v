(* Normalising rational operations: every model uses these so that [vm_compute] never carries
   unreduced denominators.  Each has a correctness lemma to [Qeq]; [qstrip] (goal), [qstrip_in] (one hypothesis)
   and [qnorm] (all) replace them by the plain operations before ring/field/lra/nra. *)
From Coq Require Import ZArith QArith Qreduction Qabs Lia Lqa Setoid Morphisms.
Open Scope Q_scope.

Definition qadd (x y : Q) : Q := Qred (x + y).
Definition qsub (x y : Q) : Q := Qred (x - y).
Definition qmul (x y : Q) : Q := Qred (x * y).
Definition qdiv (x y : Q) : Q := Qred (x / y).
Definition qopp (x : Q) : Q := Qred (- x).
Definition qofZ (z : Z) : Q := inject_Z z.

Lemma qadd_correct x y : qadd x y == x + y. Proof. apply Qred_correct. Qed.
Lemma qsub_correct x y : qsub x y == x - y. Proof. apply Qred_correct. Qed.
Lemma qmul_correct x y : qmul x y == x * y. Proof. apply Qred_correct. Qed.
Lemma qdiv_correct x y : qdiv x y == x / y. Proof. apply Qred_correct. Qed.
Lemma qopp_correct x : qopp x == - x. Proof. apply Qred_correct. Qed.

Global Instance qadd_proper : Proper (Qeq ==> Qeq ==> Qeq) qadd.
Proof. intros a b H c d H'. rewrite !qadd_correct, H, H'. reflexivity. Qed.
Global Instance qsub_proper : Proper (Qeq ==> Qeq ==> Qeq) qsub.
Proof. intros a b H c d H'. rewrite !qsub_correct, H, H'. reflexivity. Qed.
Global Instance qmul_proper : Proper (Qeq ==> Qeq ==> Qeq) qmul.
Proof. intros a b H c d H'. rewrite !qmul_correct, H, H'. reflexivity. Qed.
Global Instance qdiv_proper : Proper (Qeq ==> Qeq ==> Qeq) qdiv.
Proof. intros a b H c d H'. rewrite !qdiv_correct, H, H'. reflexivity. Qed.
Global Instance qopp_proper : Proper (Qeq ==> Qeq) qopp.
Proof. intros a b H. rewrite !qopp_correct, H. reflexivity. Qed.

Global Hint Rewrite qadd_correct qsub_correct qmul_correct qdiv_correct qopp_correct : qn.

(* Removing the normalising operations without setoid rewriting: [qstrip_pf t] builds one proof of [t == t'], [t'] being [t]
   with every qadd/qsub/... replaced by the plain operation, bottom-up and linear in [t] ([autorewrite with qn] builds a
   [Proper] derivation per occurrence). *)
Lemma qadd_cong a a' b b' : a == a' -> b == b' -> qadd a b == a' + b'.
Proof. intros -> ->. apply qadd_correct. Qed.
Lemma qsub_cong a a' b b' : a == a' -> b == b' -> qsub a b == a' - b'.
Proof. intros -> ->. apply qsub_correct. Qed.
Lemma qmul_cong a a' b b' : a == a' -> b == b' -> qmul a b == a' * b'.
Proof. intros -> ->. apply qmul_correct. Qed.
Lemma qdiv_cong a a' b b' : a == a' -> b == b' -> qdiv a b == a' / b'.
Proof. intros -> ->. apply qdiv_correct. Qed.
Lemma qopp_cong a a' : a == a' -> qopp a == - a'.
Proof. intros ->. apply qopp_correct. Qed.
Lemma Qplus_cong a a' b b' : a == a' -> b == b' -> a + b == a' + b'.
Proof. intros -> ->. reflexivity. Qed.
Lemma Qminus_cong a a' b b' : a == a' -> b == b' -> a - b == a' - b'.
Proof. intros -> ->. reflexivity. Qed.
Lemma Qmult_cong a a' b b' : a == a' -> b == b' -> a * b == a' * b'.
Proof. intros -> ->. reflexivity. Qed.
Lemma Qdiv_cong a a' b b' : a == a' -> b == b' -> a / b == a' / b'.
Proof. intros -> ->. reflexivity. Qed.
Lemma Qopp_cong a a' : a == a' -> - a == - a'.
Proof. intros ->. reflexivity. Qed.
Lemma Qinv_cong a a' : a == a' -> / a == / a'.
Proof. intros ->. reflexivity. Qed.
Lemma Qabs_cong a a' : a == a' -> Qabs a == Qabs a'.
Proof. intros ->. reflexivity. Qed.

Ltac qstrip_pf t :=
  lazymatch t with
  | qadd ?a ?b => let pa := qstrip_pf a in let pb := qstrip_pf b in constr:(qadd_cong _ _ _ _ pa pb)
  | qsub ?a ?b => let pa := qstrip_pf a in let pb := qstrip_pf b in constr:(qsub_cong _ _ _ _ pa pb)
  | qmul ?a ?b => let pa := qstrip_pf a in let pb := qstrip_pf b in constr:(qmul_cong _ _ _ _ pa pb)
  | qdiv ?a ?b => let pa := qstrip_pf a in let pb := qstrip_pf b in constr:(qdiv_cong _ _ _ _ pa pb)
  | qopp ?a => let pa := qstrip_pf a in constr:(qopp_cong _ _ pa)
  | Qplus ?a ?b => let pa := qstrip_pf a in let pb := qstrip_pf b in constr:(Qplus_cong _ _ _ _ pa pb)
  | Qminus ?a ?b => let pa := qstrip_pf a in let pb := qstrip_pf b in constr:(Qminus_cong _ _ _ _ pa pb)
  | Qmult ?a ?b => let pa := qstrip_pf a in let pb := qstrip_pf b in constr:(Qmult_cong _ _ _ _ pa pb)
  | Qdiv ?a ?b => let pa := qstrip_pf a in let pb := qstrip_pf b in constr:(Qdiv_cong _ _ _ _ pa pb)
  | Qopp ?a => let pa := qstrip_pf a in constr:(Qopp_cong _ _ pa)
  | Qinv ?a => let pa := qstrip_pf a in constr:(Qinv_cong _ _ pa)
  | Qabs ?a => let pa := qstrip_pf a in constr:(Qabs_cong _ _ pa)
  | ?x => constr:(Qeq_refl x)
  end.

Lemma Qeq_strip l l' r r' : l == l' -> r == r' -> (l == r <-> l' == r').
Proof. intros -> ->. reflexivity. Qed.
Lemma Qle_strip l l' r r' : l == l' -> r == r' -> (l <= r <-> l' <= r').
Proof. intros -> ->. reflexivity. Qed.
Lemma Qlt_strip l l' r r' : l == l' -> r == r' -> (l < r <-> l' < r').
Proof. intros -> ->. reflexivity. Qed.
Lemma and_strip A A' B B' : (A <-> A') -> (B <-> B') -> (A /\ B <-> A' /\ B').
Proof. tauto. Qed.
Lemma or_strip A A' B B' : (A <-> A') -> (B <-> B') -> (A \/ B <-> A' \/ B').
Proof. tauto. Qed.
Lemma not_strip (A A' : Prop) : (A <-> A') -> (~ A <-> ~ A').
Proof. tauto. Qed.
Lemma imp_strip (A A' B B' : Prop) : (A <-> A') -> (B <-> B') -> ((A -> B) <-> (A' -> B')).
Proof. tauto. Qed.
Lemma iff_strip A A' B B' : (A <-> A') -> (B <-> B') -> ((A <-> B) <-> (A' <-> B')).
Proof. tauto. Qed.

(* the same for a proposition built from ==, <=, < on Q with /\, \/, ~, -> and <->: a proof of [P <-> P'] *)
Ltac qstrip_prop P :=
  lazymatch P with
  | Qeq ?l ?r => let pl := qstrip_pf l in let pr := qstrip_pf r in constr:(Qeq_strip _ _ _ _ pl pr)
  | Qle ?l ?r => let pl := qstrip_pf l in let pr := qstrip_pf r in constr:(Qle_strip _ _ _ _ pl pr)
  | Qlt ?l ?r => let pl := qstrip_pf l in let pr := qstrip_pf r in constr:(Qlt_strip _ _ _ _ pl pr)
  | ?A /\ ?B => let pa := qstrip_prop A in let pb := qstrip_prop B in constr:(and_strip _ _ _ _ pa pb)
  | ?A \/ ?B => let pa := qstrip_prop A in let pb := qstrip_prop B in constr:(or_strip _ _ _ _ pa pb)
  | ~ ?A => let pa := qstrip_prop A in constr:(not_strip _ _ pa)
  | ?A <-> ?B => let pa := qstrip_prop A in let pb := qstrip_prop B in constr:(iff_strip _ _ _ _ pa pb)
  | ?A -> ?B =>
      lazymatch type of A with
      | Prop => let pa := qstrip_prop A in let pb := qstrip_prop B in constr:(imp_strip _ _ _ _ pa pb)
      | _ => constr:(iff_refl P)
      end
  | _ => constr:(iff_refl P)
  end.

(* fails unless P mentions one of the normalising operations *)
Ltac has_qn P :=
  lazymatch P with
  | context [qadd] => idtac | context [qsub] => idtac | context [qmul] => idtac
  | context [qdiv] => idtac | context [qopp] => idtac
  end.
(* one hypothesis; fails when nothing would change, so that the [repeat] of [qnorm] stops *)
Ltac qstrip_in H :=
  let P := type of H in has_qn P;
  let pf := qstrip_prop P in
  lazymatch type of pf with
  | _ <-> ?P' =>
    tryif constr_eq P P' then fail else
    (let H' := fresh in pose proof (proj1 pf H : P') as H'; clear H; rename H' into H)
  end.
(* the goal: any proposition [qstrip_prop] reads *)
Ltac qstrip :=
  lazymatch goal with |- ?P =>
    let pf := qstrip_prop P in
    lazymatch pf with iff_refl _ => fail "no relation on Q to strip" | _ => apply (proj2 pf) end
  end.
(* goal and hypotheses.  Operations below another function symbol or a binder are not reached; there use
   [autorewrite with qn] on the one term concerned. *)
Ltac qnorm :=
  repeat match goal with H : _ |- _ => qstrip_in H end;
  try (lazymatch goal with |- ?P => has_qn P end; qstrip).

Definition qltb (x y : Q) : bool := match Qcompare x y with Lt => true | _ => false end.
Definition qleb (x y : Q) : bool := Qle_bool x y.
Definition qeqb (x y : Q) : bool := Qeq_bool x y.

Lemma qltb_lt x y : qltb x y = true <-> x < y.
Proof. unfold qltb. rewrite Qlt_alt. destruct (x ?= y); split; congruence. Qed.
Lemma qltb_ge x y : qltb x y = false <-> y <= x.
Proof.
  unfold qltb. destruct (x ?= y) eqn:E; split; intros H; try congruence; try reflexivity.
  - apply Qeq_alt in E. rewrite E. apply Qle_refl.
  - apply Qlt_alt in E. exfalso. apply (Qlt_not_le _ _ E H).
  - apply Qgt_alt in E. apply Qlt_le_weak. exact E.
Qed.
Lemma qleb_le x y : qleb x y = true <-> x <= y. Proof. apply Qle_bool_iff. Qed.
Lemma qeqb_eq x y : qeqb x y = true <-> x == y. Proof. apply Qeq_bool_iff. Qed.
Lemma qeqb_false x y : qeqb x y = false <-> ~ x == y.
Proof. rewrite <- qeqb_eq. destruct (qeqb x y); split; intros; congruence. Qed.
Lemma qeqb_ne x y : ~ x == y -> qeqb x y = false. Proof. apply qeqb_false. Qed.

Lemma Qdiv_pos a b : 0 < a -> 0 < b -> 0 < a / b.
Proof. intros Ha Hb. apply Qlt_shift_div_l; [exact Hb | rewrite Qmult_0_l; exact Ha]. Qed.
Lemma sq_nonneg x : 0 <= x * x. Proof. nra. Qed.
Lemma sqrt_unique a b : 0 <= a -> 0 <= b -> a * a == b * b -> a == b.
Proof. intros Ha Hb E. apply Qle_antisym; nra. Qed.

Definition qmax (x y : Q) : Q := if qltb x y then y else x.
Definition qmin (x y : Q) : Q := if qltb y x then y else x.
Definition qabs (x : Q) : Q := if qltb x 0 then qopp x else x.

Lemma qmax_cases x y : (x < y /\ qmax x y = y) \/ (y <= x /\ qmax x y = x).
Proof.
  unfold qmax. destruct (qltb x y) eqn:E.
  - left. split; [apply qltb_lt; exact E | reflexivity].
  - right. split; [apply qltb_ge; exact E | reflexivity].
Qed.
Lemma qmin_cases x y : (y < x /\ qmin x y = y) \/ (x <= y /\ qmin x y = x).
Proof.
  unfold qmin. destruct (qltb y x) eqn:E.
  - left. split; [apply qltb_lt; exact E | reflexivity].
  - right. split; [apply qltb_ge; exact E | reflexivity].
Qed.
(* the same up to ==, in the form lra uses directly *)
Lemma qmax_spec x y : qmax x y == x /\ y <= x \/ qmax x y == y /\ x <= y.
Proof. destruct (qmax_cases x y) as [[L ->]|[L ->]]; [right | left]; split; lra. Qed.
Lemma qmin_spec x y : qmin x y == x /\ x <= y \/ qmin x y == y /\ y <= x.
Proof. destruct (qmin_cases x y) as [[L ->]|[L ->]]; [right | left]; split; lra. Qed.

(* |x - y| <= tol *)
Definition qclose (tol x y : Q) : bool := qleb (Qabs (x - y)) tol.
