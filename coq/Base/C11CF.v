(* Proper instances of re, im, mkC, CofQ, Cinv, Cdiv and the non-vanishing of embedded rationals, as in Base/QC.v;
   no file imports this one. *)
From Coq Require Import QArith Morphisms.
From PPV Require Import Base.QC.
Open Scope Q_scope.

Global Instance re_proper : Proper (Ceq ==> Qeq) re. Proof. exact QC.re_proper. Qed.
Global Instance im_proper : Proper (Ceq ==> Qeq) im. Proof. exact QC.im_proper. Qed.
Global Instance Cinv_proper : Proper (Ceq ==> Ceq) Cinv.
Proof. exact QC.Cinv_proper. Qed.
Global Instance Cdiv_proper : Proper (Ceq ==> Ceq ==> Ceq) Cdiv.
Proof. exact QC.Cdiv_proper. Qed.

Lemma CofQ_nz k : ~ k == 0 -> ~ CofQ k ==c C0.
Proof. exact (QC.CofQ_nz k). Qed.
Global Instance CofQ_proper : Proper (Qeq ==> Ceq) CofQ.
Proof. exact QC.CofQ_proper. Qed.
Global Instance mkC_proper : Proper (Qeq ==> Qeq ==> Ceq) mkC.
Proof. exact QC.mkC_proper. Qed.
