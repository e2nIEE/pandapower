(* Base/C26Dist.v — single-source shortest path lengths over weighted arcs by Bellman-Ford rounds with a
   stability check.  If the check succeeds the table is exactly the table of shortest walk weights
   (sound: every entry is the weight of a walk; optimal: no walk is shorter; complete: every node with a walk
   has an entry).  Reference for networkx.single_source_dijkstra_path_length in C26. *)
From Coq Require Import List Bool Arith Lia QArith Lqa.
From PPV Require Import Base.QN.
Import ListNotations.

Section Dist.
Variable A : Type.
Variable eq_dec : forall x y : A, {x = y} + {x <> y}.

Definition warc := (A * A * Q)%type.
Definition tab := list (A * Q).

Fixpoint dget (d : tab) (x : A) : option Q :=
  match d with [] => None | (k, v) :: t => if eq_dec k x then Some v else dget t x end.
Definition dset (d : tab) (x : A) (v : Q) : tab := (x, v) :: d.

Definition relaxd (d : tab) (a : warc) : tab :=
  let '(u, v, w) := a in
  match dget d u with
  | None => d
  | Some du => match dget d v with
               | None => dset d v (qadd du w)
               | Some dv => if qltb (qadd du w) dv then dset d v (qadd du w) else d
               end
  end.
Definition roundd (g : list warc) (d : tab) : tab := fold_left relaxd g d.
Fixpoint iterd (fuel : nat) (g : list warc) (d : tab) : tab :=
  match fuel with O => d | S f => iterd f g (roundd g d) end.
Definition stable (g : list warc) (d : tab) : bool :=
  forallb (fun a : warc => let '(u, v, w) := a in
             match dget d u with
             | None => true
             | Some du => match dget d v with None => false | Some dv => qleb dv (qadd du w) end
             end) g.
(* None = not stable after `fuel` rounds (with non-negative weights |V| rounds suffice) *)
Definition sssp (fuel : nat) (g : list warc) (s : A) : option tab :=
  let d := iterd fuel g [(s, 0)] in if stable g d then Some d else None.

Inductive walk (g : list warc) (s : A) : A -> Q -> Prop :=
| w_nil : walk g s s 0
| w_step u v w W : walk g s u W -> In (u, v, w) g -> walk g s v (W + w).

Lemma dget_dset d x v y : dget (dset d x v) y = if eq_dec x y then Some v else dget d y.
Proof. reflexivity. Qed.

(* soundness: every entry is (Qeq to) the weight of a walk *)
Definition sound (g : list warc) (s : A) (d : tab) : Prop :=
  forall x dx, dget d x = Some dx -> exists W, walk g s x W /\ W == dx.

Lemma relaxd_sound g s d a : In a g -> sound g s d -> sound g s (relaxd d a).
Proof.
  destruct a as [[u v] w]. intros I S. unfold relaxd.
  destruct (dget d u) as [du|] eqn:Eu; auto.
  assert (N : forall x dx, dget (dset d v (qadd du w)) x = Some dx -> exists W, walk g s x W /\ W == dx).
  { intros x dx H. rewrite dget_dset in H. destruct (eq_dec v x) as [<-|]; auto.
    inversion H; subst. destruct (S _ _ Eu) as [W [Wk E]]. exists (W + w). split; [eapply w_step; eauto|].
    rewrite qadd_correct, E. reflexivity. }
  destruct (dget d v) as [dv|]; auto. destruct (qltb (qadd du w) dv); auto.
Qed.
Lemma roundd_sound g s : forall g' d, incl g' g -> sound g s d -> sound g s (roundd g' d).
Proof.
  induction g' as [|a t IH]; simpl; intros d I S; auto.
  apply IH. { intros x X; apply I; now right. } apply relaxd_sound; auto. apply I. now left.
Qed.
Lemma iterd_sound g s fuel : forall d, sound g s d -> sound g s (iterd fuel g d).
Proof. induction fuel; simpl; intros d S; auto. apply IHfuel. apply roundd_sound; auto. apply incl_refl. Qed.

(* the source entry stays <= 0 *)
Definition src_ok (s : A) (d : tab) : Prop := exists ds, dget d s = Some ds /\ ds <= 0.
Lemma dset_le d v q x dx : dget d x = Some dx -> (dget d v = Some dx -> q <= dx) ->
  exists dx', dget (dset d v q) x = Some dx' /\ dx' <= dx.
Proof.
  intros H L. rewrite dget_dset. destruct (eq_dec v x) as [<-|]; [exists q; auto|].
  exists dx. split; [exact H|apply Qle_refl].
Qed.
Lemma relaxd_le d a x dx : dget d x = Some dx -> exists dx', dget (relaxd d a) x = Some dx' /\ dx' <= dx.
Proof.
  destruct a as [[u v] w]. intros H.
  assert (K : exists dx', dget d x = Some dx' /\ dx' <= dx) by (exists dx; split; [exact H|apply Qle_refl]).
  unfold relaxd. destruct (dget d u) as [du|]; [|exact K]. destruct (dget d v) as [dv|] eqn:Ev.
  - destruct (qltb (qadd du w) dv) eqn:L; [|exact K]. apply dset_le; auto.
    intros E. rewrite Ev in E. inversion E; subst. apply Qlt_le_weak. now apply qltb_lt.
  - apply dset_le; auto. congruence.
Qed.
Lemma roundd_le g : forall d x dx, dget d x = Some dx -> exists dx', dget (roundd g d) x = Some dx' /\ dx' <= dx.
Proof.
  induction g as [|a t IH]; simpl; intros d x dx H; [exists dx; split; auto; apply Qle_refl|].
  destruct (relaxd_le d a x dx H) as [d1 [H1 L1]]. destruct (IH _ _ _ H1) as [d2 [H2 L2]].
  exists d2. split; auto. eapply Qle_trans; eauto.
Qed.
Lemma iterd_src fuel g s : forall d, src_ok s d -> src_ok s (iterd fuel g d).
Proof.
  induction fuel; simpl; intros d S; auto. apply IHfuel. destruct S as [ds [H L]].
  destruct (roundd_le g d s ds H) as [d' [H' L']]. exists d'. split; auto. eapply Qle_trans; eauto.
Qed.

(* optimality from the stability check *)
Lemma stable_opt g s d : stable g d = true -> src_ok s d ->
  forall x W, walk g s x W -> exists dx, dget d x = Some dx /\ dx <= W.
Proof.
  intros St [ds [Hs Ls]] x W Wk. induction Wk as [|u v w W Wk IH I].
  - exists ds. split; auto.
  - destruct IH as [du [Hu Lu]]. unfold stable in St. rewrite forallb_forall in St.
    specialize (St _ I). simpl in St. rewrite Hu in St.
    destruct (dget d v) as [dv|]; [|discriminate]. exists dv. split; auto.
    apply qleb_le in St. rewrite qadd_correct in St. lra.
Qed.

Theorem sssp_correct fuel g s d : sssp fuel g s = Some d ->
  (forall x dx, dget d x = Some dx ->
      (exists W, walk g s x W /\ W == dx) /\ (forall W, walk g s x W -> dx <= W)) /\
  (forall x, dget d x = None -> forall W, ~ walk g s x W).
Proof.
  unfold sssp. destruct (stable g (iterd fuel g [(s, 0)])) eqn:St; [|discriminate]. intros H. inversion H; subst. clear H.
  assert (S0 : sound g s [(s, 0)]).
  { intros x dx H. simpl in H. destruct (eq_dec s x) as [<-|]; [|discriminate]. inversion H; subst.
    exists 0. split; [constructor|reflexivity]. }
  assert (O0 : src_ok s [(s, 0)]).
  { exists 0. split; [simpl; destruct (eq_dec s s); congruence|apply Qle_refl]. }
  pose proof (iterd_sound g s fuel _ S0) as So. pose proof (iterd_src fuel g s _ O0) as Oo.
  split.
  - intros x dx Hx. split; [apply So; auto|]. intros W Wk.
    destruct (stable_opt g s _ St Oo x W Wk) as [dx' [Hx' L]]. congruence.
  - intros x Hx W Wk. destruct (stable_opt g s _ St Oo x W Wk) as [dx' [Hx' L]]. congruence.
Qed.
End Dist.

Arguments dget {A} eq_dec d x.
Arguments sssp {A} eq_dec fuel g s.
Arguments walk {A} g s _ _.
