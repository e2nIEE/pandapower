(* C11K — the number field Q(sqrt 3, j): exact home of the symmetrical-component operator a = exp(j*120deg).
   An element k1 + ks*sqrt3 + kj*j + ksj*sqrt3*j is a record of four rationals (normalising operations of Base/QN).
   Equality is component-wise Qeq ([Keq], notation ==k); K is declared a ring, so [ring] works on ==k; [kstrip] unfolds a goal
   into its four rational components.
   No axioms, no oracle: sqrt 3 is symbolic (s*s = 3), so a*a + a + 1 = 0 holds exactly and is proved (Properties/C11.v, from [Ka_sq] and [Kasq_lin]). *)
From Coq Require Import ZArith QArith Lqa Setoid Morphisms List.
From PPV Require Import Base.QN Base.QC Base.Out.
Open Scope Q_scope.

Record K : Type := mkK { k1 : Q; ks : Q; kj : Q; ksj : Q }.
Definition Keq (x y : K) : Prop := k1 x == k1 y /\ ks x == ks y /\ kj x == kj y /\ ksj x == ksj y.
Infix "==k" := Keq (at level 70, no associativity).

Definition K0 : K := mkK 0 0 0 0.
Definition K1 : K := mkK 1 0 0 0.
Definition KofQ (q : Q) : K := mkK q 0 0 0.
Definition KofC (c : C) : K := mkK (re c) 0 (im c) 0.
Definition Ksqrt3 : K := mkK 0 1 0 0.
Definition Kinvsqrt3 : K := mkK 0 (1 # 3) 0 0.                (* 1/sqrt3 = sqrt3/3 *)
Definition Kadd (x y : K) : K := mkK (qadd (k1 x) (k1 y)) (qadd (ks x) (ks y)) (qadd (kj x) (kj y)) (qadd (ksj x) (ksj y)).
Definition Ksub (x y : K) : K := mkK (qsub (k1 x) (k1 y)) (qsub (ks x) (ks y)) (qsub (kj x) (kj y)) (qsub (ksj x) (ksj y)).
Definition Kopp (x : K) : K := mkK (qopp (k1 x)) (qopp (ks x)) (qopp (kj x)) (qopp (ksj x)).
Definition Kscale (q : Q) (x : K) : K := mkK (qmul q (k1 x)) (qmul q (ks x)) (qmul q (kj x)) (qmul q (ksj x)).
(* s*s = 3, j*j = -1 *)
Definition Kmul (x y : K) : K :=
  mkK (qsub (qadd (qmul (k1 x) (k1 y)) (qmul 3 (qmul (ks x) (ks y)))) (qadd (qmul (kj x) (kj y)) (qmul 3 (qmul (ksj x) (ksj y)))))
      (qsub (qadd (qmul (k1 x) (ks y)) (qmul (ks x) (k1 y))) (qadd (qmul (kj x) (ksj y)) (qmul (ksj x) (kj y))))
      (qadd (qadd (qmul (k1 x) (kj y)) (qmul (kj x) (k1 y))) (qmul 3 (qadd (qmul (ks x) (ksj y)) (qmul (ksj x) (ks y)))))
      (qadd (qadd (qmul (k1 x) (ksj y)) (qmul (ksj x) (k1 y))) (qadd (qmul (ks x) (kj y)) (qmul (kj x) (ks y)))).
(* complex conjugation j -> -j *)
Definition Kconj (x : K) : K := mkK (k1 x) (ks x) (qopp (kj x)) (qopp (ksj x)).
(* real and imaginary parts as elements p + q*sqrt3 of Q(sqrt3) *)
Definition Kre (x : K) : Q * Q := (k1 x, ks x).
Definition Kim (x : K) : Q * Q := (kj x, ksj x).
(* |x|^2 = x * conj x, an element of Q(sqrt3) *)
Definition Knorm2 (x : K) : K := Kmul x (Kconj x).

(* a = exp(j*120deg) = -1/2 + j*sqrt3/2 ; asq = exp(-j*120deg) *)
Definition Ka : K := mkK (-1 # 2) 0 0 (1 # 2).
Definition Kasq : K := mkK (-1 # 2) 0 0 (-1 # 2).

Global Instance Keq_equiv : Equivalence Keq.
Proof.
  split.
  - intros x; repeat split; reflexivity.
  - intros x y (A & B & C & D); repeat split; symmetry; assumption.
  - intros x y z (A & B & C & D) (A' & B' & C' & D'); repeat split; etransitivity; eassumption.
Qed.

(* the goal, as relations between rational components without the normalising operations *)
Ltac kstrip :=
  unfold Keq, Knorm2, Kmul, Kadd, Ksub, Kopp, Kscale, Kconj, KofQ, KofC, K0, K1, Ka, Kasq, Ksqrt3, Kinvsqrt3;
  cbn [k1 ks kj ksj re im]; qstrip.

Global Instance Kadd_proper : Proper (Keq ==> Keq ==> Keq) Kadd.
Proof. intros x y (A & B & C & D) u v (A' & B' & C' & D'). kstrip. rewrite A, B, C, D, A', B', C', D'. repeat split; reflexivity. Qed.
Global Instance Ksub_proper : Proper (Keq ==> Keq ==> Keq) Ksub.
Proof. intros x y (A & B & C & D) u v (A' & B' & C' & D'). kstrip. rewrite A, B, C, D, A', B', C', D'. repeat split; reflexivity. Qed.
Global Instance Kmul_proper : Proper (Keq ==> Keq ==> Keq) Kmul.
Proof.
  intros x y (A & B & C & D) u v (A' & B' & C' & D').
  unfold Kmul; repeat split; cbn [k1 ks kj ksj]; rewrite A, B, C, D, A', B', C', D'; reflexivity.
Qed.
Global Instance Kconj_proper : Proper (Keq ==> Keq) Kconj.
Proof. intros x y (A & B & C & D). kstrip. rewrite A, B, C, D. repeat split; reflexivity. Qed.
Global Instance Kscale_proper : Proper (Qeq ==> Keq ==> Keq) Kscale.
Proof. intros p q E x y (A & B & C & D). kstrip. rewrite E, A, B, C, D. repeat split; reflexivity. Qed.
Global Instance Kopp_proper : Proper (Keq ==> Keq) Kopp.
Proof. intros x y (A & B & C & D). kstrip. rewrite A, B, C, D. repeat split; reflexivity. Qed.

(* K is a commutative ring with the rationals embedded by KofQ: [ring] decides identities between elements of K,
   taking a, asq, sqrt3 for indeterminates and KofQ q for the rational coefficient q *)
Lemma K_ring_theory : ring_theory K0 K1 Kadd Kmul Ksub Kopp Keq.
Proof. constructor; intros; kstrip; repeat split; ring. Qed.
Lemma KofQ_morph : ring_morph K0 K1 Kadd Kmul Ksub Kopp Keq 0 1 Qplus Qmult Qminus Qopp Qeq_bool KofQ.
Proof.
  constructor; intros; try (kstrip; repeat split; ring).
  apply Qeq_bool_eq in H. repeat split; [exact H | reflexivity ..].
Qed.
(* the constants [ring] may compute with: embedded rational literals *)
Ltac Kcst t := lazymatch t with KofQ ?q => Qcst q | _ => InitialRing.NotConstant end.
Add Ring Kring : K_ring_theory (morphism KofQ_morph, constants [Kcst]).

Lemma Kscale_mul q x : Kscale q x ==k Kmul (KofQ q) x.
Proof. kstrip; repeat split; ring. Qed.
(* [repeat split] would go on into the four components of an ==k *)
Ltac ksplit := repeat match goal with |- _ /\ _ => split end.

(* conjugation is a ring automorphism exchanging a and asq *)
Lemma Kconj_add x y : Kconj (Kadd x y) ==k Kadd (Kconj x) (Kconj y).
Proof. kstrip; repeat split; ring. Qed.
Lemma Kconj_mul x y : Kconj (Kmul x y) ==k Kmul (Kconj x) (Kconj y).
Proof. kstrip; repeat split; ring. Qed.
Lemma Kconj_a : Kconj Ka ==k Kasq. Proof. repeat split. Qed.
Lemma Kconj_asq : Kconj Kasq ==k Ka. Proof. repeat split. Qed.
Lemma Kconj_0 : Kconj K0 ==k K0. Proof. repeat split. Qed.
(* conjugates pushed to the leaves and rational factors written as products: what is left is a goal for [ring] *)
Ltac kpush := rewrite ?Kconj_add, ?Kconj_mul, ?Kconj_a, ?Kconj_asq, ?Kconj_0, ?Kscale_mul.

(* what [ring] has to be told about the indeterminates: a^2 = asq = -1 - a (so a * asq = 1 and a^3 = 1 follow),
   sqrt3^2 = 3, 1/sqrt3 = sqrt3/3 *)
Lemma Ka_sq : Kmul Ka Ka ==k Kasq. Proof. repeat split. Qed.
Lemma Kasq_lin : Kasq ==k Kopp (Kadd K1 Ka). Proof. repeat split. Qed.
Lemma Ksqrt3_sq : Kmul Ksqrt3 Ksqrt3 ==k KofQ 3. Proof. repeat split. Qed.
Lemma Kinvsqrt3_lin : Kinvsqrt3 ==k Kmul (KofQ (1 # 3)) Ksqrt3. Proof. repeat split. Qed.

(* output: [k1; ks; kj; ksj]; the harness evaluates k1 + ks*sqrt(3) etc. in floating point *)
Definition ok (x : K) : out := OL (oq (k1 x) :: oq (ks x) :: oq (kj x) :: oq (ksj x) :: nil).
