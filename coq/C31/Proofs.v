(* C31 — proofs about the table lookup model (C31/Model.v). *)
From Coq Require Import QArith List Lia.
From PPV Require Import Base.QN C31.Model.
Import ListNotations.
Open Scope Q_scope.

(* dict(zip()).get = last match *)
Section Dict.
Context {K V : Type} (eqb : K -> K -> bool).
Definition dstep (k : K) (acc : option V) (kv : K * V) : option V :=
  if eqb (fst kv) k then Some (snd kv) else acc.

Lemma fold_dstep_acc k (l : list (K * V)) (acc : option V) :
  fold_left (dstep k) l acc =
  match fold_left (dstep k) l None with Some v => Some v | None => acc end.
Proof.
  revert acc. induction l as [|kv l IH]; intros acc; cbn [fold_left]; [reflexivity|].
  rewrite (IH (dstep k acc kv)), (IH (dstep k None kv)).
  destruct (fold_left (dstep k) l None); [reflexivity|].
  unfold dstep. destruct (eqb (fst kv) k); reflexivity.
Qed.

Lemma dict_get_cons k (kv : K * V) (l : list (K * V)) :
  dict_get eqb k (kv :: l) =
  match dict_get eqb k l with
  | Some v => Some v
  | None => if eqb (fst kv) k then Some (snd kv) else None
  end.
Proof.
  unfold dict_get. cbn [fold_left]. fold (dstep k).
  change (fold_left (dstep k) l (dstep k None kv) =
          match fold_left (dstep k) l None with Some v => Some v | None => dstep k None kv end).
  apply fold_dstep_acc.
Qed.

(* the result is the value of some pair whose key equals k *)
Lemma dict_get_some_in k (l : list (K * V)) (v : V) :
  dict_get eqb k l = Some v -> exists k', In (k', v) l /\ eqb k' k = true.
Proof.
  induction l as [|kv l IH]; [discriminate|].
  rewrite dict_get_cons. destruct (dict_get eqb k l) eqn:E.
  - intros H. injection H as <-. destruct (IH eq_refl) as (k' & Hin & Hk). exists k'. split; [right; exact Hin | exact Hk].
  - destruct (eqb (fst kv) k) eqn:Ek; [|discriminate].
    intros H. injection H as <-. exists (fst kv). split; [left; destruct kv; reflexivity | exact Ek].
Qed.

Lemma dict_get_none k (l : list (K * V)) :
  dict_get eqb k l = None -> forall k' v, In (k', v) l -> eqb k' k = false.
Proof.
  induction l as [|kv l IH]; intros H k' v Hin; [inversion Hin|].
  rewrite dict_get_cons in H. destruct (dict_get eqb k l) eqn:E; [discriminate|].
  destruct (eqb (fst kv) k) eqn:Ek; [discriminate|].
  destruct Hin as [->|Hin]; [exact Ek|].
  exact (IH eq_refl k' v Hin).
Qed.

Lemma dict_get_in_some k k' (l : list (K * V)) (v : V) :
  In (k', v) l -> eqb k' k = true -> exists w, dict_get eqb k l = Some w.
Proof.
  intros Hin Hk. destruct (dict_get eqb k l) eqn:E; [eexists; reflexivity|].
  exfalso. rewrite (dict_get_none k l E k' v Hin) in Hk. discriminate.
Qed.
End Dict.

Lemma in_merged tab flt r :
  In r (merged tab flt) <-> In r tab /\ exists t, In t flt /\ key_match r t = true.
Proof.
  unfold merged. rewrite in_flat_map. split.
  - intros (r0 & Hr0 & Hin). apply in_map_iff in Hin. destruct Hin as (t & <- & Ht).
    apply filter_In in Ht. split; [exact Hr0|]. exists t. exact Ht.
  - intros (Hr & t & Ht & Hk). exists r. split; [exact Hr|].
    apply in_map_iff. exists t. split; [reflexivity|]. apply filter_In. split; assumption.
Qed.

Lemma id_is_true k o : id_is k o = true <-> o = Some k.
Proof.
  unfold id_is. destruct o as [i|]; split; intros H; try discriminate.
  - apply Z.eqb_eq in H. subst. reflexivity.
  - injection H as ->. apply Z.eqb_refl.
Qed.

Lemma key_match_true r t :
  key_match r t = true <-> f_mask t = true /\ f_id t = Some (c_id r) /\ c_step r == f_pos t.
Proof.
  unfold key_match. rewrite !andb_true_iff, id_is_true, qeqb_eq. tauto.
Qed.

Lemma forallb2_spec {A} (f : A -> A -> bool) l :
  forallb (fun a => forallb (fun b => f a b) l) l = true -> forall a b, In a l -> In b l -> f a b = true.
Proof.
  intros H a b Ha Hb. rewrite forallb_forall in H. specialize (H a Ha).
  rewrite forallb_forall in H. exact (H b Hb).
Qed.

Lemma G31_spec flt : G31 flt = true ->
  forall a b k, In a flt -> In b flt -> f_mask a = true -> f_mask b = true ->
  f_id a = Some k -> f_id b = Some k -> f_pos a == f_pos b.
Proof.
  intros H a b k Ha Hb Ma Mb Ia Ib.
  pose proof (forallb2_spec _ _ H a b Ha Hb) as E. cbn beta in E.
  unfold same_id in E. rewrite Ma, Mb, Ia, Ib, Z.eqb_refl in E. cbn in E.
  apply qeqb_eq. exact E.
Qed.

Lemma tab_consistent_spec col tab : tab_consistent col tab = true ->
  forall r1 r2, In r1 tab -> In r2 tab -> c_id r1 = c_id r2 -> c_step r1 == c_step r2 -> col r1 == col r2.
Proof.
  intros H r1 r2 H1 H2 Hid Hst.
  pose proof (forallb2_spec _ _ H r1 r2 H1 H2) as E. cbn beta in E.
  assert (K : Z.eqb (c_id r1) (c_id r2) && qeqb (c_step r1) (c_step r2) = true).
  { apply andb_true_iff. split; [apply Z.eqb_eq; exact Hid | apply qeqb_eq; exact Hst]. }
  rewrite K in E. cbn in E. apply qeqb_eq. exact E.
Qed.

Lemma own_row_some tab k p r : own_row tab k p = Some r -> In r tab /\ c_id r = k /\ c_step r == p.
Proof.
  unfold own_row. intros H. apply find_some in H. destruct H as [Hin Hb].
  apply andb_true_iff in Hb. destruct Hb as [H1 H2].
  apply Z.eqb_eq in H1. apply qeqb_eq in H2. auto.
Qed.
Lemma own_row_none tab k p : own_row tab k p = None -> forall r, In r tab -> c_id r = k -> ~ c_step r == p.
Proof.
  unfold own_row. intros H r Hin Hid Hst.
  pose proof (find_none _ _ H r Hin) as E. cbn beta in E.
  rewrite Hid, Z.eqb_refl in E. cbn in E.
  apply qeqb_eq in Hst. rewrite Hst in E. discriminate.
Qed.

(* every merged row with the transformer's id sits at the transformer's own step when G31 holds *)
Lemma merged_rows_at_own_step tab flt t k :
  G31 flt = true -> In t flt -> f_mask t = true -> f_id t = Some k ->
  forall r', In r' (merged tab flt) -> c_id r' = k -> In r' tab /\ c_step r' == f_pos t.
Proof.
  intros HG Ht Mt It r' Hr' Hid.
  apply in_merged in Hr'. destruct Hr' as (Hin & t' & Ht' & Hk).
  apply key_match_true in Hk. destruct Hk as (Mt' & It' & Hst).
  split; [exact Hin|]. rewrite Hid in It'.
  rewrite Hst. symmetry. exact (G31_spec flt HG t t' k Ht Ht' Mt Mt' It It').
Qed.

Lemma key2_eqb_true a b : key2_eqb a b = true <-> fst a = fst b /\ snd a == snd b.
Proof. unfold key2_eqb. rewrite andb_true_iff, Z.eqb_eq, qeqb_eq. tauto. Qed.

(* mapping = dict(zip(keys, col)) over the merged rows: when the transformer's own row carries a key equal to kk,
   mapping.get(kk) is the value of some merged row with a key equal to kk *)
Lemma dict_get_own_row {K} (eqb : K -> K -> bool) (key : crow -> K) (col : crow -> Q) tab flt t k kk r :
  In t flt -> f_mask t = true -> f_id t = Some k ->
  own_row tab k (f_pos t) = Some r -> eqb (key r) kk = true ->
  exists r', dict_get eqb kk (map (fun r0 => (key r0, col r0)) (merged tab flt)) = Some (col r') /\
             In r' (merged tab flt) /\ eqb (key r') kk = true.
Proof.
  intros Ht Mt It Hown Hk.
  apply own_row_some in Hown. destruct Hown as (Hr & Hid & Hst).
  assert (Hm : In r (merged tab flt)).
  { apply in_merged. split; [exact Hr|]. exists t. split; [exact Ht|].
    apply key_match_true. rewrite Hid. auto. }
  assert (Hin : In (key r, col r) (map (fun r0 => (key r0, col r0)) (merged tab flt))).
  { apply in_map_iff. exists r. auto. }
  destruct (dict_get_in_some eqb _ _ _ _ Hin Hk) as [w Hw]. rewrite Hw.
  apply dict_get_some_in in Hw. destruct Hw as (k' & Hw & Hk').
  apply in_map_iff in Hw. destruct Hw as (r' & E & Hr').
  injection E as <- <-. exists r'. auto.
Qed.

(* the dict keyed by (id, step) returns the own row's value, whatever the other transformers of the group are *)
Lemma lookup_own_row col tab flt t k r :
  tab_consistent col tab = true ->
  In t flt -> f_mask t = true -> f_id t = Some k ->
  own_row tab k (f_pos t) = Some r ->
  lookup col tab flt k (f_pos t) == col r.
Proof.
  intros HT Ht Mt It Hown.
  destruct (own_row_some _ _ _ _ Hown) as (Hr & Hid & Hst).
  destruct (dict_get_own_row key2_eqb (fun r0 => (c_id r0, c_step r0)) col tab flt t k (k, f_pos t) r Ht Mt It Hown)
    as (r' & Hw & Hr' & Hk'); [apply key2_eqb_true; cbn; auto|].
  unfold lookup. rewrite Hw.
  apply key2_eqb_true in Hk'. cbn in Hk'. destruct Hk' as [Hid' Hst'].
  apply in_merged in Hr'. destruct Hr' as [Hin' _].
  apply (tab_consistent_spec col tab HT r' r Hin' Hr); [congruence|].
  rewrite Hst', Hst. reflexivity.
Qed.

(* lookup_old (dict keyed by the id only): without G31 the last merged row of the id wins, whatever its step *)
Definition wit_tab : list crow :=
  [ {| c_id := 0; c_step := -2 # 1; c_ratio := 95 # 100; c_angle := 0; c_vk := [11; 4 # 10] |};
    {| c_id := 0; c_step := 2 # 1;  c_ratio := 105 # 100; c_angle := 0; c_vk := [13; 6 # 10] |} ].
Definition wit_flt : list frow :=
  [ {| f_id := Some 0%Z; f_pos := -2 # 1; f_mask := true |};
    {| f_id := Some 0%Z; f_pos := 2 # 1; f_mask := true |} ].

Definition trow_eqv (a b : trow) : Prop :=
  t_dep a = t_dep b /\ t_id a = t_id b /\ t_pos a = t_pos b /\ t_side a = t_side b /\ t_star a = t_star b /\
  t_vnh a == t_vnh b /\ t_vnl a == t_vnl b /\ t_shift a == t_shift b.

Lemma in_frows s rows t : In t rows ->
  In {| f_id := t_id t; f_pos := t_pos t; f_mask := t_dep t && side_eqb (t_side t) s |} (frows s rows).
Proof. intros H. unfold frows. apply in_map_iff. exists t. auto. Qed.

Lemma apply_side_other is3w s tab rows t :
  t_dep t && side_eqb (t_side t) s = false -> apply_side is3w s tab rows t = t.
Proof. intros H. unfold apply_side. rewrite H. reflexivity. Qed.

Lemma apply_side_fields is3w s tab rows t :
  let t' := apply_side is3w s tab rows t in
  t_dep t' = t_dep t /\ t_id t' = t_id t /\ t_pos t' = t_pos t /\ t_side t' = t_side t /\ t_star t' = t_star t.
Proof.
  cbn zeta. unfold apply_side. destruct (t_dep t && side_eqb (t_side t) s); [|repeat split; reflexivity].
  destruct (t_id t) eqn:E; cbn; rewrite ?E; repeat split; reflexivity.
Qed.

(* the pass of the row's own tap side *)
Lemma apply_side_own is3w s tab rows t k r :
  tab_consistent c_ratio tab = true -> tab_consistent c_angle tab = true ->
  In t rows -> t_dep t = true -> t_side t = s -> s <> NoSide -> t_id t = Some k -> own_row tab k (t_pos t) = Some r ->
  trow_eqv (apply_side is3w s tab rows t) (explicit_step is3w (c_ratio r) (c_angle r) t).
Proof.
  intros TR TA Hin Hdep Es Ns Hid Hown. pose proof (in_frows s rows t Hin) as Hf.
  assert (Ss : side_eqb s s = true) by (destruct s; [reflexivity|reflexivity|contradiction]).
  unfold apply_side, explicit_step. rewrite Hdep, Es, Ss in *. rewrite Hid. cbn [andb] in *.
  pose proof (lookup_own_row c_ratio tab _ _ k r TR Hf eq_refl Hid Hown) as E1.
  pose proof (lookup_own_row c_angle tab _ _ k r TA Hf eq_refl Hid Hown) as E2. cbn [f_pos] in E1, E2.
  destruct s; [ | |contradiction].
  (* HV and LV alike: both sides copy the discrete fields and compute the rational ones by the same expression, one from
     the looked-up ratio and angle, the other from the own row's, which E1 and E2 identify *)
  all: unfold trow_eqv; cbn [t_dep t_id t_pos t_side t_star t_vnh t_vnl t_shift]; destruct (is3w && t_star t).
  all: repeat split; try reflexivity.
  all: rewrite ?E1, ?E2; reflexivity.
Qed.

(* a row is masked on at most one side: the pass of the other side leaves it alone *)
Lemma tap_row_eq_explicit is3w tab rows t k r :
  tab_consistent c_ratio tab = true -> tab_consistent c_angle tab = true ->
  In t rows -> t_dep t = true -> t_id t = Some k -> own_row tab k (t_pos t) = Some r ->
  trow_eqv (apply_side is3w LV tab rows (apply_side is3w HV tab rows t))
           (explicit_step is3w (c_ratio r) (c_angle r) t).
Proof.
  intros TR TA Hin Hdep Hid Hown.
  destruct (t_side t) eqn:Es.
  - rewrite (apply_side_other is3w LV).
    + apply (apply_side_own is3w HV tab rows t k r); auto. discriminate.
    + destruct (apply_side_fields is3w HV tab rows t) as (_ & _ & _ & Hs & _). cbn zeta in Hs. rewrite Hs, Es. apply andb_false_r.
  - rewrite (apply_side_other is3w HV tab rows t) by (rewrite Es; apply andb_false_r).
    apply (apply_side_own is3w LV tab rows t k r); auto. discriminate.
  - rewrite (apply_side_other is3w HV), (apply_side_other is3w LV); try (rewrite Es; apply andb_false_r).
    unfold explicit_step. rewrite Es. unfold trow_eqv. repeat split; reflexivity.
Qed.

Lemma mapi_aux_nth {A B} (f : nat -> A -> B) l i0 j d d' :
  (j < length l)%nat -> nth j (mapi_aux f i0 l) d = f (i0 + j)%nat (nth j l d').
Proof.
  revert i0 j. induction l as [|a l IH]; intros i0 j Hj; [cbn in Hj; lia|].
  destruct j; cbn [mapi_aux nth].
  - rewrite Nat.add_0_r. reflexivity.
  - rewrite IH; [|cbn in Hj; lia]. f_equal. lia.
Qed.

(* G31 is satisfiable with sharing (old partial theorem not vacuous) *)
Definition nv_flt : list frow :=
  [ {| f_id := Some 0%Z; f_pos := 2 # 1; f_mask := true |};
    {| f_id := Some 0%Z; f_pos := 2 # 1; f_mask := true |} ].
