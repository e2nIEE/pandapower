(* C31 — the second tap changer of a table-dependent transformer is never looked up; the composition of both passes
   equals the explicit-values transformer followed by the ordinary second tap changer *)
From Coq Require Import QArith List String.
From PPV Require Import Base.QN C31.Model C31.Proofs C31.ModelLoop.
Import ListNotations.
Open Scope Q_scope.

Lemma nth_error_map3 {A B C D} (f : A -> B -> C -> D) : forall l m n i a b c,
  nth_error l i = Some a -> nth_error m i = Some b -> nth_error n i = Some c ->
  nth_error (map3 f l m n) i = Some (f a b c).
Proof.
  induction l as [|a0 l IH]; intros [|b0 m] [|c0 n] [|i] a b c Ha Hb Hc; cbn in *; try discriminate.
  - now inversion Ha; inversion Hb; inversion Hc.
  - eauto.
Qed.
Lemma nth_error_map2 {A B C} (f : A -> B -> C) : forall l m i a b,
  nth_error l i = Some a -> nth_error m i = Some b -> nth_error (map2 f l m) i = Some (f a b).
Proof.
  induction l as [|a0 l IH]; intros [|b0 m] [|i] a b Ha Hb; cbn in *; try discriminate.
  - now inversion Ha; inversion Hb.
  - eauto.
Qed.
Lemma existsb_map3_retap_false {A} (deps : list A) : forall rows taps,
  existsb t_dep (map3 (fun _ t x => retap false x t) deps rows taps) = false.
Proof. induction deps as [|d deps IH]; intros [|t rows] [|x taps]; cbn; auto. Qed.
Lemma map2_map3 {A B C D E} (g : C -> D -> E) (f : A -> B -> C -> D) : forall (l : list A) (m : list B) (n : list C),
  map2 g n (map3 f l m n) = map3 (fun a b c => g c (f a b c)) l m n.
Proof. induction l as [|a l IH]; intros [|b m] [|c n]; cbn; try reflexivity. now rewrite IH. Qed.

(* the local `view` of tap_pass, under a name *)
Definition view_of (has_dep : bool) (deps : list bool) (rows : list trow) (taps : list tapx) : list trow :=
  map3 (fun d t x => retap (has_dep && d) x t) deps rows taps.

Section OrdProofs.
  Variable ord : tapx -> Q -> Q * Q.

  (* no tap{t}_dependency_table column: ordinary, never looked up *)
  Theorem pass_without_dep_column : forall is3w tab deps rows taps,
    tap_pass ord is3w false tab deps rows taps
    = if existsb (fun dx => ideal_both false (snd dx)) (combine deps taps) then inr "UserWarning"%string
      else inl (map3 (fun (_ : bool) t x => apply_ord ord x (retap false x t)) deps rows taps).
  Proof.
    intros. unfold tap_pass. cbn [andb].
    rewrite (existsb_map3_retap_false deps rows taps). cbn [andb].
    destruct (existsb _ (combine deps taps)); [reflexivity|]. f_equal.
    rewrite map2_map3. reflexivity.
  Qed.
  Lemma tap_pass_nth is3w has_dep tab deps rows taps out i d t x :
    tap_pass ord is3w has_dep tab deps rows taps = inl out ->
    nth_error deps i = Some d -> nth_error rows i = Some t -> nth_error taps i = Some x ->
    let view := view_of has_dep deps rows taps in
    let v := retap (has_dep && d) x t in
    let r := if existsb t_dep view then apply_side is3w LV tab view (apply_side is3w HV tab view v) else v in
    nth_error out i = Some (if t_dep r then r else apply_ord ord x r).
  Proof.
    intros H Hd Ht Hx. cbn zeta. unfold tap_pass in H. fold (view_of has_dep deps rows taps) in H.
    set (view := view_of has_dep deps rows taps) in *.
    destruct (existsb t_dep view && na_error view); [discriminate|].
    destruct (existsb _ (combine deps taps)); [discriminate|]. inversion H; subst out; clear H.
    assert (Hv : nth_error view i = Some (retap (has_dep && d) x t))
      by (unfold view, view_of; apply (nth_error_map3 (fun d t x => retap (has_dep && d) x t) _ _ _ _ _ _ _ Hd Ht Hx)).
    destruct (existsb t_dep view).
    - apply (nth_error_map2 (fun x t => if t_dep t then t else apply_ord ord x t) _ _ _ _ _ Hx).
      unfold tap_table_step. rewrite !nth_error_map, Hv. reflexivity.
    - apply (nth_error_map2 (fun x t => if t_dep t then t else apply_ord ord x t) _ _ _ _ _ Hx Hv).
  Qed.

  (* an ordinary rule that respects == respects trow_eqv *)
  Hypothesis ord_proper : forall x u u', u == u' -> fst (ord x u) == fst (ord x u') /\ snd (ord x u) == snd (ord x u').

  Lemma apply_ord_eqv x a b : trow_eqv a b -> trow_eqv (apply_ord ord x a) (apply_ord ord x b).
  Proof.
    intros (E1 & E2 & E3 & E4 & E5 & Eh & El & Es). unfold apply_ord.
    destruct (ord_proper x _ _ Eh) as [Fh Sh]. destruct (ord_proper x _ _ El) as [Fl Sl].
    assert (B : trow_eqv a b) by (repeat split; assumption).
    (* no tap changer, or none on a side: the row comes back as it is *)
    destruct (x_kind x); [exact B | |]; (destruct (x_side x); [ | | exact B]).
    (* otherwise the voltage of the tapped side becomes fst (ord x vn) (Fh, Fl), the other fields are copied ... *)
    all: unfold trow_eqv; cbn [t_dep t_id t_pos t_side t_star t_vnh t_vnl t_shift]; repeat split; try assumption.
    (* ... and the shift grows by snd (ord x vn) (Sh, Sl) *)
    all: rewrite Es, ?Sh, ?Sl; reflexivity.
  Qed.
  Lemma retap_eqv d x a b : trow_eqv a b -> trow_eqv (retap d x a) (retap d x b).
  Proof. intros (E1 & E2 & E3 & E4 & E5 & Eh & El & Es). unfold trow_eqv, retap; cbn. repeat split; assumption. Qed.

End OrdProofs.

(* the rational instance respects == *)
Lemma qabs2_proper a b : a == b -> qabs2 a == qabs2 b.
Proof.
  intros E. unfold qabs2.
  destruct (qltb a 0) eqn:A, (qltb b 0) eqn:B; try (now rewrite E).
  - apply qltb_lt in A. apply qltb_ge in B. rewrite E in A. exfalso. apply (Qlt_irrefl 0). eapply Qle_lt_trans; eauto.
  - apply qltb_ge in A. apply qltb_lt in B. rewrite E in A. exfalso. apply (Qlt_irrefl 0). eapply Qle_lt_trans; eauto.
Qed.
(* non-vacuity: two transformers sharing id 0 at taps -2 / +2,
   the first with a second (ordinary Ratio, 2.5 % per step, position +2, hv side) tap changer *)
Definition lp_rows : list trow :=
  [ {| t_dep := true; t_id := Some 0%Z; t_pos := 0; t_side := NoSide; t_star := false; t_vnh := 110; t_vnl := 20; t_shift := 0 |};
    {| t_dep := true; t_id := Some 0%Z; t_pos := 0; t_side := NoSide; t_star := false; t_vnh := 110; t_vnl := 20; t_shift := 0 |} ].
Definition lp_taps1 : list tapx :=
  [ {| x_pos := (-2 # 1); x_side := HV; x_kind := KNone; x_diff := 0; x_pct := 0; x_deg := 0 |};
    {| x_pos := (2 # 1); x_side := HV; x_kind := KNone; x_diff := 0; x_pct := 0; x_deg := 0 |} ].
Definition lp_taps2 : list tapx :=
  [ {| x_pos := (2 # 1); x_side := HV; x_kind := KComplex; x_diff := (2 # 1); x_pct := (5 # 2); x_deg := 0 |};
    {| x_pos := 0; x_side := NoSide; x_kind := KNone; x_diff := 0; x_pct := 0; x_deg := 0 |} ].
Example loop_nonvacuous :
  tab_consistent c_ratio wit_tab = true /\ tab_consistent c_angle wit_tab = true /\
  exists o1 o2, tap_loop ord_rat false true true false wit_tab [true; true] lp_rows lp_taps1 lp_taps2 = inl [o1; o2] /\
    (* 110 * 0.95 * 1.05 and 110 * 1.05: own rows, the second tap changer on top, nothing looked up at step +2 for row 1 *)
    t_vnh o1 == 110 * (95 # 100) * (105 # 100) /\ t_vnh o2 == 110 * (105 # 100).
Proof.
  split; [vm_compute; reflexivity|]. split; [vm_compute; reflexivity|].
  eexists. eexists. split; [vm_compute; reflexivity|]. split; vm_compute; reflexivity.
Qed.
