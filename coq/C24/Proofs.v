(* C24 — the batch call of a descriptor pair against the sequence of single calls (C24/Model.v).  The index allocation
   of a call sequence and the duplicate-cost check are proved in the general form of C24/ModelX.v (gfold_ok: any
   acceptance test; cost_fold_rejects_l: et / power type per element); those of Model.v are instances. *)
From Coq Require Import QArith List String Lia.
From PPV Require Import Base.QN Base.Lists C24.Model C24.ModelX.
Import ListNotations.
Open Scope string_scope.
Open Scope list_scope.

Lemma existsb_orb {A} (f g : A -> bool) l : existsb (fun x => f x || g x) l = existsb f l || existsb g l.
Proof.
  induction l as [|a l IH]; simpl; [reflexivity|]. rewrite IH.
  destruct (f a), (g a), (existsb f l), (existsb g l); reflexivity.
Qed.

Lemma cell_eqb_eq a b : cell_eqb a b = true -> a = b.
Proof.
  destruct a as [[n d]| |x|x], b as [[n' d']| |y|y]; simpl; try discriminate; intros H.
  - apply andb_true_iff in H. destruct H as [H1 H2]. apply Z.eqb_eq in H1. apply Pos.eqb_eq in H2. subst. reflexivity.
  - reflexivity.
  - apply Bool.eqb_prop in H. subst. reflexivity.
  - apply String.eqb_eq in H. subst. reflexivity.
Qed.
Lemma cell_eqb_refl x : cell_eqb x x = true.
Proof. destruct x as [[n d]| |b|s]; simpl; [rewrite Z.eqb_refl, Pos.eqb_refl| |destruct b|rewrite String.eqb_refl]; reflexivity. Qed.

Lemma src_eqb_eq s : forall t, src_eqb s t = true -> s = t.
Proof.
  induction s; intros t H; destruct t; simpl in H; try discriminate;
    repeat match goal with
           | H : _ && _ = true |- _ => apply andb_true_iff in H; destruct H
           | H : String.eqb _ _ = true |- _ => apply String.eqb_eq in H; subst
           | H : cell_eqb _ _ = true |- _ => apply cell_eqb_eq in H; subst
           end; try reflexivity.
  f_equal. apply IHs. assumption.
Qed.
Lemma src_eqb_refl x : src_eqb x x = true.
Proof. induction x; simpl; rewrite ?String.eqb_refl, ?cell_eqb_refl, ?IHx; reflexivity. Qed.

Lemma isnanc_eq v : isnanc v = true -> v = VNaN.
Proof. destruct v; simpl; congruence. Qed.

Lemma pure_ex s : pure s = true -> forall ex ex' std a, ev ex std a s = ev ex' std a s.
Proof.
  induction s as [n d|p|p|p d|c| |n fb IH|p]; simpl; intros Hp ex ex' std a; try reflexivity; try discriminate.
  destruct (isnanc (getarg a n VNaN)); [apply IH; exact Hp | reflexivity].
Qed.

Lemma norm_pure std s : pure s = true -> pure (norm std s) = true.
Proof.
  induction s as [n d|p|p|p d|c| |n fb IH|p]; simpl; intros Hp; try reflexivity; try discriminate.
  - destruct (lookup std p); reflexivity.
  - destruct (lookup std p); reflexivity.
  - destruct c; reflexivity.
  - specialize (IH Hp). destruct (norm std fb); simpl in *; try reflexivity; try exact IH.
    destruct c; reflexivity.
Qed.

Lemma norm_sound std s : forall ex a, valof (ev ex std a (norm std s)) = valof (ev ex std a s).
Proof.
  induction s as [n d|p|p|p d|c| |n fb IH|p]; intros ex a; simpl; try reflexivity.
  - destruct (lookup std p); reflexivity.
  - destruct (lookup std p); reflexivity.
  - destruct c; reflexivity.
  - specialize (IH ex a).
    destruct (isnanc (getarg a n VNaN)) eqn:E.
    + rewrite <- IH. destruct (norm std fb) as [n' d'|p'|p'|p' d'|c'| |n' fb'|p']; simpl; rewrite ?E; try reflexivity.
      * destruct c'; simpl; rewrite ?E; try reflexivity.
        apply isnanc_eq in E. rewrite E. reflexivity.
      * apply isnanc_eq in E. rewrite E. reflexivity.
    + destruct (norm std fb) as [n' d'|p'|p'|p' d'|c'| |n' fb'|p']; simpl; rewrite ?E; try reflexivity.
      destruct c'; simpl; rewrite ?E; reflexivity.
Qed.

(* two pure sources with the same normal form give the same value for every argument vector *)
Lemma man_equiv std s t : pure t = true -> src_eqb (norm std s) (norm std t) = true ->
  forall ex ex' a, valof (ev ex std a s) = valof (ev ex' std a t).
Proof.
  intros Ht He ex ex' a. apply src_eqb_eq in He.
  rewrite <- (norm_sound std s), <- (norm_sound std t), He.
  rewrite (pure_ex _ (norm_pure std t Ht) ex ex'). reflexivity.
Qed.

(* what the new rows of a column contain, given whether the column existed *)
Definition nonnan (v : cell) : bool := negb (isnanc v).
Definition fillf (d v : cell) : cell := if isnanc v then d else v.
Definition newspec (sp : colspec) (ex : bool) (std : amap) (l : list amap) : list cell :=
  match sp with
  | Man s => map (fun a => valof (ev ex std a s)) l
  | Opt n p d _ => let vs := map (fun a => getarg a n p) l in
                   if ex || existsb nonnan vs then map (fillf d) vs else map (fun _ => VNaN) vs
  end.
Definition pure_spec (sp : colspec) : Prop := match sp with Man s => pure s = true | _ => True end.

Lemma skipn_app_exact {A} (x y : list A) n : List.length x = n -> skipn n (x ++ y) = y.
Proof. intros <-. induction x; simpl; auto. Qed.

Lemma fold_man s std l : pure s = true -> forall oc,
  oc_vals (fold_col (Man s) std l oc) = oc_vals oc ++ map (fun a => valof (ev (oc_ex oc) std a s)) l.
Proof.
  intros Hp. induction l as [|a l IH]; intros oc; simpl.
  - symmetry. apply app_nil_r.
  - rewrite IH. simpl. rewrite <- app_assoc. simpl. do 2 f_equal.
    apply map_ext. intros b. rewrite (pure_ex s Hp _ (oc_ex oc)). reflexivity.
Qed.

Lemma fold_opt_true n p d f std l : forall vals,
  fold_col (Opt n p d f) std l {| oc_ex := true; oc_vals := vals |} =
  {| oc_ex := true; oc_vals := vals ++ map (fillf d) (map (fun a => getarg a n p) l) |}.
Proof.
  induction l as [|a l IH]; intros vals; simpl.
  - rewrite app_nil_r. reflexivity.
  - unfold fillf at 1. destruct (isnanc (getarg a n p)); simpl; rewrite IH, <- app_assoc; reflexivity.
Qed.

Lemma fold_opt_false n p d f std l : forall vals,
  fold_col (Opt n p d f) std l {| oc_ex := false; oc_vals := vals |} =
  let vs := map (fun a => getarg a n p) l in
  if existsb nonnan vs then {| oc_ex := true; oc_vals := map (fun _ => d) vals ++ map (fillf d) vs |}
  else {| oc_ex := false; oc_vals := vals ++ map (fun _ => VNaN) vs |}.
Proof.
  induction l as [|a l IH]; intros vals; simpl.
  - rewrite app_nil_r. reflexivity.
  - unfold nonnan at 1, fillf at 1. destruct (isnanc (getarg a n p)) eqn:E; simpl.
    + rewrite IH. simpl. destruct (existsb nonnan (map (fun a0 => getarg a0 n p) l)).
      * rewrite map_app, <- app_assoc. reflexivity.
      * rewrite <- app_assoc. reflexivity.
    + rewrite fold_opt_true, <- app_assoc. reflexivity.
Qed.

Lemma fold_new sp std l oc : pure_spec sp -> new_vals oc (fold_col sp std l oc) = newspec sp (oc_ex oc) std l.
Proof.
  intros Hp. destruct sp as [s|n p d f]; unfold new_vals.
  - rewrite (fold_man s std l Hp). apply skipn_app_exact. reflexivity.
  - destruct oc as [[|] vals]; simpl oc_vals; simpl oc_ex.
    + rewrite fold_opt_true. apply skipn_app_exact. reflexivity.
    + rewrite fold_opt_false. simpl.
      destruct (existsb nonnan (map (fun a => getarg a n p) l)); simpl; apply skipn_app_exact;
        [apply map_length | reflexivity].
Qed.

Lemma allnan_fill d vs : existsb nonnan vs = false -> map (fillf d) vs = map (fun _ => d) vs.
Proof.
  induction vs as [|v vs IH]; simpl; [reflexivity|]. intros H. apply orb_false_iff in H. destruct H as [H1 H2].
  rewrite (IH H2). f_equal. unfold nonnan in H1. apply negb_false_iff in H1. unfold fillf. rewrite H1. reflexivity.
Qed.

Lemma batch_new sp std l oc : new_vals oc (batch_col sp std l oc) = newspec sp (oc_ex oc) std l.
Proof.
  destruct sp as [s|n p d f]; unfold new_vals; simpl.
  - apply skipn_app_exact. reflexivity.
  - fold nonnan. destruct (existsb nonnan (map (fun a => getarg a n p) l)) eqn:E.
    + rewrite orb_true_r. apply skipn_app_exact.
      destruct (oc_ex oc); [reflexivity|]. destruct f; [apply map_length | reflexivity].
    + rewrite orb_false_r. destruct (oc_ex oc); simpl; [rewrite (allnan_fill d _ E)|]; apply skipn_app_exact; reflexivity.
Qed.

(* column specifications that denote the same new rows: the batch call creates what the single calls create *)
Lemma agree_new sp_s sp_b std l oc :
  pure_spec sp_s -> newspec sp_s (oc_ex oc) std l = newspec sp_b (oc_ex oc) std l ->
  new_vals oc (batch_col sp_b std l oc) = new_vals oc (fold_col sp_s std l oc).
Proof. intros Hp He. rewrite batch_new, fold_new by exact Hp. symmetry. exact He. Qed.

Lemma fillf_nan_id vs : map (fillf VNaN) vs = vs.
Proof.
  induction vs as [|v vs IH]; simpl; [reflexivity|]. rewrite IH. f_equal.
  unfold fillf. destruct (isnanc v) eqn:E; [symmetry; apply isnanc_eq; exact E | reflexivity].
Qed.
(* an optional column without default value holds the arguments as they are *)
Lemma opt_nan_spec n p f ex std l : newspec (Opt n p VNaN f) ex std l = map (fun a => getarg a n p) l.
Proof.
  simpl. destruct (ex || existsb nonnan (map (fun a => getarg a n p) l)) eqn:E; [apply fillf_nan_id|].
  apply orb_false_iff in E. destruct E as [_ E]. rewrite <- (allnan_fill VNaN _ E). apply fillf_nan_id.
Qed.

(* compatible column descriptions denote the same new rows *)
Lemma compat_newspec std ds db c : col_compat std ds db c = true ->
  pure_spec (spec_of ds c) /\ forall ex l, newspec (spec_of ds c) ex std l = newspec (spec_of db c) ex std l.
Proof.
  unfold col_compat. destruct (spec_of ds c) as [s|a p d f], (spec_of db c) as [t|b q e g]; intros H.
  - apply andb_true_iff in H. destruct H as [H H3]. apply andb_true_iff in H. destruct H as [H1 H2].
    split; [exact H1|]. intros ex l. apply map_ext. intros x. apply man_equiv; assumption.
  - destruct e; try discriminate. apply andb_true_iff in H. destruct H as [H1 H2]. apply src_eqb_eq in H2.
    split; [exact H1|]. intros ex l. rewrite opt_nan_spec.
    apply map_ext. intros x. rewrite <- (norm_sound std s), H2. reflexivity.
  - destruct d; try discriminate. apply andb_true_iff in H. destruct H as [H1 H2]. apply src_eqb_eq in H2.
    split; [exact I|]. intros ex l. rewrite opt_nan_spec.
    apply map_ext. intros x. rewrite <- (norm_sound std t), <- H2. reflexivity.
  - assert (H' : String.eqb a b && cell_eqb p q && cell_eqb d e = true) by (destruct d; exact H).
    clear H. apply andb_true_iff in H'. destruct H' as [H H3]. apply andb_true_iff in H. destruct H as [H1 H2].
    apply String.eqb_eq in H1. apply cell_eqb_eq in H2. apply cell_eqb_eq in H3. subst. split; [exact I | reflexivity].
Qed.

(* on a compatible column the batch call creates the rows the sequence of single calls creates *)
Theorem batch_eq_fold_col std ds db c : col_compat std ds db c = true ->
  forall l oc, new_vals oc (batch_col (spec_of db c) std l oc) = new_vals oc (fold_col (spec_of ds c) std l oc).
Proof. intros H l oc. destruct (compat_newspec std ds db c H) as [Hp He]. apply agree_new; [exact Hp | apply He]. Qed.

Lemma G24_col std ds db : G24 std ds db = true -> forall c, existsb (String.eqb c) flags = false -> col_compat std ds db c = true.
Proof.
  unfold G24. intros H c. rewrite forallb_forall in H.
  intros Hfl.
  destruct (in_dec string_dec c (all_cols ds db)) as [Hin|Hn]; [apply H; exact Hin|].
  (* a column mentioned by neither descriptor: both sides Man SAbsent *)
  assert (Hn' : ~ In c (map fst (d_cols ds) ++ map fst (d_cols db))).
  { intros X. apply Hn. unfold all_cols. apply filter_In. split; [exact X|]. rewrite Hfl. reflexivity. }
  clear Hn. rename Hn' into Hn. unfold col_compat, spec_of.
  assert (A : forall l, ~ In c (map fst l) -> find_spec l c = Man SAbsent).
  { induction l as [|[k sp] l IH]; simpl; intros Hc; [reflexivity|].
    destruct (String.eqb k c) eqn:E; [apply String.eqb_eq in E; subst; exfalso; apply Hc; left; reflexivity|].
    apply IH. intros X. apply Hc. right. exact X. }
  rewrite !A; [reflexivity| |]; intros X; apply Hn; apply in_or_app; [right|left]; exact X.
Qed.

(* the same pure entry in both descriptors is compatible whatever the type holds; the remaining columns of a pair are
   decided by computation when their entries do not read the type *)
Lemma compat_cols std ds db cols :
  forallb (fun c => match spec_of ds c, spec_of db c with Man s, Man t => pure s && src_eqb s t | _, _ => false end
                    || col_compat std ds db c) cols = true ->
  forall c, In c cols -> col_compat std ds db c = true.
Proof.
  intros H c Hc. rewrite forallb_forall in H. specialize (H c Hc). apply orb_true_iff in H. destruct H as [H|H]; [|exact H].
  unfold col_compat. destruct (spec_of ds c) as [s|]; [|discriminate]. destruct (spec_of db c) as [t|]; [|discriminate].
  apply andb_true_iff in H. destruct H as [Hp He]. apply src_eqb_eq in He. subst t. rewrite Hp. apply src_eqb_refl.
Qed.

Lemma tindex_tappend t k i k' : tindex (tappend t k i) k' = if String.eqb k' k then tindex t k' ++ [i] else tindex t k'.
Proof.
  induction t as [|[k0 l] t IH]; simpl.
  - rewrite String.eqb_sym. destruct (String.eqb k' k); reflexivity.
  - destruct (String.eqb k0 k) eqn:E; simpl.
    + apply String.eqb_eq in E. subst k0. rewrite String.eqb_sym. destruct (String.eqb k' k); reflexivity.
    + rewrite IH. destruct (String.eqb k0 k') eqn:E'; [|reflexivity]. apply String.eqb_eq in E'. subst k0. rewrite E. reflexivity.
Qed.

Lemma elem_ok_tappend d t std a i :
  forallb (fun n => negb (String.eqb (snd n) (d_table d))) (d_nodes d) = true ->
  elem_ok d (tappend t (d_table d) i) std a = elem_ok d t std a.
Proof.
  intros H. unfold elem_ok. f_equal. f_equal.
  induction (d_nodes d) as [|n ns IH]; simpl in *; [reflexivity|].
  apply andb_true_iff in H. destruct H as [H1 H2]. rewrite (IH H2). f_equal.
  apply negb_true_iff in H1. unfold node_ok. rewrite tindex_tappend, H1. reflexivity.
Qed.

Lemma fold_max_snoc t : forall h x, fold_left Z.max (t ++ [x]) h = Z.max (fold_left Z.max t h) x.
Proof. induction t; simpl; intros; [reflexivity | apply IHt]. Qed.
Lemma free_id_snoc l : free_id (l ++ [free_id l]) = (free_id l + 1)%Z.
Proof.
  destruct l as [|h t]; simpl; [reflexivity|].
  rewrite fold_max_snoc. lia.
Qed.

(* a sequence of calls whose acceptance test [ok] does not look at the index they extend *)
Section Gen.
  Context {A : Type}.
  Variable ok : A -> bool.

  Lemma gfold_ok_none l : forall idx,
    gfold_ok ok idx None l = if forallb ok l then Some (arange (free_id idx) (List.length l)) else None.
  Proof.
    induction l as [|a l IH]; intros idx; simpl; [reflexivity|].
    destruct (ok a); simpl; [|reflexivity].
    rewrite IH, free_id_snoc. destruct (forallb ok l); reflexivity.
  Qed.

  Lemma gfold_ok_some l : forall idx li, List.length li = List.length l ->
    gfold_ok ok idx (Some li) l =
    if forallb ok l && (nodupz li && negb (existsb (fun i => memz i idx) li)) then Some li else None.
  Proof.
    induction l as [|a l IH]; intros idx li Hlen; destruct li as [|i r]; simpl in Hlen; try discriminate.
    - reflexivity.
    - simpl. destruct (ok a); simpl; [|reflexivity].
      destruct (memz i idx) eqn:M; simpl.
      + rewrite !andb_false_r. reflexivity.
      + rewrite IH by lia.
        assert (Y : existsb (fun j => memz j (idx ++ [i])) r = existsb (fun j => memz j idx) r || memz i r).
        { unfold memz at 3. rewrite <- existsb_orb. apply existsb_ext_in. intros j _.
          unfold memz. rewrite existsb_app. simpl. rewrite orb_false_r, Z.eqb_sym. reflexivity. }
        rewrite Y.
        destruct (forallb ok l), (nodupz r), (memz i r), (existsb (fun j => memz j idx) r); reflexivity.
  Qed.

  (* the batch call rejects exactly the inputs some call of the sequence rejects, and otherwise returns the same indices *)
  Theorem gbatch_eq_gfold okall : (forall l, okall l = forallb ok l) ->
    forall idx idxs l, (match idxs with Some li => List.length li = List.length l | None => True end) ->
    gbatch_ok okall idx idxs l = gfold_ok ok idx idxs l.
  Proof.
    intros H idx idxs l Hlen. unfold gbatch_ok. rewrite H. destruct idxs as [li|].
    - rewrite (gfold_ok_some l idx li Hlen). destruct (forallb ok l); reflexivity.
    - rewrite gfold_ok_none. reflexivity.
  Qed.
End Gen.

(* the single calls of a descriptor that consults the index of its own table and checks nodes of other tables only *)
Lemma fold_ok_gfold d std ok :
  d_idxtab d = d_table d -> forallb (fun n => negb (String.eqb (snd n) (d_table d))) (d_nodes d) = true ->
  forall l t idxs, (forall a, elem_ok d t std a = ok a) ->
  fold_ok d t std idxs l = gfold_ok ok (tindex t (d_table d)) idxs l.
Proof.
  intros Hidx Hnodes. induction l as [|a l IH]; intros t idxs Hok; [reflexivity|].
  assert (Hstep : forall i rest, fold_ok d (tappend t (d_table d) i) std rest l =
                                 gfold_ok ok (tindex t (d_table d) ++ [i]) rest l).
  { intros i rest. rewrite IH, tindex_tappend, String.eqb_refl; [reflexivity|].
    intros b. rewrite elem_ok_tappend by exact Hnodes. apply Hok. }
  cbn [fold_ok gfold_ok]. unfold single_ok. rewrite Hidx, Hok.
  destruct idxs as [[|i r]|], (ok a); try reflexivity; try (rewrite Hstep; reflexivity).
  destruct (memz i (tindex t (d_table d))); [reflexivity | rewrite Hstep; reflexivity].
Qed.

Lemma slist_eqb_eq l : forall m, slist_eqb l m = true -> l = m.
Proof.
  induction l as [|a l IH]; intros [|b m] H; simpl in H; try discriminate; [reflexivity|].
  apply andb_true_iff in H. destruct H as [H1 H2]. apply String.eqb_eq in H1. subst. f_equal. apply IH. exact H2.
Qed.
Lemma nodes_eqb_eq l : forall m, nodes_eqb l m = true -> l = m.
Proof.
  induction l as [|[a1 a2] l IH]; intros [|[b1 b2] m] H; simpl in H; try discriminate; [reflexivity|].
  apply andb_true_iff in H. destruct H as [H H3]. apply andb_true_iff in H. destruct H as [H1 H2].
  apply String.eqb_eq in H1. apply String.eqb_eq in H2. subst. f_equal. apply IH. exact H3.
Qed.

Theorem batch_rejects_iff_fold ds db : checks_compat ds db = true ->
  forall t std idxs l, (match idxs with Some li => List.length li = List.length l | None => True end) ->
  batch_ok db t std idxs l = fold_ok ds t std idxs l.
Proof.
  unfold checks_compat. rewrite !andb_true_iff. intros ((((((Ht & Hs) & Hb) & Hn) & Hp) & Hr) & Hnt) t std idxs l Hlen.
  apply String.eqb_eq in Ht, Hs, Hb. apply nodes_eqb_eq in Hn. apply slist_eqb_eq in Hp, Hr.
  rewrite (fold_ok_gfold ds std (elem_ok ds t std) Hs Hnt) by reflexivity.
  rewrite <- (gbatch_eq_gfold _ (forallb (elem_ok ds t std)) (fun _ => eq_refl)) by exact Hlen.
  unfold batch_ok, gbatch_ok, elem_ok, std_ok. rewrite Hb, <- Ht, <- Hn, <- Hp, <- Hr. reflexivity.
Qed.

(* a parameter the type defines is read the same way whether it is required or optional *)
Lemma lookup_some_norm std p : forall v, lookup std p = Some v -> norm std (SStd p) = norm std (SStdOpt p).
Proof. reflexivity. Qed.

(* every column create_transformer3w writes except the boolean bookkeeping flag tap_dependency_table
   (single: _set_value_if_not_nan with default False, batch: plain entry; they differ only for a NaN flag) *)
Definition elec_trafo3w : list string :=
  ["hv_bus"; "mv_bus"; "lv_bus"; "in_service"; "tap_at_star_point"; "sn_hv_mva"; "sn_mv_mva"; "sn_lv_mva"; "vn_hv_kv";
   "vn_mv_kv"; "vn_lv_kv"; "vk_hv_percent"; "vk_mv_percent"; "vk_lv_percent"; "vkr_hv_percent"; "vkr_mv_percent";
   "vkr_lv_percent"; "pfe_kw"; "i0_percent"; "shift_mv_degree"; "shift_lv_degree"; "tap_neutral"; "tap_max"; "tap_min";
   "tap_side"; "tap_step_percent"; "tap_step_degree"; "tap_changer_type"; "tap_pos"; "max_loading_percent";
   "id_characteristic_table"].

(* every column create_line writes except alpha (create_line takes alpha from the type only when the column exists) *)
Definition elec_line : list string :=
  ["from_bus"; "to_bus"; "length_km"; "in_service"; "df"; "parallel"; "r_ohm_per_km"; "x_ohm_per_km"; "c_nf_per_km"; "max_i_ka";
   "g_us_per_km"; "type"; "max_loading_percent"; "r0_ohm_per_km"; "x0_ohm_per_km"; "c0_nf_per_km"; "temperature_degree_celsius"].

(* concrete inputs on which the new rows differ *)
Definition q (n : Z) (d : positive) : cell := VQ (Qmake n d).
Definition std_trafo_w : amap :=
  [("sn_mva", q 25 1); ("vn_hv_kv", q 110 1); ("vn_lv_kv", q 20 1); ("vk_percent", q 12 1); ("vkr_percent", q 1 2);
   ("pfe_kw", q 14 1); ("i0_percent", q 1 16); ("shift_degree", q 150 1); ("tap_side", VS "hv"); ("tap_neutral", q 0 1);
   ("tap_min", q (-9) 1); ("tap_max", q 9 1); ("tap_step_percent", q 3 2)].
Definition args_trafo_w : list amap := [[("hv_bus", q 0 1); ("lv_bus", q 1 1)]].
Definition oc0 : ocol := {| oc_ex := true; oc_vals := [] |}.

Lemma trafo_refuted_cols :
  incompat_cols std_trafo_w d_trafo_s d_trafo_b =
  ["shift_degree"; "tap_neutral"; "tap_max"; "tap_min"; "tap_side"; "tap_step_percent"; "tap_pos"; "shift_degree"; "tap_pos"].
Proof. vm_compute. reflexivity. Qed.

(* a trafo type without tap changer and phase shift: the pair is compatible *)
Definition std_trafo_plain : amap :=
  [("sn_mva", q 25 1); ("vn_hv_kv", q 110 1); ("vn_lv_kv", q 20 1); ("vk_percent", q 12 1); ("vkr_percent", q 1 2);
   ("pfe_kw", q 14 1); ("i0_percent", q 1 16); ("shift_degree", q 0 1); ("vector_group", VS "Dyn5"); ("vk0_percent", q 11 1)].

Definition std_line_w : amap :=
  [("r_ohm_per_km", q 1 8); ("x_ohm_per_km", q 5 16); ("c_nf_per_km", q 210 1); ("max_i_ka", q 7 16);
   ("r0_ohm_per_km", q 1 2); ("x0_ohm_per_km", q 5 4); ("c0_nf_per_km", q 111 1)].
Definition args_line_w : list amap := [[("from_bus", q 0 1); ("to_bus", q 1 1); ("length_km", q 3 2)]].
Definition std_line_plain : amap :=
  [("r_ohm_per_km", q 1 8); ("x_ohm_per_km", q 5 16); ("c_nf_per_km", q 210 1); ("max_i_ka", q 7 16); ("type", VS "cs"); ("q_mm2", q 95 1)].

Lemma cost_exists_snoc (is_poly : bool) poly pwl it x :
  let c := mkcost (i_el it) (i_et it) (i_pt it) in
  let key (y : citem) := if is_poly then None else Some (i_pt y) in
  cost_exists (if is_poly then poly ++ [c] else poly) (if is_poly then pwl else pwl ++ [c]) (i_el x) (i_et x) (key x) =
  cost_exists poly pwl (i_el x) (i_et x) (key x) || item_eqb is_poly it x.
Proof.
  unfold cost_exists, item_eqb, same_el. destruct is_poly; cbn [orb]; rewrite existsb_app; simpl; rewrite orb_false_r.
  - rewrite andb_true_r, <- !orb_assoc. f_equal. apply orb_comm.
  - rewrite orb_assoc. reflexivity.
Qed.

(* et and power type per element: the batch check is the sequence of single checks *)
Theorem cost_batch_eq_fold_l is_poly items : forall poly pwl,
  costs_batch_rejects_l is_poly poly pwl items = cost_fold_rejects_l is_poly poly pwl items.
Proof.
  induction items as [|it r IH]; intros poly pwl; [reflexivity|].
  unfold costs_batch_rejects_l. cbn [cost_fold_rejects_l existsb nodup_items].
  destruct (cost_exists poly pwl (i_el it) (i_et it) _); [reflexivity|]. cbn [orb].
  (* the fold goes on with the new cost appended to its table: the elements that now have a cost are those that had
     one or repeat this element *)
  set (c := mkcost (i_el it) (i_et it) (i_pt it)).
  transitivity (costs_batch_rejects_l is_poly (if is_poly then poly ++ [c] else poly) (if is_poly then pwl else pwl ++ [c]) r);
    [|rewrite IH; destruct is_poly; reflexivity].
  unfold costs_batch_rejects_l. subst c.
  rewrite (existsb_ext_in _ _ r (fun x _ => cost_exists_snoc is_poly poly pwl it x)), existsb_orb.
  destruct (existsb _ r), (existsb (item_eqb is_poly it) r), (nodup_items is_poly r); reflexivity.
Qed.

(* one et / power type for all elements *)
Lemma cost_fold_rejects_items is_poly et pt els : forall poly pwl,
  cost_fold_rejects is_poly poly pwl els et pt = cost_fold_rejects_l is_poly poly pwl (map (fun e => mkitem e et pt) els).
Proof.
  induction els as [|e r IH]; intros poly pwl; simpl; [reflexivity|].
  destruct (cost_exists poly pwl e et _); [reflexivity|]. destruct is_poly; apply IH.
Qed.
Lemma costs_batch_rejects_items is_poly et pt els poly pwl :
  costs_batch_rejects is_poly poly pwl els et pt = costs_batch_rejects_l is_poly poly pwl (map (fun e => mkitem e et pt) els).
Proof.
  unfold costs_batch_rejects, costs_batch_rejects_l. rewrite existsb_map. do 2 f_equal.
  induction els as [|e r IH]; simpl; [reflexivity|]. rewrite IH, existsb_map. do 2 f_equal.
  apply existsb_ext_in. intros x _. unfold item_eqb. rewrite !String.eqb_refl, orb_true_r, !andb_true_r. reflexivity.
Qed.
Theorem cost_batch_eq_fold is_poly et pt els poly pwl :
  costs_batch_rejects is_poly poly pwl els et pt = cost_fold_rejects is_poly poly pwl els et pt.
Proof. rewrite costs_batch_rejects_items, cost_fold_rejects_items. apply cost_batch_eq_fold_l. Qed.

(* costs_batch_rejects_old: sum(poly_exist) & sum(pwl_exist) >= 1 *)
Lemma land_pos a b : (0 <= a)%Z -> (1 <=? Z.land a b)%Z = true -> (1 <= a)%Z.
Proof.
  intros Ha H. apply Z.leb_le in H.
  destruct (Z.eq_dec a 0) as [->|Hn]; [rewrite Z.land_0_l in H; lia | lia].
Qed.

Lemma countb_pos {A} (f : A -> bool) l : (1 <= countb f l)%Z -> exists x, In x l /\ f x = true.
Proof.
  unfold countb. induction l as [|a l IH]; simpl; [lia|].
  destruct (f a) eqn:E.
  - intros _. exists a. split; [left; reflexivity | exact E].
  - intros H. destruct (IH H) as [x [Hx Hf]]. exists x. split; [right; exact Hx | exact Hf].
Qed.
Lemma countb_zero {A} (f : A -> bool) l : existsb f l = false -> countb f l = 0%Z.
Proof. unfold countb. induction l as [|a l IH]; simpl; [reflexivity|]. destruct (f a); [discriminate | exact IH]. Qed.

Lemma fold_rejects_mono is_poly els et pt : forall poly pwl c e,
  In c poly -> In e els -> same_el e et c = true -> cost_fold_rejects is_poly poly pwl els et pt = true.
Proof.
  induction els as [|e0 r IH]; intros poly pwl c e Hc He Hs; [destruct He|].
  simpl. destruct (cost_exists poly pwl e0 et (if is_poly then None else Some pt)) eqn:X; [reflexivity|].
  destruct He as [->|He].
  - exfalso. unfold cost_exists in X. apply orb_false_iff in X. destruct X as [X _].
    assert (Y : existsb (same_el e et) poly = true) by (apply existsb_exists; exists c; split; assumption).
    congruence.
  - destruct is_poly; apply (IH _ _ c e); try assumption. apply in_or_app. left. exact Hc.
Qed.
