(* C24 — the pairs with conditional columns and extra raise conditions (C24/ModelX.v): rows and rejections are reduced to
   those of the plain descriptors (C24/Proofs.v) once every single call takes the same branch; create_switch(es). *)
From Coq Require Import QArith List String.
From PPV Require Import Base.Lists Base.QN C24.Model C24.Proofs C24.ModelX.
Import ListNotations.
Open Scope string_scope.
Open Scope list_scope.

Lemma colspec_eqb_refl x : colspec_eqb x x = true.
Proof.
  destruct x as [s|n p d f]; simpl; [apply src_eqb_refl|].
  rewrite String.eqb_refl, !cell_eqb_refl. destruct f; reflexivity.
Qed.
Lemma colspec_eqb_eq a b : colspec_eqb a b = true -> a = b.
Proof.
  destruct a as [s|n p d f], b as [t|m q e g]; simpl; try discriminate; intros H.
  - apply src_eqb_eq in H. subst. reflexivity.
  - apply andb_true_iff in H. destruct H as [H H4]. apply andb_true_iff in H. destruct H as [H H3].
    apply andb_true_iff in H. destruct H as [H1 H2].
    apply String.eqb_eq in H1. apply cell_eqb_eq in H2. apply cell_eqb_eq in H3. apply Bool.eqb_prop in H4.
    subst. reflexivity.
Qed.

Lemma xfold_hom x c std sp l : (forall a, In a l -> spec_el x c a = sp) ->
  forall oc, xfold_col x c std l oc = fold_col sp std l oc.
Proof.
  induction l as [|a l IH]; intros H oc; [reflexivity|]. simpl.
  rewrite (H a (or_introl eq_refl)). apply IH. intros b Hb. apply H. right. exact Hb.
Qed.

Lemma pick_hom_s x c sp l : (forall a, In a l -> spec_el x c a = sp) ->
  forallb (fun a => colspec_eqb (spec_el x c a) sp) l = true.
Proof. intros H. apply forallb_forall. intros a Ha. rewrite (H a Ha). apply colspec_eqb_refl. Qed.

Lemma forallb_cell_eqb {A} (f g : A -> cell) l :
  forallb (fun a => cell_eqb (f a) (g a)) l = true -> forall a, In a l -> f a = g a.
Proof. rewrite forallb_forall. intros H a Ha. apply cell_eqb_eq, H, Ha. Qed.

Lemma compat1_newspec std sp_s sp_b l : compat1 std sp_s sp_b = true ->
  pure_spec sp_s /\ forall ex, newspec sp_s ex std l = newspec sp_b ex std l.
Proof. intros H. destruct (compat_newspec std (mk1 sp_s) (mk1 sp_b) "c" H) as [Hp He]. split; [exact Hp | intros ex; apply He]. Qed.

(* two column specifications that denote the same values on the given rows denote the same new rows *)
Lemma sem_eq_newspec std sp_s sp_b l : sem_eq std sp_s sp_b l = true ->
  pure_spec sp_s /\ forall ex, newspec sp_s ex std l = newspec sp_b ex std l.
Proof.
  destruct sp_s as [s|n p d f], sp_b as [t|m q e g]; intros H.
  - apply andb_true_iff in H. destruct H as [H H3]. apply andb_true_iff in H. destruct H as [H1 H2].
    split; [exact H1|]. intros ex. apply map_ext_in. intros a Ha.
    rewrite (pure_ex s H1 ex false), (pure_ex t H2 ex false). apply (forallb_cell_eqb _ _ l H3 a Ha).
  - destruct e; try discriminate. apply andb_true_iff in H. destruct H as [H1 H3].
    split; [exact H1|]. intros ex. rewrite opt_nan_spec. apply map_ext_in. intros a Ha.
    rewrite (pure_ex s H1 ex false). apply (forallb_cell_eqb _ _ l H3 a Ha).
  - destruct d; try discriminate. apply andb_true_iff in H. destruct H as [H1 H3].
    split; [exact I|]. intros ex. rewrite opt_nan_spec. apply map_ext_in. intros a Ha.
    rewrite (pure_ex t H1 ex false). apply (forallb_cell_eqb _ _ l H3 a Ha).
  - assert (H' : String.eqb n m && forallb (fun a => cell_eqb (getarg a n p) (getarg a m q) &&
                    (negb (isnanc (getarg a n p)) || cell_eqb d e)) l = true) by (destruct d; exact H).
    clear H. apply andb_true_iff in H'. destruct H' as [H1 H3]. apply String.eqb_eq in H1. subst m.
    split; [exact I|]. intros ex. rewrite forallb_forall in H3.
    (* the rows carry the same arguments, and where one is NaN the two default values coincide *)
    assert (E : map (fun a => getarg a n p) l = map (fun a => getarg a n q) l).
    { apply map_ext_in. intros a Ha. specialize (H3 a Ha). apply andb_true_iff in H3. apply cell_eqb_eq, H3. }
    simpl. rewrite <- E.
    assert (E2 : map (fillf d) (map (fun a => getarg a n p) l) = map (fillf e) (map (fun a => getarg a n p) l)).
    { rewrite !map_map. apply map_ext_in. intros a Ha. specialize (H3 a Ha). apply andb_true_iff in H3. destruct H3 as [_ H3].
      unfold fillf. destruct (isnanc (getarg a n p)); [|reflexivity]. apply cell_eqb_eq, H3. }
    rewrite E2. reflexivity.
Qed.

(* a column without alternatives on either side, compatible in the plain descriptors *)
Lemma GX_uncond_cols std xs xb cols :
  forallb (fun c => match assoc (x_cs xs) c, assoc (x_cb xb) c with
                    | None, None => col_compat std (x_d xs) (x_d xb) c
                    | _, _ => false end) cols = true ->
  forall c, In c cols -> forall l, GX std xs xb c l = true.
Proof.
  intros H c Hc [|a0 l']; [reflexivity|]. rewrite forallb_forall in H. specialize (H c Hc).
  unfold GX, spec_el, spec_vec. destruct (assoc (x_cs xs) c); [discriminate|]. destruct (assoc (x_cb xb) c); [discriminate|].
  change (compat1 std (spec_of (x_d xs) c) (spec_of (x_d xb) c)) with (col_compat std (x_d xs) (x_d xb) c).
  rewrite H, andb_true_r. apply forallb_forall. intros a _. apply colspec_eqb_refl.
Qed.

Lemma xfold_ok_extra x std l : forall t idxs,
  xfold_ok x t std idxs l = if extra_s x l then None else fold_ok (x_d x) t std idxs l.
Proof.
  induction l as [|a l IH]; intros t idxs; [reflexivity|]. unfold extra_s in *. simpl.
  destruct (raises_s x a); simpl; [destruct idxs as [[|i r]|]; reflexivity|].
  destruct idxs as [[|i r]|];
    (destruct (single_ok (x_d x) t std _ a); [rewrite IH|]; destruct (existsb (raises_s x) l); reflexivity).
Qed.

(* pairs without extra raise conditions *)
Lemma extra_s_nil x l : x_rs x = [] -> extra_s x l = false.
Proof. intros H. unfold extra_s, raises_s. rewrite H. induction l; simpl; auto. Qed.
Lemma xchecks_noextra xs xb l :
  checks_compat (x_d xs) (x_d xb) = true -> x_rs xs = [] -> x_rb xb = [] -> xchecks_compat xs xb l = true.
Proof. intros Hc Hs Hb. unfold xchecks_compat, extra_b. rewrite Hc, (extra_s_nil xs l Hs), Hb. reflexivity. Qed.

Lemma forallb_ext' {A} (f g : A -> bool) l : (forall x, f x = g x) -> forallb f l = forallb g l.
Proof. intros H. induction l; simpl; [reflexivity|]. rewrite H, IHl. reflexivity. Qed.

(* the vector-wise checks of create_switches accept exactly the vectors each row of which create_switch accepts *)
Theorem sw_batch_ok_forall env l : sw_batch_ok env l = forallb (sw_single_ok env) l.
Proof.
  unfold sw_batch_ok. rewrite <- !forallb_andb. apply forallb_ext'. intros s.
  unfold sw_single_ok, sw_known, sw_el_exists, sw_connected, sw_table.
  destruct (memz (s_bus s) (sw_bus env)); simpl; [|reflexivity].
  destruct (String.eqb (s_et s) "b") eqn:Eb; simpl.
  - rewrite andb_true_r. reflexivity.
  - destruct (String.eqb (s_et s) "l") eqn:El; simpl.
    + destruct (find_row (sw_line env) (s_el s)); reflexivity.
    + destruct (String.eqb (s_et s) "t") eqn:Et; simpl.
      * destruct (find_row (sw_trafo env) (s_el s)); reflexivity.
      * destruct (String.eqb (s_et s) "t3") eqn:E3; simpl; [|reflexivity].
        destruct (find_row (sw_t3 env) (s_el s)); reflexivity.
Qed.

(* per kind: the columns on which GX holds for every argument vector list *)
(* sgens: every column except generator_type and the three columns that depend on it *)
Definition elec_sgen : list string :=
  ["bus"; "p_mw"; "scaling"; "q_mvar"; "sn_mva"; "in_service"; "type"; "current_source"; "min_p_mw"; "max_p_mw"; "min_q_mvar";
   "max_q_mvar"; "rx"; "kappa"; "id_q_capability_characteristic"; "controllable"; "reactive_capability_curve"; "curve_style"].

Definition elec_shunt : list string :=
  ["bus"; "p_mw"; "q_mvar"; "step"; "max_step"; "in_service"; "step_dependency_table"; "id_characteristic_table"].

Definition elec_imp : list string := ["from_bus"; "to_bus"; "rft_pu"; "xft_pu"; "gf_pu"; "bf_pu"; "sn_mva"; "in_service"].

Definition elec_linepar : list string :=
  ["from_bus"; "to_bus"; "length_km"; "in_service"; "df"; "parallel"; "r_ohm_per_km"; "x_ohm_per_km"; "c_nf_per_km"; "max_i_ka";
   "type"; "g_us_per_km"; "max_loading_percent"; "alpha"; "temperature_degree_celsius"; "endtemp_degree"].

(* every column create_transformer_from_parameters writes (except the bookkeeping flag) *)
Definition elec_trafopar : list string :=
  ["hv_bus"; "lv_bus"; "in_service"; "sn_mva"; "vn_hv_kv"; "vn_lv_kv"; "vk_percent"; "vkr_percent"; "pfe_kw"; "i0_percent";
   "tap_neutral"; "tap_max"; "tap_min"; "shift_degree"; "tap_side"; "tap_step_percent"; "tap_step_degree"; "parallel"; "df";
   "tap_pos"; "id_characteristic_table"; "vk0_percent"; "vkr0_percent"; "mag0_percent"; "mag0_rx"; "si0_hv_partial";
   "vector_group"; "max_loading_percent"; "pt_percent"; "oltc"; "xn_ohm"; "tap2_side"; "tap2_neutral"; "tap2_min"; "tap2_max";
   "tap2_step_percent"; "tap2_step_degree"; "tap2_changer_type"; "tap_changer_type"; "tap2_pos"].

Definition elec_t3par : list string :=
  ["hv_bus"; "mv_bus"; "lv_bus"; "sn_hv_mva"; "sn_mv_mva"; "sn_lv_mva"; "vn_hv_kv"; "vn_mv_kv"; "vn_lv_kv"; "vk_hv_percent";
   "vk_mv_percent"; "vk_lv_percent"; "vkr_hv_percent"; "vkr_mv_percent"; "vkr_lv_percent"; "pfe_kw"; "i0_percent";
   "shift_mv_degree"; "shift_lv_degree"; "tap_side"; "tap_step_percent"; "tap_step_degree"; "tap_pos"; "tap_neutral"; "tap_max";
   "tap_min"; "in_service"; "tap_at_star_point"; "vk0_hv_percent"; "vk0_mv_percent"; "vk0_lv_percent"; "vkr0_hv_percent";
   "vkr0_mv_percent"; "vkr0_lv_percent"; "vector_group"; "max_loading_percent"; "id_characteristic_table"; "tap_changer_type"].

Definition elec_switch : list string := ["bus"; "element"; "et"; "closed"; "type"; "z_ohm"; "in_ka"].

Definition elec_busdc : list string := ["vn_kv"; "type"; "zone"; "in_service"].

(* sgens whose generator_type is given and the same for every row: all columns and the raise conditions agree *)
Definition sgen_hom (g : string) (l : list amap) : bool := forallb (fun a => cell_eqb (getarg a GT VNaN) (VS g)) l.

(* on a non-empty list a test that gives b on every row gives b for "any row" and for "all rows" *)
Lemma existsb_const {A} (f : A -> bool) b l : l <> [] -> (forall a, In a l -> f a = b) -> existsb f l = b.
Proof.
  intros Hn H. rewrite (existsb_ext_in f (fun _ => b) l H). destruct b.
  - destruct l; [congruence | reflexivity].
  - clear. induction l; simpl; auto.
Qed.
Lemma forallb_const {A} (f : A -> bool) b l : l <> [] -> (forall a, In a l -> f a = b) -> forallb f l = b.
Proof.
  intros Hn H. destruct b; [apply forallb_forall, H|].
  destruct l as [|a r]; [congruence|]. simpl. rewrite (H a (or_introl eq_refl)). reflexivity.
Qed.

(* the argument is given, so its python default (None in create_sgen, "current_source" in create_sgens) is not used *)
Lemma sgen_hom_getarg g l a d : sgen_hom g l = true -> In a l -> getarg a GT d = VS g.
Proof.
  unfold sgen_hom. intros H Ha. rewrite forallb_forall in H. specialize (H a Ha). apply cell_eqb_eq in H.
  unfold getarg in *. destruct (lookup a GT); [exact H | discriminate].
Qed.

(* a conditional column of the sgen pair: [(CIn GT None vs, Opt n)] in create_sgen, [(VAny (CIn GT "current_source" vs), Opt n)]
   in create_sgens *)
Lemma sgen_cond_col std g n vs c l :
  assoc (x_cs x_sgen_s) c = Some [(CIn GT VNaN vs, ospec n)] ->
  assoc (x_cb x_sgen_b) c = Some [(VAny (CIn GT CS vs), ospec n)] ->
  sgen_hom g l = true -> GX std x_sgen_s x_sgen_b c l = true.
Proof.
  intros H1 H2 Hh. destruct l as [|a0 l']; [reflexivity|]. set (l := a0 :: l') in *.
  assert (Hs : forall a, In a l -> spec_el x_sgen_s c a = if memc (VS g) vs then ospec n else Man SAbsent).
  { intros a Ha. unfold spec_el. rewrite H1. cbn [pick_s aeval]. rewrite (sgen_hom_getarg g l a _ Hh Ha). reflexivity. }
  assert (Hv : spec_vec x_sgen_b c l = if memc (VS g) vs then ospec n else Man SAbsent).
  { unfold spec_vec. rewrite H2. cbn [pick_b veval]. rewrite (existsb_const _ (memc (VS g) vs) l); [reflexivity | discriminate|].
    intros a Ha. cbn [aeval]. rewrite (sgen_hom_getarg g l a _ Hh Ha). reflexivity. }
  unfold GX. unfold l at 1. cbv iota. rewrite Hv, (Hs a0 (or_introl eq_refl)), (pick_hom_s _ _ _ l Hs).
  destruct (memc (VS g) vs); unfold compat1, col_compat; simpl; rewrite ?String.eqb_refl; reflexivity.
Qed.

(* also generator_type, k, lrc_pu, max_ik_ka agree *)
Theorem sgen_hom_compat std g l : sgen_hom g l = true ->
  forall c, In c [GT; "k"; "lrc_pu"; "max_ik_ka"] -> GX std x_sgen_s x_sgen_b c l = true.
Proof.
  intros Hh c Hc.
  destruct Hc as [<-|[<-|[<-|[<-|[]]]]]; try (eapply sgen_cond_col; [reflexivity | reflexivity | exact Hh]).
  destruct l as [|a0 l']; [reflexivity|]. set (l := a0 :: l') in *.
  unfold GX. unfold l at 1. cbv iota. apply andb_true_iff. split; [apply pick_hom_s; reflexivity|].
  apply orb_true_iff. right. unfold spec_el, spec_vec. simpl assoc. cbv beta iota.
  change (spec_of (x_d x_sgen_s) GT) with (Opt GT VNaN CS false).
  change (spec_of (x_d x_sgen_b) GT) with (Opt GT CS CS false).
  unfold sem_eq. rewrite String.eqb_refl, cell_eqb_refl. cbv beta iota delta [andb].
  apply forallb_forall. intros a Ha. rewrite !(sgen_hom_getarg g l a _ Hh Ha), cell_eqb_refl, orb_true_r. reflexivity.
Qed.

(* the batch call raises iff some single call raises (unknown generator type) *)
Lemma xchecks_sgen g l : sgen_hom g l = true -> l <> [] -> xchecks_compat x_sgen_s x_sgen_b l = true.
Proof.
  intros Hh Hn. unfold xchecks_compat. apply andb_true_iff. split; [reflexivity|]. apply Bool.eqb_true_iff.
  unfold extra_s, extra_b. cbn [x_rb x_sgen_b existsb veval].
  set (known := [VNaN; CS; VS "async"; VS "async_doubly_fed"]).
  rewrite (existsb_const (raises_s x_sgen_s) (negb (memc (VS g) known)) l Hn),
          (existsb_const (aeval (CNot (CIn GT CS known))) (negb (memc (VS g) known)) l Hn),
          (forallb_const (aeval (CIn GT CS [VNaN])) false l Hn).
  - destruct (negb (memc (VS g) known)); reflexivity.
  - intros a Ha. cbn [aeval]. rewrite (sgen_hom_getarg g l a _ Hh Ha). reflexivity.
  - intros a Ha. cbn [aeval]. rewrite (sgen_hom_getarg g l a _ Hh Ha). reflexivity.
  - intros a Ha. unfold raises_s. cbn [x_rs x_sgen_s existsb aeval]. rewrite (sgen_hom_getarg g l a _ Hh Ha). apply orb_false_r.
Qed.

Definition trafo_buses (extra : amap) : amap := [("hv_bus", q 0 1); ("lv_bus", q 1 1)] ++ extra.
Definition sg (g : cell) (k : cell) : amap := [("bus", q 0 1); ("p_mw", q 1 1); (GT, g); ("k", k)].
(* the whole zero-sequence group incl. g0 given for every row: compatible *)
Definition lp_full : amap := [("r0_ohm_per_km", q 1 2); ("x0_ohm_per_km", q 5 4); ("c0_nf_per_km", q 111 1); ("g0_us_per_km", q 1 4)].
Definition imp_a (extra : amap) : amap := [("from_bus", q 0 1); ("to_bus", q 1 1); ("rft_pu", q 1 8); ("xft_pu", q 1 4); ("sn_mva", q 1 1)] ++ extra.
Definition imp_z : amap := imp_a [("rft0_pu", q 1 2); ("xft0_pu", q 3 4); ("gf0_pu", q 1 16)].
Definition sh (extra : amap) : amap := [("bus", q 0 1); ("q_mvar", q 1 1); ("bus:vn_kv", q 20 1)] ++ extra.
Definition swenv_w : swenv := {| sw_bus := [0; 1; 2]%Z; sw_line := [mkrow 0 [0; 1]%Z; mkrow 1 [1; 2]%Z]; sw_trafo := []; sw_t3 := [] |}.
