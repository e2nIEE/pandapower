(* C08 — the element tables survive every calculation pipeline, for every crash point *)
From Coq Require Import ZArith List Bool Lia.
From PPV Require Import Base.Lists C08.Model.
Import ListNotations.
Open Scope Z_scope.

Lemma memz_In x l : memz x l = true <-> In x l.
Proof.
  induction l as [|y l IH]; cbn; [split; [discriminate|tauto]|].
  rewrite orb_true_iff, IH, Z.eqb_eq. split; intros [H|H]; auto.
Qed.
Lemma memz_false x l : memz x l = false <-> ~ In x l.
Proof. rewrite <- memz_In. destruct (memz x l); split; congruence. Qed.

Lemma fold_max_ge l : forall m, m <= fold_left (fun m i => Z.max m (i + 1)) l m.
Proof. induction l as [|a l IH]; intros m; cbn; [lia|]. specialize (IH (Z.max m (a + 1))). lia. Qed.
Lemma fold_max_mono l : forall m m', m <= m' ->
  fold_left (fun m i => Z.max m (i + 1)) l m <= fold_left (fun m i => Z.max m (i + 1)) l m'.
Proof. induction l as [|a l IH]; intros m m' H; cbn; [exact H|]. apply IH. lia. Qed.
Lemma next_id_gt l : forall x, In x l -> x < next_id l.
Proof.
  unfold next_id. generalize 0. induction l as [|a l IH]; intros m x H; cbn in *; [tauto|].
  destruct H as [->|H]; [|now apply IH].
  pose proof (fold_max_ge l (Z.max m (x + 1))). lia.
Qed.
Lemma next_id_app l l' : next_id l <= next_id (l ++ l').
Proof. unfold next_id. rewrite fold_left_app. apply fold_max_ge. Qed.


Lemma filter_true {A} (l : list A) : filter (fun _ => true) l = l.
Proof. now apply filter_all. Qed.
Lemma filter_idem {A} (p : A -> bool) l : filter p (filter p l) = filter p l.
Proof. induction l as [|a l IH]; cbn; [reflexivity|]. destruct (p a) eqn:E; cbn; [rewrite E, IH|]; auto. Qed.

Lemma last_z_In l i : last_z l = Some i -> In i l.
Proof.
  unfold last_z. intros H. destruct (rev l) as [|x r] eqn:E; [discriminate|]. inversion H; subst x.
  apply in_rev. rewrite E. now left.
Qed.

(* a table during a calculation: the rows it had (base) followed by extra rows; the keys of the extra rows are
   tracked in T, and everything tracked lies above the keys of the base rows *)
Definition Ext {A} (key : A -> Z) (base rows : list A) (T : list Z) : Prop :=
  exists extra, rows = base ++ extra /\ (forall x, In x extra -> In (key x) T) /\
                (forall t, In t T -> next_id (map key base) <= t).

Lemma ext_base {A} (key : A -> Z) base : Ext key base base [].
Proof. exists []. rewrite app_nil_r. repeat split; intros ? []. Qed.

(* tracking the next free key *)
Lemma ext_track {A} (key : A -> Z) base rows T :
  Ext key base rows T -> Ext key base rows (T ++ [next_id (map key rows)]).
Proof.
  intros (extra & -> & HE & HT). exists extra. split; [reflexivity|]. split.
  - intros x Hx. apply in_or_app. left. now apply HE.
  - intros t Hin. apply in_app_or in Hin. destruct Hin as [Hin|[<-|[]]]; [now apply HT|].
    rewrite map_app. apply next_id_app.
Qed.

(* writing a row under the key tracked last *)
Lemma ext_create {A} (key : A -> Z) base rows T x :
  Ext key base rows T -> last_z T = Some (key x) -> Ext key base (rows ++ [x]) T.
Proof.
  intros (extra & -> & HE & HT) L. exists (extra ++ [x]). split; [now rewrite app_assoc|]. split; [|exact HT].
  intros y Hy. apply in_app_or in Hy. destruct Hy as [Hy|[<-|[]]]; [now apply HE | now apply last_z_In].
Qed.

(* dropping the tracked keys gives exactly the base rows back *)
Lemma ext_drop {A} (key : A -> Z) base rows T :
  Ext key base rows T -> filter (fun x => negb (memz (key x) T)) rows = base.
Proof.
  intros (extra & -> & HE & HT).
  rewrite filter_app, (filter_all _ base), (filter_none _ extra); [apply app_nil_r| |].
  - intros x Hx. apply negb_false_iff, memz_In. now apply HE.
  - intros x Hx. apply negb_true_iff, memz_false. intros Hin. apply HT in Hin.
    apply (in_map key), next_id_gt in Hx. lia.
Qed.

Definition bound (n0 : net) : Z := next_id (ids (gen n0)).
Definition vbound (n0 : net) : Z := next_id (map v_id (vsc n0)).

Record Inv (n0 n : net) : Prop := {
  i_gen : exists aux, gen n = gen n0 ++ aux /\ (forall a, In a aux -> In (g_id a) (olist_ (tracked n))) /\
                      (forall t, In t (olist_ (tracked n)) -> bound n0 <= t);
  i_vsc : exists vaux, vsc n = vsc n0 ++ vaux /\ (forall v, In v vaux -> In (v_id v) (olist_ (tracked_v n))) /\
                       (forall t, In t (olist_ (tracked_v n)) -> vbound n0 <= t);
  i_trafo : trafo n = trafo n0;
  i_dc : dcline n = dcline n0;
  i_b2b : b2b n = b2b n0
}.

(* the first two fields of Inv are Ext for net.gen and net.vsc *)
Lemma inv_ext n0 n : Inv n0 n ->
  Ext g_id (gen n0) (gen n) (olist_ (tracked n)) /\ Ext v_id (vsc n0) (vsc n) (olist_ (tracked_v n)).
Proof. intros [G V _ _ _]. split; assumption. Qed.
Lemma inv_upd n0 n g rg v t tv : Inv n0 n ->
  Ext g_id (gen n0) g (olist_ t) -> Ext v_id (vsc n0) v (olist_ tv) -> Inv n0 (upd n g rg v t tv).
Proof. intros [_ _ Ht Hd Hb] G V. constructor; assumption. Qed.

(* the state between two calculations: tables as the user left them, nothing tracked *)
Definition Restored (n0 n : net) : Prop := user_tables n = user_tables n0 /\ clean n = true.

Lemma clean1_nil t : clean1 t = true -> olist_ t = [].
Proof. destruct t as [[|]|]; cbn; intros; congruence. Qed.

Lemma restored_inv n0 n : Restored n0 n -> Inv n0 n.
Proof.
  intros [U C]. injection U as Hg Hv Ht Hd Hb. apply andb_true_iff in C. destruct C as [C1 C2].
  constructor; auto.
  - change (Ext g_id (gen n0) (gen n) (olist_ (tracked n))). rewrite Hg, (clean1_nil _ C1). apply ext_base.
  - change (Ext v_id (vsc n0) (vsc n) (olist_ (tracked_v n))). rewrite Hv, (clean1_nil _ C2). apply ext_base.
Qed.

(* what the preparing and the cleaning operations do, without the case distinction on the tracking lists *)
Lemma prepare_gen_eq n :
  apply APrepareGen n = upd n (drop_ids (olist_ (tracked n)) (gen n)) (res_gen n) (vsc n) (Some []) (tracked_v n).
Proof. cbn [apply]. unfold drop_ids. destruct (tracked n) as [[|]|]; cbn; now rewrite ?filter_true. Qed.
Lemma prepare_vsc_eq n :
  apply APrepareVsc n = upd n (gen n) (res_gen n) (drop_vids (olist_ (tracked_v n)) (vsc n)) (tracked n) (Some []).
Proof. cbn [apply]. unfold drop_vids. destruct (tracked_v n) as [[|]|]; cbn; now rewrite ?filter_true. Qed.

Lemma cleanup_spec r n :
  gen (apply (ACleanup r) n) = drop_ids (olist_ (tracked n)) (gen n) /\
  vsc (apply (ACleanup r) n) = drop_vids (olist_ (tracked_v n)) (vsc n) /\
  clean (apply (ACleanup r) n) = true /\
  trafo (apply (ACleanup r) n) = trafo n /\ dcline (apply (ACleanup r) n) = dcline n /\ b2b (apply (ACleanup r) n) = b2b n.
Proof.
  cbn [apply]. unfold clean, drop_ids, drop_vids.
  destruct (tracked n) as [[|]|] eqn:ET; destruct (tracked_v n) as [[|]|] eqn:EV;
    cbn; rewrite ?ET, ?EV; cbn; rewrite ?filter_true; auto 10.
Qed.

(* nothing tracked: nothing to clean up *)
Lemma cleanup_clean r n : clean n = true -> apply (ACleanup r) n = n.
Proof.
  unfold clean. cbn [apply].
  destruct (tracked n) as [[|]|] eqn:ET; try discriminate; destruct (tracked_v n) as [[|]|] eqn:EV; try discriminate;
    reflexivity.
Qed.

(* cleanup gives the user's tables back, whatever state of the pipeline it is called in *)
Lemma cleanup_restores n0 n r : Inv n0 n -> Restored n0 (apply (ACleanup r) n).
Proof.
  intros I. destruct (inv_ext _ _ I) as [G V]. destruct I as [_ _ Ht Hd Hb].
  destruct (cleanup_spec r n) as (Eg & Ev & C & Et & Ed & Eb). split; [|exact C].
  unfold user_tables. rewrite Eg, Ev, Et, Ed, Eb. unfold drop_ids, drop_vids.
  now rewrite (ext_drop _ _ _ _ G), (ext_drop _ _ _ _ V), Ht, Hd, Hb.
Qed.

(* the operations of the repaired pipelines *)
Definition okop (a : aop) : Prop :=
  match a with
  | APrepareGen | ATrackNextGen | ACreateGenAt _ | APrepareVsc | ATrackNextVsc | ACreateVscAt _ _
  | AInitRes | ABuild | ASolve | AExtract | ACleanup _ => True
  | _ => False
  end.

Lemma inv_apply n0 n a : okop a -> Inv n0 n -> Inv n0 (apply a n).
Proof.
  intros OK I. destruct (inv_ext _ _ I) as [G V]. destruct a; try contradiction.
  - rewrite prepare_gen_eq. apply inv_upd; auto. unfold drop_ids. rewrite (ext_drop _ _ _ _ G). apply ext_base.
  - apply inv_upd; auto. now apply ext_track.
  - cbn [apply]. destruct (last_z (olist_ (tracked n))) eqn:L; [|exact I]. apply inv_upd; auto. now apply ext_create.
  - rewrite prepare_vsc_eq. apply inv_upd; auto. unfold drop_vids. rewrite (ext_drop _ _ _ _ V). apply ext_base.
  - apply inv_upd; auto. now apply ext_track.
  - cbn [apply]. destruct (last_z (olist_ (tracked_v n))) eqn:L; [|exact I]. apply inv_upd; auto. now apply ext_create.
  - now apply inv_upd.
  - exact I.
  - exact I.
  - now apply inv_upd.
  - apply restored_inv. now apply cleanup_restores.
Qed.

Definition st4 (r : net * outcome * option nat * list net) : net := fst (fst (fst r)).
Definition oc4 (r : net * outcome * option nat * list net) : outcome := snd (fst (fst r)).

Section Run.
Variables (P : net -> Prop) (ok : aop -> Prop).
Hypothesis step : forall n a, ok a -> P n -> P (apply a n).

Definition okinstr (i : instr) : Prop := match i with Do a => ok a | FailIfNotConv l => Forall ok l end.

Lemma fold_keeps l : Forall ok l -> forall n, P n -> P (fold_left (fun m a => apply a m) l n).
Proof. induction 1 as [|a l Ha _ IH]; intros n Pn; cbn; [exact Pn|]. apply IH. now apply step. Qed.

(* a run from a state with P ends in a state with P, wherever it is cut short, and with Q if it completes *)
Definition post (Q : net -> Prop) (is : list instr) : Prop := forall k conv n, P n ->
  P (st4 (run is k conv n)) /\ (oc4 (run is k conv n) = Done -> Q (st4 (run is k conv n))).

Lemma post_cons Q i is : okinstr i -> post Q is -> post Q (i :: is).
Proof.
  intros Hi H k conv n Pn. destruct i as [a|l]; cbn [run].
  - pose proof (fun k' => H k' conv _ (step n a Hi Pn)) as H'.
    destruct k as [[|j]|]; [split; [exact Pn|discriminate] | specialize (H' (Some j)) | specialize (H' None)];
      destruct (run is _ conv (apply a n)) as [[[nf o] kf] tr]; exact H'.
  - destruct conv; [now apply H|]. split; [now apply fold_keeps | discriminate].
Qed.
Lemma post_app Q l is : Forall okinstr l -> post Q is -> post Q (l ++ is).
Proof. induction 1 as [|i l Hi _ IH]; intros H; [exact H|]. apply post_cons; auto. Qed.
Lemma post_all is : Forall okinstr is -> post P is.
Proof. intros F. rewrite <- (app_nil_r is). apply post_app; [exact F|]. intros k conv n Pn. now split. Qed.
End Run.

(* a body that ends with a cleanup call: normal completion means the cleanup ran on a state satisfying Inv *)
Lemma post_cleanup n0 front r : Forall (okinstr okop) front ->
  post (Inv n0) (Restored n0) (front ++ [Do (ACleanup r)]).
Proof.
  intros F. apply (post_app _ _ (inv_apply n0)); [exact F|]. intros k conv n I. cbn [run].
  destruct k as [[|j]|]; unfold st4, oc4; cbn [fst snd]; [split; [exact I|discriminate]| |];
    (split; [apply restored_inv|intros _]; now apply cleanup_restores).
Qed.

(* a pipeline of the repaired shape: try: body (ending with cleanup)  except: cleanup; raise *)
Definition ex_st (r : net * outcome * list net) : net := fst (fst r).
Lemma ex_st_eq r : ex_st r = fst (fst r).
Proof. reflexivity. Qed.

Theorem try_restores n0 body r' k conv : clean n0 = true -> post (Inv n0) (Restored n0) body ->
  Restored n0 (ex_st (exec {| p_pre := []; p_body := body; p_handler := [ACleanup r'] |} k conv n0)).
Proof.
  intros C H. unfold exec. cbn [p_pre p_body p_handler run].
  destruct (H k conv n0 (restored_inv n0 n0 (conj eq_refl C))) as [I D].
  destruct (run body k conv n0) as [[[n2 o2] k2] tr2]. unfold st4, oc4 in *. cbn [fst snd] in *.
  destruct o2; unfold ex_st; cbn [fst fold_left]; [now apply D | now apply cleanup_restores].
Qed.

(* runpp_3ph has no try statement; it never leaves the restored state *)
Definition safeop (a : aop) : Prop :=
  match a with AInitRes | ABuild | ASolve | AExtract | ACleanup _ => True | _ => False end.
Lemma restored_apply n0 n a : safeop a -> Restored n0 n -> Restored n0 (apply a n).
Proof.
  intros S R. destruct a; try contradiction; try exact R.
  rewrite cleanup_clean; [exact R | apply R].
Qed.

Lemma ok_add_aux n0 : Forall (okinstr okop) (add_aux n0).
Proof.
  unfold add_aux, add_gens, add_vscs. apply Forall_app. split.
  - destruct (dcline n0); constructor; [exact I|]. apply Forall_flat_map, Forall_forall. intros d _. repeat constructor.
  - destruct (b2b n0); constructor; [exact I|]. apply Forall_flat_map, Forall_forall. intros i _. repeat constructor.
Qed.

Theorem calc_restores n0 c k conv : clean n0 = true ->
  Restored n0 (ex_st (exec (pl_of c n0) k conv n0)).
Proof.
  intros C. destruct c; cbn [pl_of].
  (* four try statements that begin with _add_auxiliary_elements and end with _clean_up *)
  1-4: apply try_restores; [exact C|]; apply (post_app _ _ (inv_apply n0)); [apply ok_add_aux|].
  - apply (post_cleanup n0 [Do AInitRes; Do ABuild; Do ASolve; FailIfNotConv [ACleanup false]; Do AExtract]).
    repeat constructor.
  - apply (post_cleanup n0 [Do AInitRes; Do ABuild; Do ASolve; FailIfNotConv []; Do AExtract]). repeat constructor.
  - apply (post_cleanup n0 [Do ABuild; Do ASolve; FailIfNotConv [ACleanup false]]). repeat constructor.
  - (* the second pass of _add_auxiliary_elements *)
    apply (post_app _ _ (inv_apply n0)); [apply ok_add_aux|].
    apply (post_cleanup n0 [Do ABuild; Do ASolve; FailIfNotConv [ACleanup false]]). repeat constructor.
  - unfold exec, pl_pf3ph. cbn [p_pre p_body p_handler].
    assert (F : Forall (okinstr safeop) [Do ABuild; Do ASolve; FailIfNotConv [ACleanup false]; Do (ACleanup true)])
      by repeat constructor.
    destruct (post_all _ _ (restored_apply n0) _ F k conv n0 (conj eq_refl C)) as [R _].
    destruct (run _ k conv n0) as [[[n1 o1] k1] tr1]. destruct o1; exact R.
Qed.

Definition g (i d : Z) : grow := {| g_id := i; g_data := d |}.
(* one dcline and a tap table entry: the code before the repairs leaves rows behind / overwrites vk_percent *)
Definition net_w : net :=
  {| gen := [g 0 7]; res_gen := [0]; vsc := []; trafo := [{| t_id := 0; t_vk := 12; t_tab := Some 13 |}];
     dcline := [50]; b2b := []; tracked := None; tracked_v := None |}.
(* a user vsc that carries the name of an auxiliary b2b vsc *)
Definition net_v : net :=
  {| gen := []; res_gen := []; vsc := [{| v_id := 0; v_name := NB2B 0 true; v_data := 5 |}]; trafo := [];
     dcline := []; b2b := [0]; tracked := None; tracked_v := None |}.

(* non-vacuity: two dclines, a b2b_vsc, user gens with gapped ids, a user vsc named like an auxiliary one *)
Definition net_nv : net :=
  {| gen := [g 2 7; g 5 8]; res_gen := [2; 5]; vsc := [{| v_id := 4; v_name := NB2B 3 true; v_data := 5 |}];
     trafo := [{| t_id := 0; t_vk := 12; t_tab := Some 13 |}]; dcline := [50; 60]; b2b := [3];
     tracked := Some []; tracked_v := None |}.
Example nonvacuous :
  clean net_nv = true /\
  (exists tr, snd (run (add_aux net_nv) None true net_nv) = tr /\
              map (fun n => (ids (gen n), olist_ (tracked n), map v_id (vsc n))) tr =
              [ ([2;5], [], [4]); ([2;5], [6], [4]); ([2;5;6], [6], [4]); ([2;5;6], [6;7], [4]); ([2;5;6;7], [6;7], [4]);
                ([2;5;6;7], [6;7;8], [4]); ([2;5;6;7;8], [6;7;8], [4]); ([2;5;6;7;8], [6;7;8;9], [4]);
                ([2;5;6;7;8;9], [6;7;8;9], [4]); ([2;5;6;7;8;9], [6;7;8;9], [4]); ([2;5;6;7;8;9], [6;7;8;9], [4]);
                ([2;5;6;7;8;9], [6;7;8;9], [4;5]); ([2;5;6;7;8;9], [6;7;8;9], [4;5]); ([2;5;6;7;8;9], [6;7;8;9], [4;5;6]) ]) /\
  (* a fault right after the row write of the third auxiliary gen, in the 1ph short-circuit pipeline *)
  user_tables (ex_st (exec (pl_sc_1ph net_nv) (Some 7%nat) true net_nv)) = user_tables net_nv /\
  snd (fst (exec (pl_sc_1ph net_nv) (Some 7%nat) true net_nv)) = Raised.
Proof. vm_compute. repeat split. eexists. split; reflexivity. Qed.
