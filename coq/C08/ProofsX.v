(* C08 — state estimation (bus-bus switch impedance substitution) and contingency analysis (in_service restore loop):
   the element tables survive, for every crash point, every kind of fault and every verdict of the nested power flows *)
From Coq Require Import ZArith List Bool.
From PPV Require Import C08.Model C08.Proofs.
Import ListNotations.
Open Scope Z_scope.

(* exec_k is exec with the budget handed back *)
Lemma exec_k_fst p k conv n : fst (exec_k p k conv n) = fst (exec p k conv n).
Proof.
  unfold exec_k, exec. destruct (run (p_pre p) k conv n) as [[[n1 o1] k1] tr1]. destruct o1; [|reflexivity].
  destruct (run (p_body p) k1 conv n1) as [[[n2 o2] k2] tr2]. destruct o2; reflexivity.
Qed.
Lemma exec_k_outcome p k conv n : snd (fst (exec_k p k conv n)) = snd (fst (exec p k conv n)).
Proof. now rewrite exec_k_fst. Qed.

Definition xtables_eq (s0 s : xnet) : Prop :=
  user_tables (x_net s) = user_tables (x_net s0) /\ clean (x_net s) = true /\
  sw_z s = sw_z s0 /\ sw_ori s = sw_ori s0 /\ (forall t i, serv s t i = serv s0 t i) /\ (forall t i, has s t i = has s0 t i).

Lemma xtables_refl s : clean (x_net s) = true -> xtables_eq s s.
Proof. intros C. repeat split; auto. Qed.
Lemma xtables_trans s0 s1 s2 : xtables_eq s0 s1 -> xtables_eq s1 s2 -> xtables_eq s0 s2.
Proof.
  intros (U1 & C1 & Z1 & O1 & S1 & H1) (U2 & C2 & Z2 & O2 & S2 & H2).
  unfold xtables_eq. split; [congruence|]. split; [exact C2|]. split; [congruence|]. split; [congruence|].
  split; intros t i; [rewrite S2; apply S1 | rewrite H2; apply H1].
Qed.

Definition st3 (r : xnet * xout * option nat) : xnet := fst (fst r).
Definition oc3 (r : xnet * xout * option nat) : xout := snd (fst r).

(* a nested calculation, whatever happens inside, gives the element tables back and touches nothing else *)
Lemma xcalc_net s c conv k exn :
  clean (x_net s) = true ->
  user_tables (x_net (st3 (xstep exn (XCalc c conv) k s))) = user_tables (x_net s) /\
  clean (x_net (st3 (xstep exn (XCalc c conv) k s))) = true /\
  sw_z (st3 (xstep exn (XCalc c conv) k s)) = sw_z s /\ sw_ori (st3 (xstep exn (XCalc c conv) k s)) = sw_ori s /\
  serv (st3 (xstep exn (XCalc c conv) k s)) = serv s /\ has (st3 (xstep exn (XCalc c conv) k s)) = has s.
Proof.
  intros C. cbn [xstep].
  pose proof (calc_restores (x_net s) c k conv C) as [U C'].
  unfold ex_st in *. rewrite <- exec_k_fst in U, C'.
  destruct (exec_k (pl_of c (x_net s)) k conv (x_net s)) as [[n' o] k']. cbn [fst] in U, C'.
  destruct o; unfold st3; cbn; auto 10.
Qed.

(* an invariant kept by the operations in ok is kept by a run of such operations, wherever it is cut short *)
Lemma xrun_ops_inv (P : xnet -> Prop) (ok : xop -> Prop) exn :
  (forall a k s, ok a -> P s -> P (st3 (xstep exn a k s))) ->
  forall ops, Forall ok ops -> forall k s, P s -> P (st3 (xrun_ops exn ops k s)).
Proof.
  intros step ops F. induction F as [|a r Ha _ IH]; intros k s Ps; [exact Ps|].
  cbn [xrun_ops]. pose proof (step a k s Ha Ps) as P1.
  destruct (xstep exn a k s) as [[s1 o] k1]. destruct o; [now apply IH | exact P1].
Qed.

Lemma xrun_ops_app exn l1 l2 k s :
  xrun_ops exn (l1 ++ l2) k s =
  match oc3 (xrun_ops exn l1 k s) with
  | XDone => xrun_ops exn l2 (snd (xrun_ops exn l1 k s)) (st3 (xrun_ops exn l1 k s))
  | _ => xrun_ops exn l1 k s
  end.
Proof.
  revert k s. induction l1 as [|a r IH]; intros k s; [reflexivity|].
  cbn [app xrun_ops]. destruct (xstep exn a k s) as [[s1 o] k1]. destruct o; [apply IH|reflexivity].
Qed.

Lemma xrun_try_state exn body sw fin k s :
  st3 (xrun_try exn body sw fin k s) = xfin fin (st3 (xrun_ops exn body k s)).
Proof.
  unfold xrun_try. destruct (xrun_ops exn body k s) as [[s1 o] k1]. unfold st3. cbn [fst].
  destruct o as [|e]; [reflexivity|]. destruct (e && sw); reflexivity.
Qed.

(* try: body  finally: fin, with an invariant K of the body's operations from which fin leads to R *)
Lemma xrun_try_inv (K R : xnet -> Prop) (ok : xop -> Prop) exn body sw fin k s :
  (forall a k s, ok a -> K s -> K (st3 (xstep exn a k s))) -> Forall ok body -> K s -> (forall s, K s -> R (xfin fin s)) ->
  R (st3 (xrun_try exn body sw fin k s)).
Proof. intros step Hb Ks Hf. rewrite xrun_try_state. apply Hf. now apply (xrun_ops_inv K ok). Qed.

(* operations that touch no table *)
Lemma xstep_stage exn k s : st3 (xstep exn XStage k s) = s.
Proof. cbn. destruct k as [[|j]|]; reflexivity. Qed.
Lemma xstep_raiseif exn b k s : st3 (xstep exn (XRaiseIf b) k s) = s.
Proof. cbn. destruct k as [[|j]|]; destruct b; reflexivity. Qed.

(* nested calculations and table-free stages keep everything *)
Definition calcop (a : xop) : Prop := match a with XCalc _ _ | XStage => True | _ => False end.
Lemma eq_step s0 exn a k s : calcop a -> xtables_eq s0 s -> xtables_eq s0 (st3 (xstep exn a k s)).
Proof.
  intros OK E. destruct a; try contradiction; [|now rewrite xstep_stage].
  destruct E as (U & C & Z & O & S & H). destruct (xcalc_net s c conv k exn C) as (U' & C' & Z' & O' & S' & H').
  unfold xtables_eq. rewrite U', Z', O', S', H'. auto 10.
Qed.

(* behind the save: the user's impedance column sits in z_ohm_ori, z_ohm exists, everything else is the user's *)
Definition KE (s0 : xnet) (z0 : list Z) (s : xnet) : Prop :=
  user_tables (x_net s) = user_tables (x_net s0) /\ clean (x_net s) = true /\
  (forall t i, serv s t i = serv s0 t i) /\ (forall t i, has s t i = has s0 t i) /\
  sw_ori s = Some z0 /\ exists z, sw_z s = Some z.

Definition restop (a : xop) : Prop := match a with XCalc _ _ | XSetZ _ _ | XStage => True | _ => False end.

Lemma KE_step s0 z0 exn a k s : restop a -> KE s0 z0 s -> KE s0 z0 (st3 (xstep exn a k s)).
Proof.
  intros OK (U & C & SV & H & O & (z & Z)). destruct a; cbn in OK; try contradiction.
  - (* XSetZ *)
    cbn [xstep]. destruct k as [[|j]|]; unfold st3; cbn; unfold KE; cbn; rewrite ?Z; eauto 10.
  - (* XCalc *)
    destruct (xcalc_net s c conv k exn C) as (U' & C' & Z' & O' & S' & H').
    unfold KE. rewrite U', Z', O', S', H'. eauto 10.
  - rewrite xstep_stage. unfold KE; eauto 10.
Qed.

Lemma restop_est_tail (rounds : list (list bool * option (list bool))) (conv_pf success : bool) :
  Forall restop ((XCalc CPf conv_pf ::
                  flat_map (fun r : list bool * option (list bool) => XSetZ (fst r) Z_IMP :: XCalc CPf conv_pf ::
                              match snd r with Some u => [XSetZ u 0; XCalc CPf conv_pf] | None => [] end) rounds)
                 ++ XStage :: XStage :: (if success then [XStage] else [])).
Proof.
  apply Forall_app. split.
  - constructor; [exact I|]. apply Forall_flat_map, Forall_forall. intros r _. destruct (snd r); repeat constructor.
  - destruct success; repeat constructor.
Qed.

Definition saved (s : xnet) : xnet := xapply1 XSaveZ s.

(* the three operations in front of the first nested power flow *)
Lemma est_head exn badarg k s0 :
  let r := xrun_ops exn [XRaiseIf badarg; XSaveZ; XRaiseIf (no_z s0)] k s0 in
  (oc3 r <> XDone /\ (st3 r = s0 \/ st3 r = saved s0)) \/
  (oc3 r = XDone /\ exists z0, sw_z s0 = Some z0 /\ st3 r = with_sw s0 (Some z0) (Some z0)).
Proof.
  unfold no_z, saved. cbn [xapply1].
  destruct badarg; destruct k as [[|[|[|j]]]|]; destruct (sw_z s0) as [z0|] eqn:E; cbn; rewrite ?E; cbn;
    try (left; split; [discriminate | auto]; fail); right; split; eauto.
Qed.

Lemma reset_of_untouched s0 s :
  sw_ori s0 = None -> clean (x_net s0) = true -> (s = s0 \/ s = saved s0) -> xtables_eq s0 (xfin [XResetZ] s).
Proof.
  intros O C [->| ->]; unfold xfin, saved; cbn [fold_left xapply1].
  - rewrite O. now apply xtables_refl.
  - destruct (sw_z s0) as [z|] eqn:E; cbn; [|rewrite O; now apply xtables_refl].
    unfold xtables_eq; cbn. rewrite E, O. auto 10.
Qed.

Theorem estimate_restores exn bb badarg rounds conv_pf success k s0 :
  clean (x_net s0) = true -> sw_ori s0 = None ->
  xtables_eq s0 (st3 (run_estimate exn bb badarg rounds conv_pf success k s0)).
Proof.
  intros C O. unfold run_estimate. rewrite xrun_try_state. destruct bb.
  - (* the substitution is active *)
    unfold est_body.
    change ((XRaiseIf badarg :: XSaveZ :: XRaiseIf (no_z s0) :: XCalc CPf conv_pf :: ?L) ++ ?M)
      with ([XRaiseIf badarg; XSaveZ; XRaiseIf (no_z s0)] ++ ((XCalc CPf conv_pf :: L) ++ M)).
    rewrite xrun_ops_app.
    destruct (est_head exn badarg k s0) as [[ND Hs]|[D (z0 & E & Hs)]].
    + destruct (oc3 _) eqn:EO; [contradiction|]. now apply reset_of_untouched.
    + rewrite D. set (k1 := snd _). rewrite Hs.
      assert (K0 : KE s0 z0 (with_sw s0 (Some z0) (Some z0))) by (unfold KE; cbn; eauto 10).
      pose proof (xrun_ops_inv _ _ exn (KE_step s0 z0 exn) _ (restop_est_tail rounds conv_pf success) k1 _ K0)
        as (U & C' & SV & H & Oo & (z & Z)).
      unfold xfin. cbn [fold_left xapply1]. rewrite Oo. unfold xtables_eq. cbn. rewrite E, O. auto 10.
  - (* all buses fused: only stages without table access *)
    cbn [xfin fold_left]. unfold est_body. cbn [app].
    apply (xrun_ops_inv _ _ exn (eq_step s0 exn)); [|now apply xtables_refl]. destruct success; repeat constructor.
Qed.

Definition net0 : net :=
  {| gen := []; res_gen := []; vsc := []; trafo := []; dcline := []; b2b := []; tracked := None; tracked_v := None |}.
(* the code before the repair "state estimation restores the bus-bus switch impedances also when it raises": no finally *)
Definition run_estimate_old (exn bb badarg : bool) rounds (conv_pf success : bool) (k : option nat) (s : xnet) :=
  xrun_ops exn (est_body bb badarg (no_z s) rounds conv_pf success ++ (if bb then [XResetZ] else [])) k s.

(* inside one outage case: everything is the user's except possibly the in_service cell of the outage *)
Definition KC (s0 : xnet) (t : nat) (i : Z) (s : xnet) : Prop :=
  user_tables (x_net s) = user_tables (x_net s0) /\ clean (x_net s) = true /\
  sw_z s = sw_z s0 /\ sw_ori s = sw_ori s0 /\ (forall t' i', has s t' i' = has s0 t' i') /\
  (forall t' i', (Nat.eqb t' t && Z.eqb i' i) = false -> serv s t' i' = serv s0 t' i').

Definition caseop (t : nat) (i : Z) (a : xop) : Prop :=
  match a with XCalc _ _ | XStage => True | XSetServ t' i' _ => t' = t /\ i' = i | _ => False end.

Lemma KC_step s0 t i exn a k s : caseop t i a -> KC s0 t i s -> KC s0 t i (st3 (xstep exn a k s)).
Proof.
  intros OK (U & C & Z & O & H & SV). destruct a; cbn in OK; try contradiction.
  - destruct OK as [-> ->]. cbn [xstep]. destruct k as [[|j]|]; unfold st3; cbn; unfold KC; cbn; repeat split; auto;
      intros t' i' E; rewrite E; now apply SV.
  - destruct (xcalc_net s c conv k exn C) as (U' & C' & Z' & O' & S' & H').
    unfold KC. rewrite U', Z', O', S', H'. auto 10.
  - rewrite xstep_stage. unfold KC; auto 10.
Qed.

Lemma KC_of_eq s0 s t i : xtables_eq s0 s -> KC s0 t i s.
Proof. intros (U & C & Z & O & S & H). unfold KC. auto 10. Qed.

Lemma KC_restore s0 t i s : serv s0 t i = true -> KC s0 t i s -> xtables_eq s0 (xfin [XSetServ t i true] s).
Proof.
  intros T (U & C & Z & O & H & SV). unfold xfin, xtables_eq. cbn. repeat split; auto.
  intros t' i'. destruct (Nat.eqb t' t && Z.eqb i' i) eqn:E; [|now apply SV].
  apply andb_true_iff in E. destruct E as [E1 E2]. apply Nat.eqb_eq in E1. apply Z.eqb_eq in E2. now subst.
Qed.

(* the try statement of an outage case, entered with at most the cell of the outage changed *)
Lemma case_try_restores s0 t i exn body sw k s :
  serv s0 t i = true -> KC s0 t i s -> Forall (caseop t i) body ->
  xtables_eq s0 (st3 (xrun_try exn body sw [XSetServ t i true] k s)).
Proof.
  intros T0 Ks Hb. apply (xrun_try_inv (KC s0 t i) _ (caseop t i)); [apply KC_step | exact Hb | exact Ks |].
  intros s1. now apply KC_restore.
Qed.

Definition sync_layout (window inside : bool) : bool := inside || negb window.

(* one outage case gives the tables back: for the layout with the assignment inside the try statement at every crash
   point, for the layout of the code as it is at every crash point except the one between assignment and try *)
Lemma case_restores exn window inside swallow c cs k s0 s :
  sync_layout window inside = true -> xtables_eq s0 s ->
  xtables_eq s0 (st3 (xrun_case exn window inside swallow c cs k s)).
Proof.
  intros L E. destruct cs as [[t i] conv]. unfold xrun_case.
  destruct (has s t i); cbn [negb]; [|exact E].
  destruct (serv s t i) eqn:T; cbn [negb]; [|exact E].
  assert (T0 : serv s0 t i = true) by (destruct E as (_ & _ & _ & _ & S & _); now rewrite <- S).
  destruct inside.
  - apply case_try_restores; [exact T0|now apply KC_of_eq|repeat constructor].
  - destruct window; [discriminate|]. cbn [xrun_ops].
    (* the assignment itself raises: nothing is written; otherwise it has run when the try statement is entered *)
    destruct k as [[|j]|]; [exact E| |]; cbn [xstep]; cbn iota;
      (apply case_try_restores; [exact T0| |repeat constructor];
       apply (KC_step s0 t i exn (XSetServ t i false) None s); [cbn; auto | now apply KC_of_eq]).
Qed.

Lemma cases_restore exn window inside swallow c cs : sync_layout window inside = true ->
  forall k s0 s, xtables_eq s0 s -> xtables_eq s0 (st3 (xrun_cases exn window inside swallow c cs k s)).
Proof.
  intros L. induction cs as [|x r IH]; intros k s0 s E; [exact E|].
  cbn [xrun_cases]. pose proof (case_restores exn window inside swallow c x k s0 s L E) as E1.
  destruct (xrun_case exn window inside swallow c x k s) as [[s1 o] k1]. unfold st3 in E1. cbn [fst] in E1.
  destruct o; [now apply IH | exact E1].
Qed.

Theorem contingency_restores exn window inside raise_errors c cs conv0 k s0 :
  sync_layout window inside = true -> clean (x_net s0) = true ->
  xtables_eq s0 (st3 (run_contingency exn window inside raise_errors c cs conv0 k s0)).
Proof.
  intros L C. unfold run_contingency.
  pose proof (cases_restore exn window inside (negb raise_errors) c cs L k s0 s0 (xtables_refl s0 C)) as E1.
  destruct (xrun_cases exn window inside (negb raise_errors) c cs k s0) as [[s1 o] k1]. unfold st3 in E1. cbn [fst] in E1.
  destruct o; [|exact E1].
  apply (xrun_ops_inv _ _ exn (eq_step s0 exn)); [repeat constructor|exact E1].
Qed.

(* the layout before the repair: a fault between the outage assignment and the try statement leaves the element out of service *)
Definition s_line : xnet :=
  {| x_net := net0; sw_z := Some [0]; sw_ori := None; serv := fun _ _ => true; has := fun _ i => Z.ltb i 3 |}.

(* swallowed failures: with raise_errors = False a failing outage case does not end the analysis *)
Example nonvacuous_x :
  (* estimate: fault inside the second nested power flow (behind the first impedance write), BaseException *)
  (let r := run_estimate false true false [([true; false], Some [true; false]); ([false; true], None)] true true (Some 30%nat)
              {| x_net := net_nv; sw_z := Some [0; 0]; sw_ori := None; serv := fun _ _ => true; has := fun _ _ => true |} in
   oc3 r = XRaised false /\ sw_z (st3 r) = Some [0; 0] /\ sw_ori (st3 r) = None /\ user_tables (x_net (st3 r)) = user_tables net_nv) /\
  (* the same run without fault passes through the impedance states *)
  sw_z (st3 (xrun_ops true (est_body true false false [([true; false], None)] true true) None
              {| x_net := net0; sw_z := Some [0; 0]; sw_ori := None; serv := fun _ _ => true; has := fun _ _ => true |}))
    = Some [Z_IMP; 0] /\
  (* contingency: second outage does not converge and is swallowed, a KeyboardInterrupt hits the third outage's power flow *)
  (let r := run_contingency false false false false CPf [(0%nat, 0, true); (0%nat, 1, false); (0%nat, 2, true)] true (Some 12%nat) s_line in
   oc3 r = XRaised false /\ forall i, In i [0; 1; 2] -> serv (st3 r) 0%nat i = true) /\
  (* ... an injected Exception at the same place is swallowed like a natural one (raise_errors = False) *)
  oc3 (run_contingency true false false false CPf [(0%nat, 0, true); (0%nat, 1, false); (0%nat, 2, true)] true (Some 12%nat) s_line) = XDone.
Proof. vm_compute. repeat split; auto; intros i [<-|[<-|[<-|[]]]]; reflexivity. Qed.
