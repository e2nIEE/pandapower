(* C26/Proofs.v — lemmas for Properties/C26.v: when a branch element becomes an edge, pandapower's connected_components
   is a partition into connectivity classes on an undirected graph, the distance list is the stable Bellman-Ford table;
   witness graphs and nets. *)

From Coq Require Import List QArith Relations.
From PPV Require Import Base.Lists Base.QN Base.C07Graph Base.C26Dist C07.Model C26.Model.
Import ListNotations.
Local Open Scope nat_scope.

Definition counted (o : opts) (is_ : bool) : Prop := o_inc_oos o = true \/ is_ = true.
Lemma el_is_iff o b : el_is o b = true <-> counted o b.
Proof. unfold el_is, counted. destruct (o_inc_oos o); intuition congruence. Qed.

(* the condition under which a branch element becomes an edge; x = an open switch sits at it *)
Lemma edge_cond o b x :
  el_is o b && negb (o_respect o && x) = true <-> counted o b /\ (o_respect o = true -> x = false).
Proof.
  rewrite andb_true_iff, el_is_iff, negb_true_iff, andb_false_iff. destruct (o_respect o); intuition congruence.
Qed.

(* connected_components on an undirected graph *)
Section CC.
Variable g : graph.

Definition uarcs : list (nat * nat) := map (fun a => (e_u a, e_v a)) (g_arcs g).
Lemma cc_arcs_nil : cc_arcs g [] = uarcs.
Proof. unfold cc_arcs, uarcs. now rewrite filter_all. Qed.

Lemma cc_iff x y : In y (connected_component g [] x) <-> path uarcs x y.
Proof. unfold connected_component. rewrite cc_arcs_nil. apply reach_single. Qed.

Lemma ccs_nil : connected_components g [] = gcomps Nat.eq_dec (connected_component g []) (g_nodes g) [].
Proof.
  unfold connected_components. rewrite filter_all by reflexivity.
  assert (E : flat_map (fun a => if mem Nat.eq_dec (e_u a) [] && mem Nat.eq_dec (e_v a) [] then [[e_u a; e_v a]] else []) (g_arcs g) = []).
  { induction (g_arcs g); simpl; auto. }
  rewrite E. apply app_nil_r.
Qed.

Hypothesis Hsym : sym_arcs g = true.

Lemma uarcs_sym u v : In (u, v) uarcs -> In (v, u) uarcs.
Proof.
  unfold sym_arcs in Hsym. apply andb_prop in Hsym. destruct Hsym as [H _]. rewrite forallb_forall in H.
  unfold uarcs. rewrite !in_map_iff. intros [a [E I]]. inversion E; subst.
  specialize (H a I). apply existsb_exists in H. destruct H as [a' [I' H]]. apply andb_prop in H. destruct H as [H1 H2].
  apply Nat.eqb_eq in H1, H2. exists a'. split; auto; congruence.
Qed.
Lemma uarcs_nodes u v : In (u, v) uarcs -> In u (g_nodes g) /\ In v (g_nodes g).
Proof.
  unfold sym_arcs in Hsym. apply andb_prop in Hsym. destruct Hsym as [_ H]. rewrite forallb_forall in H.
  unfold uarcs. rewrite in_map_iff. intros [a [E I]]. inversion E; subst. specialize (H a I).
  apply andb_prop in H. destruct H as [H1 H2]. apply (mem_In nat Nat.eq_dec) in H1, H2. auto.
Qed.

(* every node lies in a component; every component is the connectivity class of one of the nodes and contains nodes
   only; two different components are disjoint *)
Theorem cc_partition :
  (forall x, In x (g_nodes g) -> exists c, In c (connected_components g []) /\ In x c) /\
  (forall c, In c (connected_components g []) ->
     (exists x, In x (g_nodes g) /\ forall y, In y c <-> path uarcs x y) /\ incl c (g_nodes g)) /\
  pairwise_disjoint (connected_components g []).
Proof.
  rewrite ccs_nil. split; [|split].
  - intros x X. apply (gcomps_cover nat Nat.eq_dec _ (path uarcs) cc_iff); auto. intros; apply rt_refl.
  - intros c C.
    assert (K : gclass (path uarcs) (g_nodes g) c).
    { apply (gcomps_class nat Nat.eq_dec _ (path uarcs) cc_iff (g_nodes g) (g_nodes g) []); auto.
      - apply incl_refl. - intros ? []. }
    split; auto. destruct K as [x [X Cl]]. intros y Y. apply Cl in Y.
    revert X. apply (closed_contains_reach nat uarcs (fun z => In z (g_nodes g))); auto.
    intros u v E _. apply uarcs_nodes in E. tauto.
  - apply (gcomps_disjoint nat Nat.eq_dec _ (path uarcs) cc_iff (path_sym nat uarcs uarcs_sym)).
    + intros x y z. apply rt_trans.
    + intros ? [].
    + constructor.
Qed.
End CC.

(* with notravbuses the result is no partition: a notravbus between two parts is reported in both
   (witness of C26_cc_partition_notrav_refuted) *)
Definition w_notrav : graph :=
  {| g_nodes := [0; 1; 2];
     g_arcs := [(0, 1, (0, 0), 1%Q); (2, 1, (0, 1), 1%Q)] |}.   (* built with notravbuses=[1]: the arcs leaving 1 are gone *)

(* the returned list is the stable table of the Bellman-Ford rounds, restricted to the source and the arc heads *)
Lemma distances_ok g src l : distances g src = Ok l ->
  exists d, sssp Nat.eq_dec (S (length (g_nodes g))) (warcs g) src = Some d /\
    forall x q, In (x, q) l <-> In x (src :: map e_v (g_arcs g)) /\ dget Nat.eq_dec d x = Some q.
Proof.
  unfold distances. destruct (mem Nat.eq_dec src (g_nodes g)); [|discriminate].
  destruct (sssp Nat.eq_dec (S (length (g_nodes g))) (warcs g) src) as [d|]; [|discriminate].
  intros H. injection H as <-. exists d. split; [reflexivity|]. intros x q. rewrite in_flat_map. split.
  - intros [y [Y I]]. apply (dedup_In nat Nat.eq_dec y (src :: map e_v (g_arcs g))) in Y.
    destruct (dget Nat.eq_dec d y) eqn:Dq; [|contradiction]. destruct I as [I|[]]. inversion I; subst. auto.
  - intros [Y Dq]. exists x. split; [now apply (dedup_In nat Nat.eq_dec x (src :: map e_v (g_arcs g)))|]. rewrite Dq. now left.
Qed.

(* notravbuses next to out-of-service buses: chain 0-1-2-3, bus 2 out of service (C26_notrav_oos_old_refuted,
   C26_stages_nonvacuous) *)
Definition w_chain : net :=
  {| buses := [{| b_id := 0; b_is := true |}; {| b_id := 1; b_is := true |}; {| b_id := 2; b_is := false |}; {| b_id := 3; b_is := true |}];
     lines := [{| r_id := 0; r_f := 0; r_t := 1; r_is := true |}; {| r_id := 1; r_f := 1; r_t := 2; r_is := true |};
               {| r_id := 2; r_f := 2; r_t := 3; r_is := true |}];
     trafos := []; trafo3ws := []; imps := []; dclines := []; xwards := []; switches := []; injs := [] |}.
Definition o_default (nt : list nat) : opts :=
  {| o_respect := true; o_lines := IAll; o_imps := IAll; o_dclines := IAll; o_trafos := IAll; o_t3 := IAll; o_nogo := None;
     o_notrav := Some nt; o_multi := true; o_inc_oos := false; o_switches := true; o_trafo_len := None; o_switch_len := None |}.
