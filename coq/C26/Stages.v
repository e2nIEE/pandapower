(* C26/Stages.v — the node-removal stages of create_nxgraph for every input: the build stage yields a symmetric adjacency
   whose arcs end at nodes; on such an adjacency networkx' remove_node never raises and equals the plain removal; the
   returned graph is the build-stage graph restricted to the surviving buses minus the arcs leaving notravbuses; no arc
   dangles.  Walks ([walk_to]) are defined here for the statements about nogobuses and notravbuses in Properties/C26.v. *)
From Coq Require Import String.
From Coq Require Import List QArith Relations.
From PPV Require Import Base.QN Base.C07Graph C07.Model C26.Model C26.Proofs.
Import ListNotations.
Local Open Scope nat_scope.

Definition mirror (a : arc) : arc := (e_v a, e_u a, e_k a, e_w a).
Definition nogo_list (o : opts) : list nat := match o_nogo o with Some l => l | None => [] end.
Definition notrav_list (o : opts) : list nat := match o_notrav o with Some l => l | None => [] end.
Definition oos_bus (n : net) (b : nat) : Prop := exists r, In r (buses n) /\ b_id r = b /\ b_is r = false.
(* a bus that is taken out of the graph: a nogobus, or (unless include_out_of_service) an out-of-service bus *)
Definition gone (o : opts) (n : net) (b : nat) : Prop := In b (nogo_list o) \/ (o_inc_oos o = false /\ oos_bus n b).

Definition symA (l : list arc) : Prop := forall a, In a l -> In (mirror a) l.
Definition closedA (g : graph) : Prop := forall a, In a (g_arcs g) -> In (e_u a) (g_nodes g) /\ In (e_v a) (g_nodes g).
Definition good (g : graph) : Prop := symA (g_arcs g) /\ closedA g.

Lemma arc_eta (a : arc) : a = (e_u a, e_v a, e_k a, e_w a).
Proof. destruct a as [[[u v] k] w]. reflexivity. Qed.
Lemma mirror_mirror a : mirror (mirror a) = a.
Proof. destruct a as [[[u v] k] w]. reflexivity. Qed.
Lemma mirror_loop a : e_u a = e_v a -> mirror a = a.
Proof. destruct a as [[[u v] k] w]. unfold mirror, e_u, e_v, e_k, e_w. simpl. intros ->. reflexivity. Qed.

Lemma same_pair_mirror a u v : same_pair (mirror a) u v = same_pair a u v.
Proof. destruct a as [[[x y] k] w]. unfold same_pair, mirror, e_u, e_v. rewrite orb_comm. f_equal; apply andb_comm. Qed.

(* add_edge e overwrites the arc a: same pair of nodes and (MultiGraph) same key *)
Definition clash (m : bool) (a : arc) (e : edge) : bool :=
  same_pair a (e_u e) (e_v e) && (negb m || key_eqb (e_k a) (e_k e)).
Lemma clash_mirror m a e : clash m (mirror a) e = clash m a e.
Proof. unfold clash. now rewrite same_pair_mirror. Qed.

Lemma symA_filter p l : (forall a, p (mirror a) = p a) -> symA l -> symA (filter p l).
Proof. intros P S a I. apply filter_In in I. destruct I as [I E]. apply filter_In. split; [now apply S|now rewrite P]. Qed.

Lemma add_edge_new_spec e a :
  In a (if Nat.eqb (e_u e) (e_v e) then [e] else [e; (e_v e, e_u e, e_k e, e_w e)]) <-> a = e \/ a = mirror e.
Proof.
  fold (mirror e). destruct (Nat.eqb (e_u e) (e_v e)) eqn:Q; simpl.
  - apply Nat.eqb_eq in Q. rewrite (mirror_loop e Q). intuition.
  - intuition.
Qed.

Lemma add_edge_In m l e a : In a (add_edge m l e) <-> (In a l /\ clash m a e = false) \/ a = e \/ a = mirror e.
Proof. unfold add_edge, clash. rewrite in_app_iff, add_edge_new_spec, filter_In, negb_true_iff. tauto. Qed.

Lemma add_edge_sym m l e : symA l -> symA (add_edge m l e).
Proof.
  intros S a I. apply add_edge_In in I. apply add_edge_In. destruct I as [[I P]|[->| ->]].
  - left. split; [now apply S|]. now rewrite clash_mirror.
  - right. now right.
  - right. left. apply mirror_mirror.
Qed.
Lemma fold_add_sym m es acc : symA acc -> symA (fold_left (add_edge m) es acc).
Proof. revert acc. induction es; simpl; intros; auto. apply IHes. now apply add_edge_sym. Qed.

(* completeness: every edge of the list is represented by an arc between the same ordered pair (and, in a MultiGraph,
   with the same key); a later edge between the same pair (with the same key) replaces it *)
Definition repr (m : bool) (e : edge) (a : arc) : Prop :=
  e_u a = e_u e /\ e_v a = e_v e /\ (m = true -> e_k a = e_k e).
Lemma key_eqb_eq a b : key_eqb a b = true -> a = b.
Proof.
  destruct a, b. unfold key_eqb. simpl. intros H. apply andb_prop in H. destruct H as [H1 H2].
  apply Nat.eqb_eq in H1, H2. congruence.
Qed.
Lemma add_edge_keeps_repr m l e' e :
  (exists a, In a l /\ repr m e a) -> exists a, In a (add_edge m l e') /\ repr m e a.
Proof.
  intros [a [I [Ru [Rv Rk]]]].
  destruct (clash m a e') eqn:P.
  - unfold clash in P. apply andb_prop in P. destruct P as [P K].
    assert (Kk : m = true -> e_k e' = e_k e).
    { intros ->. apply key_eqb_eq in K. rewrite <- K. now apply Rk. }
    unfold same_pair in P. apply orb_prop in P. destruct P as [P|P]; apply andb_prop in P; destruct P as [P1 P2];
      apply Nat.eqb_eq in P1, P2.
    + exists e'. split; [apply add_edge_In; auto|]. repeat split; auto; congruence.
    + exists (mirror e'). split; [apply add_edge_In; auto|].
      destruct e' as [[[x y] k] w]. unfold repr, mirror, e_u, e_v, e_k, e_w in *. simpl in *. repeat split; auto; congruence.
  - exists a. split; [apply add_edge_In; auto|]. repeat split; auto.
Qed.
Lemma fold_add_complete m es acc e :
  (In e es \/ exists a, In a acc /\ repr m e a) -> exists a, In a (fold_left (add_edge m) es acc) /\ repr m e a.
Proof.
  revert acc. induction es as [|e' es IH]; simpl; intros acc H.
  - destruct H as [[]|H]. exact H.
  - apply IH. destruct H as [[->|H]|H]; auto.
    + right. exists e. split; [apply add_edge_In; auto|]. repeat split; auto.
    + right. now apply add_edge_keeps_repr.
Qed.

(* exactness on the edge list: an arc of the build stage is an edge of the list (or its mirror image) that no later
   edge has overwritten *)
Lemma fold_add_exact m es : forall acc a,
  In a (fold_left (add_edge m) es acc) <->
  (In a acc /\ forall e', In e' es -> clash m a e' = false) \/
  (exists es1 e es2, es = es1 ++ e :: es2 /\ (a = e \/ a = mirror e) /\ forall e', In e' es2 -> clash m a e' = false).
Proof.
  induction es as [|e0 es IH]; intros acc a; simpl.
  - split; [intros I; left; split; [exact I|intros ? []]|].
    intros [[I _]|[es1 [e [es2 [E _]]]]]; auto. destruct es1; discriminate.
  - rewrite IH, add_edge_In. split.
    + intros [[[[I C0]|E] C]|[es1 [e [es2 [E [Ea C]]]]]].
      * left. split; auto. intros e' [<-|I']; auto.
      * right. exists [], e0, es. auto.
      * right. exists (e0 :: es1), e, es2. subst. auto.
    + intros [[I C]|[es1 [e [es2 [E [Ea C]]]]]].
      * left. split; [left; split; auto|]; intros; apply C; auto.
      * destruct es1 as [|e1 es1]; simpl in E; inversion E; subst.
        -- left. split; auto.
        -- right. exists es1, e, es2. auto.
Qed.
Lemma build_nodes o n es x :
  In x (g_nodes (build_graph o n es)) <->
  (exists e, In e es /\ (x = e_u e \/ x = e_v e)) \/ exists r, In r (buses n) /\ b_id r = x.
Proof.
  unfold build_graph. simpl. rewrite dedup_In, in_app_iff, in_flat_map, in_map_iff. split.
  - intros [[e [I [H|[H|[]]]]]|[r [E I]]]; [left; exists e|left; exists e|right; exists r]; auto.
  - intros [[e [I [H|H]]]|[r [I E]]]; [left; exists e|left; exists e|right; exists r]; simpl; auto.
Qed.

Lemma build_good o n es : good (build_graph o n es).
Proof.
  split.
  - unfold build_graph. apply fold_add_sym. intros a [].
  - intros a I. unfold build_graph in I. apply fold_add_exact in I.
    destruct I as [[[] _]|[es1 [e [es2 [-> [E _]]]]]].
    split; apply build_nodes; left; exists e; (split; [apply in_elt|]); destruct E as [->| ->]; simpl; auto.
Qed.

Definition rm_spec (g g1 : graph) (l : list nat) : Prop :=
  (forall x, In x (g_nodes g1) <-> In x (g_nodes g) /\ ~ In x l) /\
  (forall a, In a (g_arcs g1) <-> In a (g_arcs g) /\ ~ In (e_u a) l /\ ~ In (e_v a) l).

Lemma rm_spec_nil g : rm_spec g g [].
Proof. split; intros; simpl; tauto. Qed.
Lemma rm_spec_cons g g1 g2 b l : rm_spec g g1 [b] -> rm_spec g1 g2 l -> rm_spec g g2 (b :: l).
Proof.
  intros [N1 A1] [N2 A2]. split.
  - intros x. rewrite N2, N1. simpl. tauto.
  - intros a. rewrite A2, A1. simpl. tauto.
Qed.
Lemma neqb_iff x b : negb (Nat.eqb x b) = true <-> x <> b.
Proof. rewrite negb_true_iff. apply Nat.eqb_neq. Qed.
Lemma rm_spec_remove g b : rm_spec g (remove_node g b) [b].
Proof.
  split.
  - intros x. unfold remove_node. simpl. rewrite filter_In, neqb_iff. intuition.
  - intros a. unfold remove_node. simpl. rewrite filter_In, andb_true_iff, !neqb_iff. intuition.
Qed.
Lemma rm_spec_absent g b : closedA g -> ~ In b (g_nodes g) -> rm_spec g g [b].
Proof.
  intros C N. split.
  - intros x. simpl. intuition. subst. contradiction.
  - intros a. split; [|tauto]. intros I. destruct (C a I) as [U V].
    repeat split; auto; intros [E|[]]; subst; contradiction.
Qed.
Lemma good_remove g b : good g -> good (remove_node g b).
Proof.
  intros [S C]. split.
  - unfold remove_node. apply symA_filter; auto.
    intros a. apply andb_comm.
  - intros a I. pose proof (rm_spec_remove g b) as [N A]. apply A in I. destruct I as [I [Nu Nv]].
    destruct (C a I) as [U V]. split; apply N; split; auto.
Qed.

(* on a symmetric adjacency networkx' remove_node does not raise and is the plain removal *)
Lemma nx_remove_sym g b : symA (g_arcs g) -> nx_remove_node g b = Ok (remove_node g b).
Proof.
  intros S. unfold nx_remove_node, remove_node.
  set (nbrs := map e_v (filter (fun a => Nat.eqb (e_u a) b) (g_arcs g))).
  assert (NB : forall a, In a (g_arcs g) -> e_v a = b -> In (e_u a) nbrs).
  { intros a I E. unfold nbrs. apply in_map_iff. exists (mirror a). split.
    - reflexivity.
    - apply filter_In. split; [now apply S|]. now apply Nat.eqb_eq. }
  assert (F : forallb (fun u => existsb (fun a => Nat.eqb (e_u a) u && Nat.eqb (e_v a) b) (g_arcs g)) nbrs = true).
  { apply forallb_forall. intros u U. unfold nbrs in U. apply in_map_iff in U. destruct U as [a [E I]].
    apply filter_In in I. destruct I as [I Q]. apply Nat.eqb_eq in Q. apply existsb_exists. exists (mirror a).
    split; [now apply S|]. change (Nat.eqb (e_v a) u && Nat.eqb (e_u a) b = true). now rewrite E, Q, !Nat.eqb_refl. }
  rewrite F. f_equal. f_equal. apply filter_ext_in. intros a I.
  destruct (Nat.eqb (e_v a) b) eqn:Q; simpl; auto.
  apply Nat.eqb_eq in Q. assert (M : mem Nat.eq_dec (e_u a) nbrs = true) by (apply (mem_In nat Nat.eq_dec); auto).
  now rewrite M.
Qed.

(* nogobuses: raises exactly when a listed bus is not (any more) in the graph *)
Definition nogo_step (g : graph) (b : nat) : res graph :=
  if mem Nat.eq_dec b (g_nodes g) then Ok (remove_node g b) else Raise "NetworkXError".
Lemma nogo_fold_ok l : forall g g', good g -> fold_res nogo_step l g = Ok g' -> good g' /\ rm_spec g g' l.
Proof.
  induction l as [|b l IH]; simpl; intros g g' G H.
  - inversion H; subst. split; auto. apply rm_spec_nil.
  - unfold nogo_step at 1 in H. destruct (mem Nat.eq_dec b (g_nodes g)); [|discriminate].
    destruct (IH _ _ (good_remove g b G) H) as [G' R]. split; auto.
    eapply rm_spec_cons; eauto. apply rm_spec_remove.
Qed.
Lemma nogo_fold_total l : forall g, NoDup l -> (forall b, In b l -> In b (g_nodes g)) -> exists g', fold_res nogo_step l g = Ok g'.
Proof.
  induction l as [|b l IH]; simpl; intros g N I; [eauto|].
  unfold nogo_step at 1. assert (M : mem Nat.eq_dec b (g_nodes g) = true) by (apply (mem_In nat Nat.eq_dec); auto).
  rewrite M. inversion N; subst. apply IH; auto.
  intros c C. apply (rm_spec_remove g b). split; auto. intros [E|[]]. subst. contradiction.
Qed.

(* out-of-service buses: never raises on a symmetric adjacency *)
Definition oos_step (g : graph) (b : nat) : res graph := if mem Nat.eq_dec b (g_nodes g) then nx_remove_node g b else Ok g.
Lemma oos_fold l : forall g, good g -> exists g', fold_res oos_step l g = Ok g' /\ good g' /\ rm_spec g g' l.
Proof.
  induction l as [|b l IH]; simpl; intros g G.
  - exists g. split; [reflexivity|split; [exact G|apply rm_spec_nil]].
  - unfold oos_step at 1. destruct (mem Nat.eq_dec b (g_nodes g)) eqn:M.
    + rewrite (nx_remove_sym g b (proj1 G)). destruct (IH _ (good_remove g b G)) as [g' [F [G' R]]].
      exists g'. split; [exact F|split; [exact G'|]]. eapply rm_spec_cons; eauto. apply rm_spec_remove.
    + destruct (IH _ G) as [g' [F [G' R]]]. exists g'. split; [exact F|split; [exact G'|]].
      eapply rm_spec_cons; eauto. apply rm_spec_absent; [exact (proj2 G)|]. now apply (mem_nIn nat Nat.eq_dec).
Qed.

(* notravbuses (with skip): never raises; the nodes stay, the arcs leaving a listed bus go *)
Definition notrav_step (g : graph) (b : nat) : res graph :=
  if mem Nat.eq_dec b (g_nodes g)
  then Ok {| g_nodes := g_nodes g; g_arcs := filter (fun a => negb (Nat.eqb (e_u a) b)) (g_arcs g) |}
  else Ok g.
Lemma notrav_fold l : forall g, closedA g -> exists g', fold_res notrav_step l g = Ok g' /\ closedA g' /\
  g_nodes g' = g_nodes g /\ forall a, In a (g_arcs g') <-> In a (g_arcs g) /\ ~ In (e_u a) l.
Proof.
  induction l as [|b l IH]; simpl; intros g C.
  - exists g. split; [reflexivity|split; [exact C|split; [reflexivity|]]]. intros a. tauto.
  - unfold notrav_step at 1. destruct (mem Nat.eq_dec b (g_nodes g)) eqn:M.
    + set (g1 := {| g_nodes := g_nodes g; g_arcs := filter (fun a => negb (Nat.eqb (e_u a) b)) (g_arcs g) |}).
      assert (C1 : closedA g1).
      { intros a I. unfold g1 in I. apply filter_In in I. exact (C a (proj1 I)). }
      destruct (IH g1 C1) as [g' [F [C' [N A]]]]. exists g'. split; [exact F|split; [exact C'|split; [exact N|]]].
      intros a. rewrite A. unfold g1. simpl. rewrite filter_In, neqb_iff. intuition congruence.
    + destruct (IH g C) as [g' [F [C' [N A]]]]. exists g'. split; [exact F|split; [exact C'|split; [exact N|]]].
      intros a. rewrite A. split; [|tauto]. intros [I NI]. split; auto. intros [E|E]; [|contradiction]. subst.
      apply (mem_nIn nat Nat.eq_dec) in M. apply M. exact (proj1 (C a I)).
Qed.

Lemma stage_nogo_eq o g : stage_nogo o g = fold_res nogo_step (nogo_list o) g.
Proof. reflexivity. Qed.
Lemma stage_notrav_eq o g : stage_notrav true o g = fold_res notrav_step (notrav_list o) g.
Proof. reflexivity. Qed.
Definition oos_ids (n : net) : list nat := map b_id (filter (fun r => negb (b_is r)) (buses n)).
Lemma oos_ids_In n b : In b (oos_ids n) <-> oos_bus n b.
Proof.
  unfold oos_ids, oos_bus. rewrite in_map_iff. split; intros [r H]; exists r; rewrite filter_In, negb_true_iff in *; tauto.
Qed.
Lemma stage_oos_spec o n g : good g ->
  exists g', stage_oos o n g = Ok g' /\ good g' /\ rm_spec g g' (if o_inc_oos o then [] else oos_ids n).
Proof.
  intros G. unfold stage_oos. destruct (o_inc_oos o).
  - exists g. split; [reflexivity|split; [exact G|apply rm_spec_nil]].
  - apply (oos_fold (oos_ids n) g G).
Qed.

Lemma no_dangling_iff g : no_dangling g = true <-> closedA g.
Proof.
  unfold no_dangling, closedA. rewrite forallb_forall. split; intros H a I; specialize (H a I).
  - apply andb_prop in H. destruct H as [H1 H2]. apply (mem_In nat Nat.eq_dec) in H1, H2. auto.
  - apply andb_true_iff. split; apply (mem_In nat Nat.eq_dec); tauto.
Qed.

Theorem create_nxgraph_stages o n lens g : create_nxgraph o n lens = Ok g ->
  exists es, raw_edges o n lens = Ok es /\
    (forall x, In x (g_nodes g) <-> In x (g_nodes (build_graph o n es)) /\ ~ gone o n x) /\
    (forall a, In a (g_arcs g) <->
       In a (g_arcs (build_graph o n es)) /\ ~ gone o n (e_u a) /\ ~ gone o n (e_v a) /\ ~ In (e_u a) (notrav_list o)) /\
    no_dangling g = true.
Proof.
  unfold create_nxgraph. destruct (raw_edges o n lens) as [es|s] eqn:R; simpl; [|discriminate].
  destruct (stage_nogo o (build_graph o n es)) as [g1|s] eqn:S1; simpl; [|discriminate].
  rewrite stage_nogo_eq in S1. destruct (nogo_fold_ok _ _ _ (build_good o n es) S1) as [G1 [N1 A1]].
  destruct (stage_oos_spec o n g1 G1) as [g2 [S2 [G2 [N2 A2]]]]. rewrite S2. simpl.
  rewrite stage_notrav_eq. destruct (notrav_fold (notrav_list o) g2 (proj2 G2)) as [g3 [S3 [C3 [N3 A3]]]].
  rewrite S3. intros H. inversion H; subst g3. clear H. exists es. split; auto.
  assert (GN : forall x, gone o n x <-> In x (nogo_list o) \/ In x (if o_inc_oos o then [] else oos_ids n)).
  { intros x. unfold gone. destruct (o_inc_oos o); simpl.
    - intuition discriminate.
    - rewrite oos_ids_In. intuition. }
  split; [|split].
  - intros x. rewrite N3, N2, N1, GN. tauto.
  - intros a. rewrite A3, A2, A1, !GN. tauto.
  - now apply no_dangling_iff.
Qed.

(* walk_to E x l y: l lists the nodes visited after x, ending in y *)
Fixpoint walk_to (E : list (nat * nat)) (x : nat) (l : list nat) (y : nat) : Prop :=
  match l with [] => x = y | z :: t => In (x, z) E /\ walk_to E z t y end.
Lemma path_walk E x y : path E x y <-> exists l, walk_to E x l y.
Proof.
  split.
  - intros P. apply clos_rt_rt1n in P. induction P as [x|x z y S P [l W]].
    + exists []. reflexivity.
    + exists (z :: l). split; auto.
  - intros [l W]. revert x W. induction l as [|z t IH]; simpl; intros x W.
    + subst. apply rt_refl.
    + destruct W as [I W]. eapply rt_trans; [apply rt_step; exact I|now apply IH].
Qed.

Lemma uarcs_In g u v : In (u, v) (uarcs g) <-> exists a, In a (g_arcs g) /\ e_u a = u /\ e_v a = v.
Proof.
  unfold uarcs. rewrite in_map_iff. split; intros [a H]; exists a.
  - destruct H as [E I]. inversion E. auto.
  - destruct H as [I [<- <-]]. auto.
Qed.

(* the same call without notravbuses *)
Definition without_notrav (o : opts) : opts :=
  {| o_respect := o_respect o; o_lines := o_lines o; o_imps := o_imps o; o_dclines := o_dclines o; o_trafos := o_trafos o;
     o_t3 := o_t3 o; o_nogo := o_nogo o; o_notrav := None; o_multi := o_multi o; o_inc_oos := o_inc_oos o;
     o_switches := o_switches o; o_trafo_len := o_trafo_len o; o_switch_len := o_switch_len o |}.
Lemma raw_edges_without o n lens : raw_edges (without_notrav o) n lens = raw_edges o n lens.
Proof. destruct o. reflexivity. Qed.
Lemma build_without o n es : build_graph (without_notrav o) n es = build_graph o n es.
Proof. destruct o. reflexivity. Qed.
(* the call with notravbuses is the call without them followed by the notravbuses stage *)
Lemma create_nxgraph_notrav o n lens :
  create_nxgraph o n lens = bind (create_nxgraph (without_notrav o) n lens) (stage_notrav true o).
Proof.
  unfold create_nxgraph. rewrite raw_edges_without. destruct (raw_edges o n lens) as [es|]; simpl; [|reflexivity].
  rewrite build_without. change (stage_nogo (without_notrav o)) with (stage_nogo o).
  destruct (stage_nogo o (build_graph o n es)) as [g1|]; simpl; [|reflexivity].
  replace (stage_oos (without_notrav o) n g1) with (stage_oos o n g1) by (destruct o; reflexivity).
  destruct (stage_oos o n g1); reflexivity.
Qed.

(* the chain 0-1-2-3 with bus 2 out of service *)
Example stages_nonvacuous :
  exists g, create_nxgraph (o_default [1]) w_chain [1; 1; 1]%Q = Ok g /\
    g_nodes g = [0; 1; 3] /\ g_arcs g = [(0, 1, (0, 0), 1%Q)] /\ walk_to (uarcs g) 0 [1] 1.
Proof. eexists. split; [vm_compute; reflexivity|]. simpl. repeat split; auto. Qed.
