(* C16 — "the reported results are a valid power flow": on the bus balance equations both calculations use.
   The OPF's equality constraints and the power flow's mismatch are the same function  V conj(Ybus V) - Sbus  and the
   Sbus the power flow builds from the dispatch equals the OPF's Sbus wherever the power flow has an equation. *)
From Coq Require Import ZArith QArith Qabs List Bool Lia Lqa String.
From PPV Require Import Base.Lists Base.QN Base.QC Base.Out C16.Model.
Import ListNotations.
Open Scope Q_scope.

(* total injection at bus i before the division by baseMVA *)
Definition inj_opf (els : list el) (i : nat) : C :=
  Csub (sum_at gb_bus (fun g => mkC (gb_pg g) (gb_qg g)) (filter gb_on (opf_gens els)) i)
       (sum_at dm_bus (fun d => mkC (dm_p d) (dm_q d)) (opf_dems els) i).
Definition inj_pf (els : list el) (i : nat) : C :=
  Csub (sum_at gb_bus (fun g => mkC (gb_pg g) (gb_qg g)) (filter gb_on (pf_gens els)) i)
       (sum_at dm_bus (fun d => mkC (dm_p d) (dm_q d)) (pf_dems els) i).

(* no ext_grid in service at bus i / no gen or ext_grid in service at bus i *)
Definition no_ext_at (els : list el) (i : nat) : Prop :=
  forall e, In e els -> l_on e = true -> l_bus e = i -> l_kind e <> KExt.
Definition no_vctrl_at (els : list el) (i : nat) : Prop :=
  forall e, In e els -> l_on e = true -> l_bus e = i -> is_vctrl e = false.

(* what the voltage-controlling elements (gens, ext_grids) in service at bus i dispatch, and the demand of the power flow there *)
Definition gen_sum (els : list el) (i : nat) : C :=
  sum_at l_bus (fun e => mkC (l_p e) (l_q e)) (filter (fun e => l_on e && is_vctrl e) els) i.
Definition dem_sum_pf (els : list el) (i : nat) : C := sum_at dm_bus (fun d => mkC (dm_p d) (dm_q d)) (pf_dems els) i.

Lemma sum_at_cons {A} (bus : A -> nat) (val : A -> C) a l i :
  sum_at bus val (a :: l) i = if Nat.eqb (bus a) i then Cadd (val a) (sum_at bus val l i) else sum_at bus val l i.
Proof. reflexivity. Qed.

(* one element more: expose its contribution, abstract the sums over the rest *)
Ltac expose Eb :=
  cbn [map filter gb_on negb]; rewrite ?sum_at_cons;
  cbn [gb_bus dm_bus as_dem gb_pg gb_qg dm_p dm_q l_bus]; rewrite ?Eb.
Ltac abstract_sums IH :=
  revert IH;
  repeat match goal with |- context [sum_at ?a ?b ?c ?i] => let s := fresh "s" in generalize (sum_at a b c i); intro s end.

(* the OPF's injection: a controllable sgen / load / storage is a generator row with PG = rsign * p in the OPF and a
   demand pdsign * p in the power flow, and rsign = - pdsign for these kinds *)
Lemma inj_opf_split els i :
  inj_opf els i ==c Csub (gen_sum els i) (dem_sum_pf els i).
Proof.
  induction els as [|e els IH]; [split; reflexivity|].
  unfold inj_opf, gen_sum, dem_sum_pf, opf_gens, opf_dems, pf_dems in *. cbn [filter].
  destruct (l_on e) eqn:Eon; cbn [andb]; [|exact IH].
  unfold is_row in *. destruct (is_vctrl e) eqn:Ev; cbn [orb].
  - (* gen, ext_grid: the same generator row on both sides *)
    assert (Hk : rsign (l_kind e) == 1) by (unfold is_vctrl in Ev; destruct (l_kind e); try discriminate; reflexivity).
    destruct (Nat.eqb (l_bus e) i) eqn:Eb; expose Eb; [|exact IH].
    abstract_sums IH. cunfold. qstrip. rewrite Hk. intros [I1 I2]; split; lra.
  - assert (Hk : rsign (l_kind e) == - pdsign (l_kind e))
      by (unfold is_vctrl in Ev; destruct (l_kind e); try discriminate; reflexivity).
    destruct (Nat.eqb (l_bus e) i) eqn:Eb; [|destruct (l_var e); expose Eb; exact IH].
    destruct (l_var e); expose Eb; abstract_sums IH; cunfold; qstrip; intros [I1 I2].
    + (* controllable: a generator row rsign * (p, q) in the OPF, a demand pdsign * (p, q) in the power flow *)
      rewrite Hk. split; lra.
    + (* fixed: the same demand on both sides *)
      split; lra.
Qed.

(* the power flow's injection is the same difference, with the generator rows holding l_xp / l_xq where the dispatch
   gives no setpoint *)
Lemma sum_at_map {A B} (bus : B -> nat) (val : B -> C) (f : A -> B) l i :
  sum_at bus val (map f l) i = sum_at (fun a => bus (f a)) (fun a => val (f a)) l i.
Proof. induction l as [|a l IH]; [reflexivity|]. cbn [map]. rewrite !sum_at_cons, IH. reflexivity. Qed.

Definition pf_row_val (e : el) : C := mkC (match l_kind e with KExt => l_xp e | _ => l_p e end) (l_xq e).
Lemma inj_pf_split els i :
  inj_pf els i = Csub (sum_at l_bus pf_row_val (filter (fun e => l_on e && is_vctrl e) els) i) (dem_sum_pf els i).
Proof.
  unfold inj_pf, pf_gens, dem_sum_pf. rewrite filter_map_comm, filter_all by reflexivity. rewrite sum_at_map. reflexivity.
Qed.

(* two sums over the same rows agree in a component (pr = re or im) if the rows at bus i do *)
Lemma sum_at_ext {A} (pr : C -> Q) (bus : A -> nat) (f g : A -> C) l i :
  (forall x y, pr (Cadd x y) == pr x + pr y) ->
  (forall a, In a l -> bus a = i -> pr (f a) == pr (g a)) -> pr (sum_at bus f l i) == pr (sum_at bus g l i).
Proof.
  intros Hadd. induction l as [|a l IH]; intros H; [reflexivity|]. rewrite !sum_at_cons.
  assert (IH' := IH (fun b Hb => H b (or_intror Hb))).
  destruct (Nat.eqb (bus a) i) eqn:E; [|exact IH'].
  apply Nat.eqb_eq in E. rewrite !Hadd, IH', (H a (or_introl eq_refl) E). reflexivity.
Qed.

Lemma in_service_vctrl e els : In e (filter (fun e => l_on e && is_vctrl e) els) -> In e els /\ l_on e = true /\ is_vctrl e = true.
Proof. intros H. apply filter_In in H. destruct H as [H1 H2]. apply andb_prop in H2. tauto. Qed.

(* active power: the two injections agree at every bus without an ext_grid (gens keep their dispatched p) *)
Lemma inj_re_eq els i : no_ext_at els i -> re (inj_pf els i) == re (inj_opf els i).
Proof.
  intros Hno. rewrite (inj_opf_split els i), inj_pf_split. unfold gen_sum, Csub. cbn [re]. qstrip.
  rewrite (sum_at_ext re l_bus pf_row_val (fun e => mkC (l_p e) (l_q e))); [reflexivity | intros; apply qadd_correct |].
  intros e He Hb. apply in_service_vctrl in He. destruct He as (Hin & Hon & _).
  pose proof (Hno e Hin Hon Hb) as Hk. unfold pf_row_val. cbn [re]. destruct (l_kind e); try reflexivity. congruence.
Qed.

(* reactive power: they agree at every bus without a gen / ext_grid (the PQ buses of the power flow) *)
Lemma inj_im_eq els i : no_vctrl_at els i -> im (inj_pf els i) == im (inj_opf els i).
Proof.
  intros Hno. rewrite (inj_opf_split els i), inj_pf_split. unfold gen_sum, Csub. cbn [im]. qstrip.
  rewrite (sum_at_ext im l_bus pf_row_val (fun e => mkC (l_p e) (l_q e))); [reflexivity | intros; apply qadd_correct |].
  intros e He Hb. apply in_service_vctrl in He. destruct He as (Hin & Hon & Hv).
  rewrite (Hno e Hin Hon Hb) in Hv. discriminate.
Qed.

Definition sb_opf (base : Q) (els : list el) : nat -> C := sbus_at base (opf_gens els) (opf_dems els).
Definition sb_pf (base : Q) (els : list el) : nat -> C := sbus_at base (pf_gens els) (pf_dems els).

Lemma sbus_re_eq base els i : no_ext_at els i -> re (sb_pf base els i) == re (sb_opf base els i).
Proof.
  intros H. unfold sb_pf, sb_opf, sbus_at, Cdivq. cbn [re]. fold (inj_pf els i). fold (inj_opf els i).
  qstrip. rewrite (inj_re_eq els i H). reflexivity.
Qed.
Lemma sbus_im_eq base els i : no_vctrl_at els i -> im (sb_pf base els i) == im (sb_opf base els i).
Proof.
  intros H. unfold sb_pf, sb_opf, sbus_at, Cdivq. cbn [im]. fold (inj_pf els i). fold (inj_opf els i).
  qstrip. rewrite (inj_im_eq els i H). reflexivity.
Qed.

(* the mismatch of the power flow at V is the OPF's mismatch at V, component by component *)
Lemma mis_re_eq Y V sb sb' i : re (sb i) == re (sb' i) -> re (mis_at Y V sb i) == re (mis_at Y V sb' i).
Proof. intros H. unfold mis_at, Csub. cbn [re]. qstrip. rewrite H. reflexivity. Qed.
Lemma mis_im_eq Y V sb sb' i : im (sb i) == im (sb' i) -> im (mis_at Y V sb i) == im (mis_at Y V sb' i).
Proof. intros H. unfold mis_at, Csub. cbn [im]. qstrip. rewrite H. reflexivity. Qed.

Lemma opf_g_bound nb Y V sb eps : Forall (fun x => Qabs x <= eps) (opf_g nb Y V sb) ->
  forall i, (i < nb)%nat -> Qabs (re (mis_at Y V sb i)) <= eps /\ Qabs (im (mis_at Y V sb i)) <= eps.
Proof.
  unfold opf_g. intros H i Hi. apply Forall_app in H. destruct H as [H1 H2].
  rewrite Forall_map in H1, H2. rewrite Forall_forall in H1, H2.
  assert (Hin : In i (seq 0 nb)) by (apply in_seq; lia). split; [exact (H1 i Hin) | exact (H2 i Hin)].
Qed.

(* if the OPF's final point (V and the dispatch) satisfies every power-balance constraint within eps, then at the
   same V every equation of the power flow that takes the dispatch as setpoints is satisfied within eps — for any network
   (Ybus), any mixture of element kinds, controllable or fixed, in or out of service, any number of elements per bus.
   Hypotheses on the bus types of the power flow: a PV or PQ bus holds no ext_grid, a PQ bus holds no gen. *)
Theorem opf_point_is_pf_point base nb Y V els pv pq eps :
  (forall i, In i pv \/ In i pq -> (i < nb)%nat /\ no_ext_at els i) ->
  (forall i, In i pq -> no_vctrl_at els i) ->
  Forall (fun x => Qabs x <= eps) (opf_g nb Y V (sb_opf base els)) ->
  Forall (fun x => Qabs x <= eps) (pf_F Y V (sb_pf base els) pv pq).
Proof.
  intros Hpvpq Hpq Hg. pose proof (opf_g_bound _ _ _ _ _ Hg) as Hb. unfold pf_F.
  apply Forall_app. split; [|apply Forall_app; split]; rewrite Forall_map; apply Forall_forall; intros i Hi.
  - destruct (Hpvpq i (or_introl Hi)) as [Hlt Hne].
    rewrite (mis_re_eq Y V _ (sb_opf base els) i (sbus_re_eq base els i Hne)). exact (proj1 (Hb i Hlt)).
  - destruct (Hpvpq i (or_intror Hi)) as [Hlt Hne].
    rewrite (mis_re_eq Y V _ (sb_opf base els) i (sbus_re_eq base els i Hne)). exact (proj1 (Hb i Hlt)).
  - destruct (Hpvpq i (or_intror Hi)) as [Hlt Hne].
    rewrite (mis_im_eq Y V _ (sb_opf base els) i (sbus_im_eq base els i (Hpq i Hi))). exact (proj2 (Hb i Hlt)).
Qed.

(* the injection computed from V at bus i; pfsoln reports it plus the demand as what the generators at the bus together
   supply (Properties.C16.C16_pf_reports_opf_infeed) *)
Definition calc_inj (Y : list (list C)) (V : list C) (i : nat) : C := Cmul (nth i V C0) (Cconj (row_dot (nth i Y []) V)).
(* not vacuous: two buses, an ext_grid at bus 0, a controllable load (OPF variable) and a fixed sgen at bus 1 *)
Definition ex_els : list el :=
  [ {| l_kind := KExt; l_bus := 0; l_on := true; l_var := false; l_p := 1; l_q := 0; l_xp := 0; l_xq := 0 |};
    {| l_kind := KLoad; l_bus := 1; l_on := true; l_var := true; l_p := 3 # 2; l_q := 1 # 4; l_xp := 0; l_xq := 0 |};
    {| l_kind := KSgen; l_bus := 1; l_on := true; l_var := false; l_p := 1 # 2; l_q := 0; l_xp := 0; l_xq := 0 |} ].
Example balance_nonvacuous :
  (forall i, In i [] \/ In i [1%nat] -> (i < 2)%nat /\ no_ext_at ex_els i) /\
  (forall i, In i [1%nat] -> no_vctrl_at ex_els i) /\
  sb_opf 1 ex_els 1 ==c mkC (-1) (- (1 # 4)) /\ sb_pf 1 ex_els 1 ==c mkC (-1) (- (1 # 4)) /\
  ~ sb_pf 1 ex_els 0 ==c sb_opf 1 ex_els 0.
Proof.
  split; [|split; [|split; [|split]]].
  - intros i [[]|[<-|[]]]. split; [lia|]. intros e [<-|[<-|[<-|[]]]]; cbn; intros; congruence.
  - intros i [<-|[]]. intros e [<-|[<-|[<-|[]]]]; cbn; intros; congruence.
  - vm_compute. split; reflexivity.
  - vm_compute. split; reflexivity.
  - vm_compute. intros [H _]. discriminate.
Qed.
