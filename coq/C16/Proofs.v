(* C16 — lemmas: constraint boxes pulled back through the result sign, dcline OPF vs PF law,
   rating vs loading, bus voltage limit writes. *)
From Coq Require Import ZArith QArith List Bool Lia Lqa String.
From PPV Require Import Base.Lists Base.QN Base.Out C16.Model.
Import ListNotations.
Open Scope Q_scope.

Definition fixed_gen (k : kind) (e : elem) : bool :=
  match k, e_ctrl e with KGen, Some false => true | _, _ => false end.

Lemma rsign_cases k : (inverted k = false /\ rsign k == 1) \/ (inverted k = true /\ rsign k == -1).
Proof. unfold rsign. destruct (inverted k); [right|left]; split; reflexivity. Qed.

(* add_p_constraints / add_q_constraints: the limits written for one quantity, read through the result sign s (-1 for the
   inverted kinds), are the declared ones widened by delta; a missing (NaN) limit is the default on its side *)
Lemma lim_box inv mn mx delta lim x :
  (lim_lo inv mn mx delta lim <= x /\ x <= lim_hi inv mn mx delta lim)
  <-> (match mn with Some a => a - delta | None => - lim end <= (if inv then (-1 # 1) else 1) * x /\
       (if inv then (-1 # 1) else 1) * x <= match mx with Some b => b + delta | None => lim end).
Proof.
  unfold lim_lo, lim_hi. destruct inv, mn, mx; cbn [oneg osub oadd option_map dflt]; qstrip; split; intros [H1 H2]; split; lra.
Qed.

(* the rows of gen_row that carry these limits: Q always, P unless the element is a non-controllable gen *)
Lemma gen_row_q k e delta plim :
  QMIN (gen_row k e delta plim) = lim_lo (inverted k) (e_min_q e) (e_max_q e) delta plim /\
  QMAX (gen_row k e delta plim) = lim_hi (inverted k) (e_min_q e) (e_max_q e) delta plim.
Proof. destruct k; split; reflexivity. Qed.
Lemma gen_row_p k e delta plim : fixed_gen k e = false ->
  PMIN (gen_row k e delta plim) = lim_lo (inverted k) (e_min_p e) (e_max_p e) delta plim /\
  PMAX (gen_row k e delta plim) = lim_hi (inverted k) (e_min_p e) (e_max_p e) delta plim.
Proof.
  intros Hf. destruct k; try (split; reflexivity).
  unfold fixed_gen in Hf. unfold gen_row. destruct (e_ctrl e) as [[|]|]; [| discriminate |]; split; reflexivity.
Qed.

Lemma qabs'_pos x : 0 < x -> qabs' x == x.
Proof. intros H. unfold qabs'. destruct (qltb x 0) eqn:E; [apply qltb_lt in E; lra | reflexivity]. Qed.
Lemma qabs'_nonpos x : x <= 0 -> qabs' x == - x.
Proof.
  intros H. unfold qabs'. destruct (qltb x 0) eqn:E; qstrip; [reflexivity|].
  apply qltb_ge in E. lra.
Qed.

(* opf_lhs_old ((1 + l) Pg_to + Pg_from) at the power-flow point: the exact residual *)
Lemma dcline_old_deviation d :
  0 < d_p d ->
  opf_lhs_old d (g_to (pf_dcline d)) (g_from (pf_dcline d)) - opf_rhs d
  == - (d_loss_pct d / 100) * (d_p d * (d_loss_pct d / 100) + d_loss_mw d).
Proof.
  intros Hp. unfold opf_lhs_old, opf_rhs, pf_dcline.
  assert (E : qltb 0 (d_p d) = true) by (apply qltb_lt; exact Hp). rewrite E. cbn [g_to g_from]. qstrip.
  rewrite (qabs'_pos _ Hp). field.
Qed.

Lemma filter_length_all {A} (f : A -> bool) l : List.length (filter f l) = List.length l -> forallb f l = true.
Proof.
  induction l as [|a l IH]; cbn; [reflexivity|]. destruct (f a) eqn:E; cbn; intros H.
  - apply IH. lia.
  - pose proof (filter_length_bound f l). lia.
Qed.
(* a flow i (times a positive factor c both sides) within  max_load / 100 * M  is a loading i / M * 100 within max_load *)
Lemma loading_iff max_load M c i : 0 < M -> 0 < c ->
  (i * c <= max_load / 100 * M * c <-> i / M * 100 <= max_load).
Proof.
  intros HM Hc. assert (Hp : 0 < 100 / (M * c)) by (apply Qlt_shift_div_l; nra).
  rewrite <- (Qmult_le_r _ _ _ Hp).
  assert (E1 : i * c * (100 / (M * c)) == i / M * 100) by (field; lra).
  assert (E2 : max_load / 100 * M * c * (100 / (M * c)) == max_load) by (field; lra).
  rewrite E1, E2. reflexivity.
Qed.

Lemma set_nth_same {A} (l : list A) k a : (k < List.length l)%nat -> nth_error (set_nth l k a) k = Some a.
Proof. revert k. induction l as [|x l IH]; intros [|k] H; cbn in *; try lia; [reflexivity | apply IH; lia]. Qed.
Lemma set_nth_other {A} (l : list A) k j a : k <> j -> nth_error (set_nth l k a) j = nth_error l j.
Proof.
  revert k j. induction l as [|x l IH]; intros [|k] [|j] H; cbn; try reflexivity; try congruence.
  apply IH. congruence.
Qed.
Lemma set_nth_length {A} (l : list A) k a : List.length (set_nth l k a) = List.length l.
Proof. revert k. induction l as [|x l IH]; intros [|k]; cbn; auto. Qed.
Lemma set_nth_nth {A} (l : list A) k a d : (k < List.length l)%nat -> nth k (set_nth l k a) d = a.
Proof. intros H. apply nth_error_nth. apply set_nth_same. exact H. Qed.
Lemma set_nth_nth_other {A} (l : list A) k j a d : k <> j -> nth j (set_nth l k a) d = nth j l d.
Proof. intros H. rewrite <- !nth_default_eq. unfold nth_default. rewrite set_nth_other by exact H. reflexivity. Qed.
Lemma vm_writes_length lims ws delta : List.length (vm_writes lims ws delta) = List.length lims.
Proof.
  unfold vm_writes. revert lims. induction ws as [|w ws IH]; intros lims; cbn; [reflexivity|].
  rewrite IH. apply set_nth_length.
Qed.
