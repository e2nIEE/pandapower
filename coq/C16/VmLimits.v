(* C16 — the voltage limits the OPF gets: fixed ext_grids (controllable column), gen.max_vm_pu / min_vm_pu *)
From Coq Require Import ZArith QArith List Bool Lia Lqa String.
From PPV Require Import Base.QN Base.Out C16.Model C16.Proofs.
Import ListNotations.
Open Scope Q_scope.

Lemma np_pos_in n k : (k < n)%nat -> np_pos n (Z.of_nat k) = Some k.
Proof.
  intros H. unfold np_pos.
  assert (E1 : (0 <=? Z.of_nat k)%Z = true) by (apply Z.leb_le; lia).
  assert (E2 : (Z.of_nat k <? Z.of_nat n)%Z = true) by (apply Z.ltb_lt; lia).
  rewrite E1, E2. cbn [andb]. now rewrite Nat2Z.id.
Qed.

(* ext_grids: when the index labels are the positions 0..n-1 every fixed ext_grid pins its bus to its OWN vm_pu,
   controllable and out-of-service ext_grids write nothing *)
Lemma eg_go_spec all : forall rows pre, all = pre ++ rows ->
  labels_are_positions (Z.of_nat (List.length pre)) rows = true -> eg_writes_go_old all rows = Some (eg_writes_spec rows).
Proof.
  induction rows as [|r t IH]; intros pre Hall Hl; [reflexivity|].
  cbn [labels_are_positions] in Hl. apply andb_true_iff in Hl. destruct Hl as [Hr Ht]. apply Z.eqb_eq in Hr.
  cbn [eg_writes_go_old]. rewrite (IH (pre ++ [r])).
  2:{ rewrite <- app_assoc. exact Hall. }
  2:{ rewrite app_length. cbn [List.length]. replace (Z.of_nat (List.length pre + 1)) with (Z.of_nat (List.length pre) + 1)%Z by lia. exact Ht. }
  unfold eg_writes_spec. cbn [filter]. destruct (x_on r); cbn [andb]; [|reflexivity].
  destruct (x_ctrl r) as [[|]|]; cbn [map]; try reflexivity.
  rewrite Hr, np_pos_in by (rewrite Hall, app_length; cbn; lia).
  rewrite Hall, nth_error_app2, Nat.sub_diag by lia. reflexivity.
Qed.

(* two ext_grids whose labels are each other's positions: eg_writes_old (vm_pu.values[index label]) reads the other one's voltage *)
Definition eg_swapped : list egrow :=
  [ {| x_label := 1; x_bus := 0; x_vm := 1; x_on := true; x_ctrl := Some false |};
    {| x_label := 0; x_bus := 2; x_vm := 51 # 50; x_on := true; x_ctrl := Some false |} ].

Lemma vmax_fold_length_old lims0 gens : forall l, List.length (fold_left (gen_vmax_step_old lims0) gens l) = List.length l.
Proof.
  induction gens as [|g gens IH]; intros l; [reflexivity|]. cbn [fold_left]. rewrite IH. unfold gen_vmax_step_old.
  destruct (ltb_nan _ _); [reflexivity | apply set_nth_length].
Qed.
Lemma vmax_fold_untouched_old lims0 gens b : forall l,
  (forall g, In g gens -> fst (fst g) <> b) -> nth b (fold_left (gen_vmax_step_old lims0) gens l) (None, None) = nth b l (None, None).
Proof.
  induction gens as [|g gens IH]; intros l H; [reflexivity|]. cbn [fold_left].
  rewrite IH by (intros g' Hg'; apply H; now right). unfold gen_vmax_step_old.
  destruct (ltb_nan _ _); [reflexivity|]. apply set_nth_nth_other. apply H. now left.
Qed.

Lemma nodup_nat_app_inv l1 x l2 : nodup_nat (l1 ++ x :: l2) = true -> ~ In x l1 /\ ~ In x l2.
Proof.
  induction l1 as [|y l1 IH]; cbn [app nodup_nat]; intros H; apply andb_true_iff in H; destruct H as [H1 H2].
  - split; [intros []|]. intros Hin. apply negb_true_iff in H1.
    assert (existsb (Nat.eqb x) l2 = true) by (apply existsb_exists; exists x; split; [exact Hin | apply Nat.eqb_refl]).
    congruence.
  - destruct (IH H2) as [I1 I2]. split; [|exact I2]. intros [->|Hin]; [|exact (I1 Hin)].
    apply negb_true_iff in H1.
    assert (existsb (Nat.eqb x) (l1 ++ x :: l2) = true).
    { apply existsb_exists. exists x. split; [apply in_or_app; right; now left | apply Nat.eqb_refl]. }
    congruence.
Qed.

Lemma qmin_le x y : qmin x y <= x /\ qmin x y <= y.
Proof.
  unfold qmin. destruct (qltb y x) eqn:E; [apply qltb_lt in E | apply qltb_ge in E]; split; lra.
Qed.

Lemma vmax_step_length lims0 l g : List.length (gen_vmax_step lims0 l g) = List.length l.
Proof. unfold gen_vmax_step. destruct (ltb_nan _ _); [reflexivity | apply set_nth_length]. Qed.

(* the fold keeps (lo0, Some c') at bus b, with c' below the start value c and below the max_vm_pu of every gen at b *)
Lemma vmax_fold_inv lims b lo0 hi0 : snd (nth b lims (None, None)) = Some hi0 ->
  forall gens l c, nth b l (None, None) = (lo0, Some c) -> c <= hi0 -> (b < List.length l)%nat ->
  (forall g, In g gens -> fst (fst g) = b -> exists m, snd (fst g) = Some m) ->
  exists c', nth b (fold_left (gen_vmax_step lims) gens l) (None, None) = (lo0, Some c') /\ c' <= c /\
    forall g m, In g gens -> fst (fst g) = b -> snd (fst g) = Some m -> c' <= m.
Proof.
  intros H0. induction gens as [|g gens IH]; intros l c Hl Hc Hlen Hsome.
  - exists c. split; [exact Hl|]. split; [lra|]. intros g m [].
  - cbn [fold_left].
    assert (Hsome' : forall g', In g' gens -> fst (fst g') = b -> exists m, snd (fst g') = Some m)
      by (intros g' Hg'; apply Hsome; now right).
    destruct (Nat.eq_dec (fst (fst g)) b) as [Eb|Nb].
    + destruct (Hsome g (or_introl eq_refl) Eb) as [m Hm].
      unfold gen_vmax_step at 2. cbv zeta. rewrite Eb, Hm. unfold olim in *. rewrite H0. cbn [ltb_nan].
      destruct (qltb hi0 m) eqn:E.
      * apply qltb_lt in E. destruct (IH l c Hl Hc Hlen Hsome') as (c' & N & Lc & Lm).
        exists c'. split; [exact N|]. split; [exact Lc|].
        intros g' m' [<-|Hg'] Hb' Hm'; [rewrite Hm in Hm'; injection Hm' as <-; lra | exact (Lm g' m' Hg' Hb' Hm')].
      * apply qltb_ge in E. rewrite Hl. cbn [fst snd nmin].
        destruct (qmin_le c m) as [Q1 Q2].
        destruct (IH (set_nth l b (lo0, Some (qmin c m))) (qmin c m)) as (c' & N & Lc & Lm).
        { apply set_nth_nth. exact Hlen. } { lra. } { rewrite set_nth_length. exact Hlen. } { exact Hsome'. }
        exists c'. split; [exact N|]. split; [lra|].
        intros g' m' [<-|Hg'] Hb' Hm'; [rewrite Hm in Hm'; injection Hm' as <-; lra | exact (Lm g' m' Hg' Hb' Hm')].
    + assert (Hl' : nth b (gen_vmax_step lims l g) (None, None) = (lo0, Some c)).
      { unfold gen_vmax_step. destruct (ltb_nan _ _); [exact Hl|]. rewrite set_nth_nth_other by exact Nb. exact Hl. }
      destruct (IH _ c Hl' Hc ltac:(rewrite vmax_step_length; exact Hlen) Hsome') as (c' & N & Lc & Lm).
      exists c'. split; [exact N|]. split; [exact Lc|].
      intros g' m' [<-|Hg'] Hb' Hm'; [congruence | exact (Lm g' m' Hg' Hb' Hm')].
Qed.

Example vm_limits_nonvacuous :
  G16vm_old [(1%nat, Some (103 # 100), None); (2%nat, Some (105 # 100), None)] = true /\
  G16eg_old [ {| x_label := 0; x_bus := 0; x_vm := 1; x_on := true; x_ctrl := Some false |};
          {| x_label := 1; x_bus := 2; x_vm := 51 # 50; x_on := true; x_ctrl := Some true |} ] = true.
Proof. split; reflexivity. Qed.
