(* C30 — non-interference of Diagnostic instances: invariant over all operation sequences *)
From Coq Require Import ZArith List Bool Lia.
From PPV Require Import C30.Model.
Import ListNotations.
Open Scope nat_scope.

Lemma length_hset h : forall l o, length (hset h l o) = length h.
Proof. induction h as [|x h IH]; intros [|l] o; cbn; auto. Qed.
Lemma nth_hset_same h : forall l o, (l < length h)%nat -> nth_error (hset h l o) l = Some o.
Proof.
  induction h as [|x h IH]; intros [|l] o H; cbn in *; try lia; auto. apply IH. lia.
Qed.
Lemma nth_hset_other h : forall l l' o, l <> l' -> nth_error (hset h l o) l' = nth_error h l'.
Proof.
  induction h as [|x h IH]; intros [|l] [|l'] o H; cbn; auto; try congruence.
Qed.
Lemma get_dict_hset_other h l l' o : l <> l' -> get_dict (hset h l o) l' = get_dict h l'.
Proof. intros H. unfold get_dict. now rewrite nth_hset_other. Qed.
Lemma get_list_hset_other h l l' o : l <> l' -> get_list (hset h l o) l' = get_list h l'.
Proof. intros H. unfold get_list. now rewrite nth_hset_other. Qed.
Lemma get_list_hset_same h l f : (l < length h)%nat -> get_list (hset h l (OList f)) l = f.
Proof. intros H. unfold get_list. now rewrite nth_hset_same. Qed.
Lemma get_dict_app_l h h' l : (l < length h)%nat -> get_dict (h ++ h') l = get_dict h l.
Proof. intros H. unfold get_dict. now rewrite nth_error_app1. Qed.
Lemma get_list_app_l h h' l : (l < length h)%nat -> get_list (h ++ h') l = get_list h l.
Proof. intros H. unfold get_list. now rewrite nth_error_app1. Qed.

Section Inv.
Variables (d0 : dict) (f0 : list fn).

Definition base_kw (flag : bool) : dict := if flag then d0 else [].
Definition base_fn (flag : bool) : list fn := if flag then f0 else [].
Definition kw_loc (i : nat) : nat := 2 + 2 * i.
Definition fn_loc (i : nat) : nat := 3 + 2 * i.

(* flags: constructor flag per instance; regs i: functions registered on instance i so far *)
Record GInv (st : state) (flags : list bool) (regs : nat -> list fn) : Prop := {
  g_ninst : length (insts st) = length flags;
  g_heap  : length (hp st) = 2 + 2 * length flags;
  g_d0    : get_dict (hp st) L_DEFAULT_KW = d0;
  g_f0    : get_list (hp st) L_DEFAULT_FN = f0;
  g_inst  : forall i, i < length flags -> nth_error (insts st) i = Some {| i_kw := kw_loc i; i_fn := fn_loc i |};
  g_kw    : forall i flag, nth_error flags i = Some flag -> get_dict (hp st) (kw_loc i) = base_kw flag;
  g_fn    : forall i flag, nth_error flags i = Some flag -> get_list (hp st) (fn_loc i) = base_fn flag ++ regs i;
  g_fresh : forall i, length flags <= i -> regs i = []
}.

Lemma ginv_init : GInv (init d0 f0) [] (fun _ => []).
Proof.
  constructor; cbn; auto; try lia.
  - intros i flag H. destruct i; discriminate.
  - intros i flag H. destruct i; discriminate.
Qed.

Definition flags_step (o : op) : list bool := match o with New a => [a] | _ => [] end.
Definition regs_step (n : nat) (o : op) (i : nat) : list fn :=
  match o with
  | Register j f => if Nat.eqb i j && Nat.ltb j n then [f] else []
  | _ => []
  end.

Lemma nth_error_lt {A} (l : list A) i x : nth_error l i = Some x -> i < length l.
Proof. intros H. apply nth_error_Some. congruence. Qed.

(* the invariant only looks at the values of [regs] *)
Lemma ginv_ext st flags regs regs' : (forall i, regs i = regs' i) -> GInv st flags regs -> GInv st flags regs'.
Proof.
  intros E [Gn Gh Gd Gf Gi Gk Gfn Gfr]. constructor; auto.
  - intros i flag H. rewrite <- E. eauto.
  - intros i Hi. rewrite <- E. auto.
Qed.

Lemma ginv_step st flags regs o :
  GInv st flags regs ->
  GInv (fst (step st o)) (flags ++ flags_step o) (fun i => regs i ++ regs_step (length flags) o i).
Proof.
  intros G. pose proof G as [Gn Gh Gd Gf Gi Gk Gfn Gfr].
  destruct o as [a | j f | j kw]; cbn [step flags_step regs_step].
  - (* New *)
    cbn [fst hp insts]. constructor; cbn [hp insts].
    + rewrite !app_length. cbn. lia.
    + rewrite !app_length. cbn. lia.
    + rewrite get_dict_app_l by (unfold L_DEFAULT_KW; lia). exact Gd.
    + rewrite get_list_app_l by (unfold L_DEFAULT_FN; lia). exact Gf.
    + intros i Hi. rewrite app_length in Hi. cbn in Hi.
      destruct (Nat.eq_dec i (length flags)) as [->|N].
      * rewrite nth_error_app2 by lia. rewrite Gn, Nat.sub_diag. cbn.
        unfold kw_loc, fn_loc. rewrite Gh. reflexivity.
      * rewrite nth_error_app1 by lia. apply Gi. lia.
    + intros i flag H.
      destruct (Nat.lt_ge_cases i (length flags)) as [Hi|Hi].
      * rewrite nth_error_app1 in H by exact Hi.
        rewrite get_dict_app_l by (unfold kw_loc; lia). eauto.
      * rewrite nth_error_app2 in H by exact Hi.
        destruct (i - length flags) as [|k] eqn:E; cbn in H; [|destruct k; discriminate].
        inversion H; subst flag. assert (i = length flags) by lia. subst i.
        unfold get_dict at 1, kw_loc. rewrite nth_error_app2 by lia.
        replace (2 + 2 * length flags - length (hp st)) with 0 by lia. cbn.
        unfold base_kw. destruct a; [exact Gd | reflexivity].
    + intros i flag H. rewrite app_nil_r.
      destruct (Nat.lt_ge_cases i (length flags)) as [Hi|Hi].
      * rewrite nth_error_app1 in H by exact Hi.
        rewrite get_list_app_l by (unfold fn_loc; lia). eauto.
      * rewrite nth_error_app2 in H by exact Hi.
        destruct (i - length flags) as [|k] eqn:E; cbn in H; [|destruct k; discriminate].
        inversion H; subst flag. assert (i = length flags) by lia. subst i.
        unfold get_list at 1, fn_loc. rewrite nth_error_app2 by lia.
        replace (3 + 2 * length flags - length (hp st)) with 1 by lia. cbn.
        rewrite (Gfr (length flags)) by lia. rewrite app_nil_r.
        unfold base_fn. destruct a; [exact Gf | reflexivity].
    + intros i Hi. rewrite app_length in Hi. cbn in Hi. rewrite app_nil_r. apply Gfr. lia.
  - (* Register *)
    rewrite app_nil_r.
    destruct (nth_error (insts st) j) as [it|] eqn:E.
    + assert (Hj : j < length flags) by (rewrite <- Gn; eapply nth_error_lt; eauto).
      rewrite (Gi j Hj) in E. inversion E; subst it. cbn [fst hp insts i_fn].
      assert (Hl : fn_loc j < length (hp st)) by (unfold fn_loc; lia).
      constructor; cbn [hp insts].
      * exact Gn.
      * now rewrite length_hset.
      * rewrite get_dict_hset_other by (unfold fn_loc, L_DEFAULT_KW; lia). exact Gd.
      * rewrite get_list_hset_other by (unfold fn_loc, L_DEFAULT_FN; lia). exact Gf.
      * exact Gi.
      * intros i flag H. rewrite get_dict_hset_other by (unfold fn_loc, kw_loc; lia). eauto.
      * intros i flag H. destruct (Nat.eq_dec i j) as [->|N].
        -- rewrite get_list_hset_same by exact Hl. rewrite (Gfn j flag H).
           rewrite Nat.eqb_refl. assert (Nat.ltb j (length flags) = true) as -> by (apply Nat.ltb_lt; exact Hj).
           cbn [andb]. now rewrite app_assoc.
        -- rewrite get_list_hset_other by (unfold fn_loc; lia).
           assert (Nat.eqb i j = false) as -> by (apply Nat.eqb_neq; exact N). cbn [andb].
           rewrite app_nil_r. eauto.
      * intros i Hi. assert (Nat.eqb i j = false) as -> by (apply Nat.eqb_neq; lia). cbn [andb].
        rewrite app_nil_r. now apply Gfr.
    + (* no such instance: nothing happens, and the registration does not count *)
      assert (L : Nat.ltb j (length flags) = false) by (apply Nat.ltb_ge; rewrite <- Gn; apply nth_error_None; exact E).
      apply (ginv_ext _ _ regs); [|exact G]. intros i. now rewrite L, andb_false_r, app_nil_r.
  - (* Diagnose: the state is not touched *)
    rewrite app_nil_r. apply (ginv_ext _ _ regs); [intros i; now rewrite app_nil_r|].
    destruct (nth_error (insts st) j); exact G.
Qed.

(* flags and registrations accumulated by a whole operation sequence: the first operation, then the rest *)
Lemma regs_of_cons i n o ops :
  regs_of i n (o :: ops) = regs_step n o i ++ regs_of i (n + length (flags_step o)) ops.
Proof.
  destruct o as [a | j f | j kw]; cbn [regs_of regs_step flags_step length app].
  - now rewrite Nat.add_1_r.
  - rewrite Nat.add_0_r. now destruct (Nat.eqb i j && Nat.ltb j n).
  - now rewrite Nat.add_0_r.
Qed.
Lemma flags_of_cons o ops : flags_of (o :: ops) = flags_step o ++ flags_of ops.
Proof. destruct o; reflexivity. Qed.

Lemma ginv_exec ops : forall st flags regs,
  GInv st flags regs ->
  GInv (fst (exec step st ops)) (flags ++ flags_of ops) (fun i => regs i ++ regs_of i (length flags) ops).
Proof.
  induction ops as [|o ops IH]; intros st flags regs G; cbn [exec fst].
  - cbn [flags_of]. rewrite app_nil_r. apply (ginv_ext _ _ regs); [|exact G]. intros i. cbn. now rewrite app_nil_r.
  - specialize (IH _ _ _ (ginv_step st flags regs o G)).
    rewrite app_length, <- app_assoc, <- flags_of_cons in IH.
    eapply ginv_ext; [|exact IH]. intros i. cbn beta. now rewrite <- app_assoc, <- regs_of_cons.
Qed.

Lemma ginv_reachable ops :
  GInv (fst (exec step (init d0 f0) ops)) (flags_of ops) (fun i => regs_of i 0 ops).
Proof. exact (ginv_exec ops _ _ _ ginv_init). Qed.

(* what diagnose_network calls depends only on the module defaults at process start, the instance's own
   constructor flag, the functions registered on this instance, and the kwargs of this call *)
Theorem diagnose_noninterference ops i kw flag :
  nth_error (flags_of ops) i = Some flag ->
  snd (step (fst (exec step (init d0 f0) ops)) (Diagnose i kw))
  = spec_event d0 f0 flag (regs_of i 0 ops) kw.
Proof.
  intros H. destruct (ginv_reachable ops) as [Gn Gh Gd Gf Gi Gk Gfn Gfr].
  assert (Hi : i < length (flags_of ops)) by (eapply nth_error_lt; eauto).
  cbn [step]. rewrite (Gi i Hi). cbn [snd i_kw i_fn].
  rewrite (Gk i flag H), (Gfn i flag H). reflexivity.
Qed.

Theorem diagnose_bad_instance ops i kw :
  nth_error (flags_of ops) i = None ->
  snd (step (fst (exec step (init d0 f0) ops)) (Diagnose i kw)) = EBadInstance.
Proof.
  intros H. destruct (ginv_reachable ops) as [Gn Gh Gd Gf Gi Gk Gfn Gfr].
  cbn [step]. assert (nth_error (insts (fst (exec step (init d0 f0) ops))) i = None) as ->.
  { apply nth_error_None. rewrite Gn. now apply nth_error_None. }
  reflexivity.
Qed.

End Inv.

Lemma exec_app stp ops1 : forall st ops2,
  exec stp st (ops1 ++ ops2)
  = (fst (exec stp (fst (exec stp st ops1)) ops2), snd (exec stp st ops1) ++ snd (exec stp (fst (exec stp st ops1)) ops2)).
Proof.
  induction ops1 as [|o ops1 IH]; intros st ops2; cbn [app exec fst snd].
  - now destruct (exec stp st ops2).
  - rewrite IH. reflexivity.
Qed.

(* the event of the last operation of a history *)
Lemma last_event stp st ops o :
  snd (exec stp st (ops ++ [o])) = snd (exec stp st ops) ++ [snd (stp (fst (exec stp st ops)) o)].
Proof. rewrite exec_app. reflexivity. Qed.

(* results are a function of the calls: equal calls give equal result / error dicts for every behaviour of the
   function objects *)
Lemma results_function_of_calls beh cs1 cs2 : cs1 = cs2 -> results_of beh cs1 = results_of beh cs2.
Proof. now intros ->. Qed.

(* witnesses against the old code *)
Open Scope Z_scope.
Definition fA : fn := {| f_name := 100; f_obj := 7; f_args := None |}.
(* register on instance 0, then create instance 1 and diagnose with it *)
Definition ops_w1 : list op := [New true; Register 0%nat fA; New true].
(* pass an option to one call, then call again without it *)
Definition ops_w2 : list op := [New true; Diagnose 0%nat [(5, 42)]].

Lemma old_defaults_changed :
  get_list (hp (fst (exec step_old (init [] []) ops_w1))) L_DEFAULT_FN <> [].
Proof. vm_compute. discriminate. Qed.

(* non-vacuity: a history with three instances, interleaved registrations and calls *)
Definition fB : fn := {| f_name := 101; f_obj := 8; f_args := Some [5] |}.
Definition ops_nv : list op :=
  [New true; New false; Register 1%nat fB; Diagnose 1%nat [(5, 1)]; Register 0%nat fA; New true; Diagnose 0%nat [(6, 2)]].

(* two arbitrary histories: an instance with the same constructor flag and the same own registrations makes the same
   calls for the same kwargs, whatever else happened (other instances, their registrations, all earlier calls) *)
Theorem history_independent d0 f0 ops ops' (i i' : nat) kw flag :
  nth_error (flags_of ops) i = Some flag -> nth_error (flags_of ops') i' = Some flag ->
  regs_of i 0%nat ops = regs_of i' 0%nat ops' ->
  snd (step (fst (exec step (init d0 f0) ops)) (Diagnose i kw))
  = snd (step (fst (exec step (init d0 f0) ops')) (Diagnose i' kw)).
Proof.
  intros H H' R. rewrite (diagnose_noninterference d0 f0 ops i kw flag H).
  rewrite (diagnose_noninterference d0 f0 ops' i' kw flag H'). now rewrite R.
Qed.

(* the diag_results / diag_errors of a call, for a behaviour of the function objects that is a function of
   (object, kwargs received) *)
Definition event_results (beh : Z -> dict -> fres) (e : event) : option (dict * dict) :=
  match e with ECalls cs false => Some (results_of beh cs) | _ => None end.
