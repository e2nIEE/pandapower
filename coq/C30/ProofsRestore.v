(* C30 — the diagnostic functions that modify the net temporarily: case analysis over the outcomes of their power flows
   (the preservation theorems are in Properties/C30.v) *)
From Coq Require Import ZArith List.
From PPV Require Import C30.ModelRestore.
Import ListNotations.
Open Scope Z_scope.

(* Walks the match tree of one experiment: as long as the goal still consults the outcome [o i] of a power flow, split on
   it (keeping the equation).  What is left is one goal per exit of the function, at most nine.  The preservation theorems
   of Properties/C30.v hold exit by exit, with the net a record of variables: the restore stage stands in a finally clause,
   so every exit returns (fin m, _), where m differs from the start net only in fields that fin writes back, and
   [reflexivity] computes fin m to the start net.  The *_old variants have exits (m, Raised) without fin; those are the
   exits that the hypothesis no_unexp rules out. *)
Ltac flow_outcomes o := repeat match goal with |- context [o ?i] => destruct (o i) eqn:? end.

Lemma no_unexp_spec o : no_unexp o = true -> o 1%nat <> Unexp /\ o 2%nat <> Unexp /\ o 3%nat <> Unexp.
Proof.
  unfold no_unexp. cbn [forallb]. intros H.
  destruct (o 1%nat), (o 2%nat), (o 3%nat); cbn in H; try discriminate H; repeat split; discriminate.
Qed.

(* the first power flow raises an expected exception, every later one an unexpected one *)
Definition o_crash1 (i : nat) : outcome := match i with O => Exp | _ => Unexp end.

(* non-vacuity: a run through all four power flows of the overload check with a final verdict; a crash of the
   second power flow of each experiment; the impedance experiment crashing after 2 of 5 table writes: net restored *)
Example restore_nonvacuous :
  overload 100 (fun _ => Exp) net0 = (net0, Ret 0) /\
  overload 100 (fun i => match i with 3%nat => Conv | _ => Exp end) net0 = (net0, Ret 3) /\
  overload 100 o_crash1 net0 = (net0, Raised) /\ line_cap 101 o_crash1 net0 = (net0, Raised) /\
  switch_conf 102 o_crash1 net0 = (net0, Raised) /\
  impedance (fun i => 200 + Z.of_nat i) 5 (Some 2%nat) (fun _ => Exp) net0 = (net0, Raised) /\
  impedance (fun i => 200 + Z.of_nat i) 5 None (fun i => match i with O => Exp | _ => Unexp end) net0 = (net0, Raised).
Proof. repeat split. Qed.
