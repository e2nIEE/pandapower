(* C17 — which gencost row a cost entry addresses (lookup value -1, dcline position -> label) and the writes of
   _fill_gencost_poly WITH reactive cost rows. *)
From Coq Require Import ZArith QArith List Bool Lia Lqa String.
From PPV Require Import Base.QN Base.Out C17.Model C17.Proofs C17.Table.
Import ListNotations.
Open Scope Q_scope.

(* the mapped list holds exactly the entries whose _get_gen_index is a row, in the order of the cost table *)
Lemma map_costs_in {A} e (key : A -> etype * Z) cs : forall gcs, map_costs e key cs = Ok gcs ->
  forall g c, In (g, c) gcs <-> In c cs /\ get_gen_index e (fst (key c)) (snd (key c)) = Ok (Some g).
Proof.
  induction cs as [|c0 cs IH]; intros gcs H g c.
  - injection H as <-. cbn. tauto.
  - cbn [map_costs] in H. destruct (get_gen_index e (fst (key c0)) (snd (key c0))) as [og|s] eqn:E0; [|discriminate].
    cbn [bind] in H. destruct (map_costs e key cs) as [rest|s] eqn:Er; [|discriminate]. cbn [bind] in H.
    injection H as <-. specialize (IH rest eq_refl g c). destruct og as [g0|].
    + cbn [In]. rewrite IH. split.
      * intros [Heq|[Hin Hg]]; [injection Heq as <- <-; split; [now left | exact E0] | split; [now right | exact Hg]].
      * intros [[<-|Hin] Hg]; [left; rewrite E0 in Hg; injection Hg as <-; reflexivity | right; split; assumption].
    + rewrite IH. cbn [In]. split.
      * intros [Hin Hg]; split; [now right | exact Hg].
      * intros [[<-|Hin] Hg]; [rewrite E0 in Hg; discriminate | split; assumption].
Qed.

Lemma nonneg_some o g : nonneg o = Some g -> o = Some g /\ (0 <= g)%Z.
Proof.
  unfold nonneg. destruct o as [v|]; [|discriminate]. destruct (v <? 0)%Z eqn:E; [discriminate|].
  intros H. injection H as <-. split; [reflexivity | apply Z.ltb_ge in E; exact E].
Qed.

(* a row index returned by _get_gen_index is never negative: it cannot wrap around to the last rows *)
Lemma get_gen_index_nonneg e t el g : get_gen_index e t el = Ok (Some g) -> (0 <= g)%Z.
Proof.
  unfold get_gen_index. destruct t;
    try (intros H; injection H as H; apply nonneg_some in H; tauto).
  destruct (index_of (dcl_index e) el 0); [|discriminate].
  destruct (np_get (gen_labels e) (dcl_pos e n)); [|discriminate].
  intros H; injection H as H; apply nonneg_some in H; tauto.
Qed.

(* ... and it is the value the lookup of the element's kind holds for the element *)
Lemma get_gen_index_is_lookup e t el g : t <> Dcline ->
  get_gen_index e t el = Ok (Some g) -> lookup_get (lookup_of e t) el = Some g.
Proof.
  intros Ht. unfold get_gen_index. destruct t; try congruence;
    intros H; injection H as H; apply nonneg_some in H; tauto.
Qed.

(* an element that is not part of the ppc (lookup value -1, any negative value) has no cost row *)
Lemma absent_element_no_row e t el v : t <> Dcline ->
  lookup_get (lookup_of e t) el = Some v -> (v < 0)%Z -> get_gen_index e t el = Ok None.
Proof.
  intros Ht Hl Hv. unfold get_gen_index. destruct t; try congruence; rewrite Hl; unfold nonneg;
    apply Z.ltb_lt in Hv; rewrite Hv; reflexivity.
Qed.

(* so its cost entry writes nothing: the mapped list skips it *)
Lemma absent_element_dropped {A} e (key : A -> etype * Z) c cs v : fst (key c) <> Dcline ->
  lookup_get (lookup_of e (fst (key c))) (snd (key c)) = Some v -> (v < 0)%Z ->
  map_costs e key (c :: cs) = map_costs e key cs.
Proof.
  intros Ht Hl Hv. cbn [map_costs]. rewrite (absent_element_no_row _ _ _ _ Ht Hl Hv). cbn [bind].
  destruct (map_costs e key cs); reflexivity.
Qed.

(* all mapped rows are valid rows of the gencost when the lookups point into the ppc gen table *)
Definition lookups_below (e : env) : Prop :=
  forall t el g, lookup_get (lookup_of e t) el = Some g -> (g < Z.of_nat (ng e))%Z.

Lemma get_gen_index_below e t el g : lookups_below e -> get_gen_index e t el = Ok (Some g) -> (0 <= g < Z.of_nat (ng e))%Z.
Proof.
  intros Hb H. split; [exact (get_gen_index_nonneg _ _ _ _ H)|].
  destruct t; try (refine (Hb _ _ _ (get_gen_index_is_lookup e _ el g _ H)); discriminate).
  (* a dcline's row is looked up in the gen table *)
  revert H. unfold get_gen_index.
  destruct (index_of (dcl_index e) el 0) as [n|]; [|discriminate].
  destruct (np_get (gen_labels e) (dcl_pos e n)) as [lab|]; [|discriminate].
  intros H; injection H as H; apply nonneg_some in H; destruct H as [H _]. exact (Hb Gen _ _ H).
Qed.

Lemma map_costs_rows_valid {A} e (key : A -> etype * Z) cs gcs : lookups_below e ->
  map_costs e key cs = Ok gcs -> forall gc, In gc gcs -> (0 <= fst gc < Z.of_nat (ng e))%Z.
Proof.
  intros Hb H [g c] Hin. apply (map_costs_in e key cs gcs H) in Hin. destruct Hin as [_ Hg].
  exact (get_gen_index_below _ _ _ _ Hb Hg).
Qed.

(* get_gen_index_wrap_old: the lookup value -1 is used as a numpy row index and addresses the LAST row, i.e. the cost of
   an element outside the ppc overwrites the cost row of another generator *)
Definition env_absent : env :=
  {| lk_gen := Some [1%Z]; lk_sgen := Some [(-1)%Z]; lk_load := None; lk_storage := None; lk_ext := Some [0%Z];
     n_gen_tab := 1; gen_labels := [0%Z]; dcl_index := []; ng := 2 |}.
Lemma index_of_shift l x : forall k j, index_of l x k = Some j -> (k <= j)%nat /\ nth_error l (j - k) = Some x.
Proof.
  induction l as [|y l IH]; intros k j H; [discriminate|]. cbn [index_of] in H.
  destruct (Z.eqb x y) eqn:E.
  - injection H as <-. apply Z.eqb_eq in E. subst y. rewrite Nat.sub_diag. split; [lia | reflexivity].
  - destruct (IH _ _ H) as [Hle Hn]. split; [lia|]. replace (j - k)%nat with (S (j - S k)) by lia. exact Hn.
Qed.

Lemma index_of_nodup l x : forall k j, NoDup l -> nth_error l j = Some x -> index_of l x k = Some (k + j)%nat.
Proof.
  induction l as [|y l IH]; intros k j Hn Hj; [destruct j; discriminate|].
  inversion Hn as [|? ? Hnotin Hn']; subst. cbn [index_of]. destruct j as [|j].
  - injection Hj as ->. rewrite Z.eqb_refl. f_equal. lia.
  - cbn [nth_error] in Hj. destruct (Z.eqb x y) eqn:E.
    + apply Z.eqb_eq in E. subst y. exfalso. apply Hnotin. eapply nth_error_In; eauto.
    + rewrite (IH (S k) j Hn' Hj). f_equal. lia.
Qed.

(* net.gen = the user's generators followed by the pairs (to-bus gen, from-bus gen) of the dclines
   (_add_dcline_gens appends them in the order of net.dcline): the position used by _get_gen_index is the one of
   the from-bus generator of the k-th dcline *)
Lemma dcl_pos_is_from_gen e (user aux : list Z) k :
  gen_labels e = user ++ aux -> List.length aux = (2 * List.length (dcl_index e))%nat ->
  n_gen_tab e = Z.of_nat (List.length (gen_labels e)) -> (k < List.length (dcl_index e))%nat ->
  np_get (gen_labels e) (dcl_pos e k) = nth_error aux (2 * k + 1).
Proof.
  intros Hg Ha Hn Hk. unfold np_get, dcl_pos. rewrite Hn, Hg, app_length.
  set (nu := List.length user). set (nd := List.length (dcl_index e)) in *.
  assert (Epos : (Z.of_nat (nu + List.length aux) - 2 * Z.of_nat nd + Z.of_nat k * 2 + 1
                  = Z.of_nat (nu + (2 * k + 1)))%Z) by lia.
  rewrite Epos. unfold np_norm.
  assert (E1 : (0 <=? Z.of_nat (nu + (2 * k + 1)))%Z = true) by (apply Z.leb_le; lia).
  assert (E2 : (Z.of_nat (nu + (2 * k + 1)) <? Z.of_nat (nu + List.length aux))%Z = true) by (apply Z.ltb_lt; lia).
  rewrite E1, E2. cbn [andb]. rewrite Nat2Z.id. rewrite nth_error_app2 by (unfold nu; lia).
  f_equal. unfold nu. lia.
Qed.

(* not vacuous: gens 0 and 2, one dcline -> auxiliary gens 3 (to-bus) and 4 (from-bus) *)
Example dcline_row_spec_nonvacuous :
  gen_labels env_gapped = [0; 2]%Z ++ [3; 4]%Z /\ nth_error (dcl_index env_gapped) 0 = Some 0%Z /\
  get_gen_index env_gapped Dcline 0 = Ok (Some 4%Z).
Proof. repeat split. Qed.

Lemma NoDup_map_shift {A} (f : A -> Z) (n : Z) l : NoDup (map f l) -> NoDup (map (fun a => (f a + n)%Z) l).
Proof.
  induction l as [|a l IH]; cbn; intros H; [constructor|]. inversion H as [|? ? Hnotin Hn]; subst.
  constructor; [|exact (IH Hn)]. intros Hin. apply Hnotin. apply in_map_iff in Hin. destruct Hin as (b & Hb & Hbin).
  apply in_map_iff. exists b. split; [lia | exact Hbin].
Qed.

(* _fill_gencost_poly with reactive costs: the active writes at row g, then the reactive writes at row g + ng *)
Definition fill_writes (isq : bool) (ngn : nat) (gcs : list (Z * pcost)) (m : gencost) : res gencost :=
  bind (writes _ fst (fun gc => p_cells isq (snd gc)) gcs m) (fun m1 =>
        writes _ (fun gc => (fst gc + Z.of_nat ngn)%Z) (fun gc => q_cells isq (snd gc)) gcs m1).

(* Model.fill_poly is these writes on the mapped entries: the active ones alone, or with the reactive ones *)
Lemma fill_poly_is_writes e m cs isq (qc : bool) :
  fill_poly e m cs isq qc
  = bind (map_costs e (fun c => (pc_et c, pc_el c)) cs) (fun gcs =>
      if qc then fill_writes isq (ng e) gcs m else writes _ fst (fun gc => p_cells isq (snd gc)) gcs m).
Proof.
  unfold fill_poly, fill_writes, writes. destruct (map_costs e _ cs) as [gcs|s]; cbn [bind]; [|reflexivity].
  destruct qc; [reflexivity|]. destruct (fold_res _ gcs m); reflexivity.
Qed.

Example poly_rows_q_nonvacuous :
  exists m', fill_writes true 2
      [(1%Z, {| pc_et := Load; pc_el := 0; cp0 := 5; cp1 := 2; cp2 := 1; cq0 := 3; cq1 := 1; cq2 := 1 # 2 |})]
      (repeat (zero_row true) 4) = Ok m' /\
    nth_error m' 1 = Some {| g_model := 2; g_ncost := 3; g_c := [1; -2; 5] |} /\
    nth_error m' 3 = Some {| g_model := 2; g_ncost := 3; g_c := [1 # 2; -1; 3] |}.
Proof. eexists. repeat split; vm_compute; reflexivity. Qed.
