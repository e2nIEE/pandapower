(* C17 — row bookkeeping of the gencost construction: after the sequential writes of _fill_gencost_poly every
   mapped cost entry owns exactly its row (when the row indices are valid and pairwise distinct), all other rows
   are untouched. *)
From Coq Require Import ZArith QArith List Bool Lia Lqa String.
From PPV Require Import Base.QN Base.Out C17.Model C17.Proofs.
Import ListNotations.
Open Scope Q_scope.

(* a table of polynomial cost rows (MODEL = 2) with w cost cells each *)
Definition poly_table (w : nat) (m : gencost) : Prop := Forall (fun r => g_model r = 2%Z /\ List.length (g_c r) = w) m.

Lemma set_cells_full vals c : List.length vals = List.length c -> set_cells 0 vals c = Some vals.
Proof.
  revert c. induction vals as [|v vs IH]; intros [|x c] H; cbn in *; try discriminate; [reflexivity|].
  rewrite IH by lia. reflexivity.
Qed.

Lemma upd_nth_spec {A} (l : list A) k (f : A -> option A) x y :
  nth_error l k = Some x -> f x = Some y ->
  exists l', upd_nth l k f = Some l' /\ nth_error l' k = Some y /\ List.length l' = List.length l /\
             forall j, j <> k -> nth_error l' j = nth_error l j.
Proof.
  revert k. induction l as [|a l IH]; intros [|k] Hn Hf; cbn in *; try discriminate.
  - injection Hn as ->. rewrite Hf. eexists; split; [reflexivity|]. repeat split.
    intros [|j] Hj; [congruence | reflexivity].
  - destruct (IH k Hn Hf) as (l' & E & N & L & O). rewrite E. eexists; split; [reflexivity|].
    cbn. repeat split; [exact N | lia |]. intros [|j] Hj; [reflexivity | cbn; apply O; congruence].
Qed.

Lemma np_norm_in n g : (0 <= g < n)%Z -> np_norm n g = Some (Z.to_nat g).
Proof.
  intros [H0 H1]. unfold np_norm.
  assert ((0 <=? g)%Z = true) by (apply Z.leb_le; lia). assert ((g <? n)%Z = true) by (apply Z.ltb_lt; lia).
  rewrite H, H2. reflexivity.
Qed.

(* one write: succeeds, installs the row, keeps every other row and the shape *)
Lemma write_row_spec w (m : gencost) g n vals :
  poly_table w m -> (0 <= g < Z.of_nat (List.length m))%Z -> List.length vals = w ->
  exists m', write_row m g n vals = Ok m' /\ nth_error m' (Z.to_nat g) = Some (row_of (n, vals)) /\
    poly_table w m' /\ List.length m' = List.length m /\
    forall j, j <> Z.to_nat g -> nth_error m' j = nth_error m j.
Proof.
  intros Hw Hg Hv. unfold write_row. rewrite (np_norm_in _ _ Hg). unfold poly_table in *. rewrite Forall_forall in Hw.
  destruct (nth_error m (Z.to_nat g)) as [r0|] eqn:En.
  2:{ apply nth_error_None in En. lia. }
  destruct (Hw r0 (nth_error_In _ _ En)) as [Hmod Hr0].
  destruct (upd_nth_spec m (Z.to_nat g)
             (fun r => option_map (fun c => {| g_model := g_model r; g_ncost := n; g_c := c |}) (set_cells 0 vals (g_c r)))
             r0 (row_of (n, vals)) En) as (m' & E & N & L & O).
  { rewrite set_cells_full, Hmod by congruence. reflexivity. }
  rewrite E. exists m'. repeat split; auto.
  apply Forall_forall. intros r Hr. apply In_nth_error in Hr. destruct Hr as [j Hj].
  destruct (Nat.eq_dec j (Z.to_nat g)) as [->|Hne].
  - rewrite N in Hj. injection Hj as <-. split; [reflexivity | exact Hv].
  - rewrite O in Hj by exact Hne. exact (Hw r (nth_error_In _ _ Hj)).
Qed.

Section Fold.
Variable A : Type.
Variable idx : A -> Z.                 (* row index of an entry *)
Variable cells : A -> Z * list Q.      (* NCOST and cells it writes *)
Variable w : nat.
Hypothesis cells_w : forall a, List.length (snd (cells a)) = w.

Definition writes (l : list A) (m : gencost) : res gencost :=
  fold_res (fun m a => write_row m (idx a) (fst (cells a)) (snd (cells a))) l m.

Theorem writes_spec l : forall m,
  poly_table w m -> (forall a, In a l -> (0 <= idx a < Z.of_nat (List.length m))%Z) -> NoDup (map idx l) ->
  exists m', writes l m = Ok m' /\ List.length m' = List.length m /\ poly_table w m' /\
    (forall a, In a l -> nth_error m' (Z.to_nat (idx a)) = Some (row_of (cells a))) /\
    (forall j, (forall a, In a l -> Z.to_nat (idx a) <> j) -> nth_error m' j = nth_error m j).
Proof.
  induction l as [|a l IH]; intros m Hw Hr Hn.
  - exists m. cbn. repeat split; auto. intros a [].
  - cbn [writes fold_res]. inversion Hn as [|x xs Hnotin Hnd]; subst.
    destruct (write_row_spec w m (idx a) (fst (cells a)) (snd (cells a)) Hw (Hr a (or_introl eq_refl)) (cells_w a))
      as (m1 & E & N & W1 & L1 & O1).
    rewrite E. cbn [bind].
    destruct (IH m1 W1) as (m' & E' & L' & W' & Own & Oth).
    { intros b Hb. rewrite L1. apply Hr. now right. }
    { exact Hnd. }
    fold (writes l m1). exists m'. split; [exact E'|]. split; [congruence|]. split; [exact W'|]. split.
    + intros b [<-|Hb]; [|exact (Own b Hb)].
      (* the later writes go to other rows: the indices are distinct and in range *)
      rewrite Oth; [exact N|].
      intros b Hb Heq. apply Hnotin. apply in_map_iff. exists b. split; [|exact Hb].
      assert (Hb' := Hr b (or_intror Hb)). assert (Ha' := Hr a (or_introl eq_refl)). lia.
    + intros j Hj. rewrite Oth by (intros b Hb; apply Hj; now right).
      apply O1. intros Heq. apply (Hj a (or_introl eq_refl)). congruence.
Qed.
End Fold.

(* the table _init_gencost hands to _fill_gencost_poly: every row costs 0 until an entry writes it *)
Definition zero_row (isq : bool) : grow := {| g_model := 2; g_ncost := 0; g_c := repeat 0 (if isq then 3 else 2)%nat |}.

Lemma zero_table (isq : bool) rows : poly_table (if isq then 3 else 2)%nat (repeat (zero_row isq) rows).
Proof.
  apply Forall_forall. intros r Hin. apply repeat_spec in Hin. subst r. split; [reflexivity | apply repeat_length].
Qed.
Lemma cells_of_width (isq : bool) s c2 c1 c0 : List.length (snd (cells_of isq s c2 c1 c0)) = (if isq then 3 else 2)%nat.
Proof. destruct isq; reflexivity. Qed.
