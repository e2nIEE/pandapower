(* C17 — lemmas about single gencost rows: poly entries, the sign of the generator variable, the dcline's row. *)
From Coq Require Import ZArith QArith List Bool Lia Lqa String.
From PPV Require Import Base.QN Base.Out C17.Model.
Import ListNotations.
Open Scope Q_scope.

(* sign relating an element's own result power to its ppc generator variable (results write-back):
   load, storage (inverted) and dcline (p_from = - Pg) are mirrored *)
Definition res_sign (t : etype) : Q := if is_neg_et t then (-1 # 1) else 1.

Definition row_of (nc : Z * list Q) : grow := {| g_model := 2; g_ncost := fst nc; g_c := snd nc |}.

Lemma polycost_quadratic a2 a1 a0 x m :
  polycost {| g_model := m; g_ncost := 3; g_c := [a2; a1; a0] |} x == a2 * x * x + a1 * x + a0.
Proof.
  unfold polycost. cbn [g_ncost g_c]. change (Z.to_nat 3) with 3%nat.
  cbn [firstn rev app polysum qpow]. qstrip. ring.
Qed.

Lemma polycost_linear a1 a0 x m :
  polycost {| g_model := m; g_ncost := 2; g_c := [a1; a0] |} x == a1 * x + a0.
Proof.
  unfold polycost. cbn [g_ncost g_c]. change (Z.to_nat 2) with 2%nat.
  cbn [firstn rev app polysum qpow]. qstrip. ring.
Qed.

Lemma polycost_cells isq s c2 c1 c0 x :
  (isq = false -> c2 == 0) ->
  polycost (row_of (cells_of isq s c2 c1 c0)) x == c2 * x * x + s * c1 * x + c0.
Proof.
  intros H. destruct isq; unfold row_of, cells_of; cbn [fst snd].
  - rewrite polycost_quadratic. qstrip. ring.
  - rewrite polycost_linear. qstrip. rewrite (H eq_refl). ring.
Qed.
Lemma polycost_cells_old isq s c2 c1 c0 x :
  (isq = false -> c2 == 0) ->
  polycost (row_of (cells_of_old isq s c2 c1 c0)) x == s * (c2 * x * x + c1 * x + c0).
Proof.
  intros H. destruct isq; unfold row_of, cells_of_old; cbn [fst snd].
  - rewrite polycost_quadratic. qstrip. ring.
  - rewrite polycost_linear. qstrip. rewrite (H eq_refl). ring.
Qed.

(* the sign applied to the linear coefficient is the sign of the result write-back, and it is +-1 *)
Lemma sign_p_res_sign t : sign_p t = res_sign t.
Proof. destruct t; reflexivity. Qed.
Lemma sign_q_res_sign t : sign_q t = res_sign t.
Proof. destruct t; reflexivity. Qed.
Lemma res_sign_sq t : res_sign t * res_sign t == 1.
Proof. unfold res_sign. destruct (is_neg_et t); reflexivity. Qed.

(* a row written with the sign s on the linear coefficient, read at the generator variable s * p, is the user's
   polynomial in p, because s * s = 1; the rule before the repair (sign on every coefficient) misses it by
   (1 - s) (c2 p^2 + c0) *)
Lemma polycost_signed isq s c0 c1 c2 p :
  s * s == 1 -> (isq = false -> c2 == 0) ->
  polycost (row_of (cells_of isq s c2 c1 c0)) (s * p) == user_poly c0 c1 c2 p.
Proof.
  intros Hs Hq. rewrite polycost_cells by exact Hq. unfold user_poly.
  transitivity (c2 * p * p * (s * s) + c1 * p * (s * s) + c0); [ring | rewrite Hs; ring].
Qed.
Lemma polycost_signed_old isq s c0 c1 c2 p :
  s * s == 1 -> (isq = false -> c2 == 0) ->
  polycost (row_of (cells_of_old isq s c2 c1 c0)) (s * p) == user_poly c0 c1 c2 p - (1 - s) * (c2 * p * p + c0).
Proof.
  intros Hs Hq. rewrite polycost_cells_old by exact Hq. unfold user_poly.
  transitivity (s * c2 * p * p * (s * s) + c1 * p * (s * s) + s * c0); [ring | rewrite Hs; ring].
Qed.

(* the active-power row evaluates to the user's polynomial at the element's own power, for every element kind *)
Lemma poly_cost t isq c0 c1 c2 p :
  (isq = false -> c2 == 0) ->
  polycost (row_of (cells_of isq (sign_p t) c2 c1 c0)) (res_sign t * p) == user_poly c0 c1 c2 p.
Proof. intros Hq. rewrite sign_p_res_sign. exact (polycost_signed isq _ c0 c1 c2 p (res_sign_sq t) Hq). Qed.

Lemma G17old_cases t c0 c2 : G17old t c0 c2 = true -> is_neg_et t = false \/ (c2 == 0 /\ c0 == 0).
Proof.
  unfold G17old. intros H. apply orb_true_iff in H. destruct H as [H|H].
  - left. now apply negb_true_iff in H.
  - right. apply andb_true_iff in H. destruct H as [H1 H2]. split; now apply qeqb_eq.
Qed.

(* the breakpoints are mirrored exactly for the kinds whose generator variable is - p *)
Lemma mirror_cases t p :
  (qltb (sign_p t) 0 = true /\ res_sign t * p == - p) \/ (qltb (sign_p t) 0 = false /\ res_sign t * p == p).
Proof. destruct t; [right | right | left | left | right | left]; split; try reflexivity; cbn; ring. Qed.

(* pwl_row on the witness of C17_pwl_old_refuted (two areas of different slope on a load) gives the user's cost *)
Lemma pwl_witness_repaired :
  exists v, obj_of_res (pwl_row Load [(0, 5, 1); (5, 10, 3)]) (res_sign Load * 6) = Some v
            /\ v == user_pwl [(0, 5, 1); (5, 10, 3)] 6.
Proof. eexists. split; [vm_compute; reflexivity | vm_compute; reflexivity]. Qed.


(* dcline: the row is the one of the from-bus gen's index label *)
Lemma dcline_row_is_from_gen e el k lab :
  index_of (dcl_index e) el 0 = Some k -> np_get (gen_labels e) (dcl_pos e k) = Some lab ->
  get_gen_index e Dcline el = Ok (nonneg (lookup_get (lk_gen e) lab)).
Proof. intros H1 H2. unfold get_gen_index. rewrite H1, H2. reflexivity. Qed.

(* gens 0 and 2, one dcline (auxiliary gens get the labels 3 and 4): get_gen_index_old addresses the to-bus gen's row *)
Definition env_gapped : env :=
  {| lk_gen := Some [1; -1; 2; 3; 4]%Z; lk_sgen := None; lk_load := None; lk_storage := None; lk_ext := Some [0%Z];
     n_gen_tab := 4; gen_labels := [0; 2; 3; 4]%Z; dcl_index := [0%Z]; ng := 5 |}.
