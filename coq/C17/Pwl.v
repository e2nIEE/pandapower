(* C17 — piecewise linear cost entries with any number of consecutive convex areas: the gencost row written by
   _fill_gencost_pwl / costs_from_areas, read as the OPF reads it (cost variable constrained from below by every
   segment line, makeAy), is the user's function at the element's own power — for every element kind, including
   the mirrored breakpoints of load / storage / dcline. *)
From Coq Require Import ZArith QArith List Bool Lia Lqa String.
From PPV Require Import Base.QN Base.Out C17.Model C17.Proofs.
Import ListNotations.
Open Scope Q_scope.

Lemma segs_as_map {A B} (f : A -> A -> B) P : segs f P = map (fun ab => f (fst ab) (snd ab)) (segs pair P).
Proof.
  induction P as [|a [|b t] IH]; try reflexivity.
  change (f a b :: segs f (b :: t) = f a b :: map (fun ab => f (fst ab) (snd ab)) (segs pair (b :: t))).
  now rewrite IH.
Qed.

Lemma segs_app2 {A B} (f : A -> A -> B) P a b : segs f (P ++ [a; b]) = segs f (P ++ [a]) ++ [f a b].
Proof.
  induction P as [|x [|y P] IH]; try reflexivity.
  change (f x y :: segs f ((y :: P) ++ [a; b]) = (f x y :: segs f ((y :: P) ++ [a])) ++ [f a b]).
  now rewrite IH.
Qed.

Lemma segs_rev {A B} (f : A -> A -> B) P : segs f (rev P) = rev (segs (fun a b => f b a) P).
Proof.
  induction P as [|x [|y P] IH]; try reflexivity.
  change (segs f ((rev P ++ [y]) ++ [x]) = rev (f y x :: segs (fun a b => f b a) (y :: P))).
  rewrite <- app_assoc. cbn [app]. rewrite segs_app2.
  change (rev P ++ [y]) with (rev (y :: P)). rewrite IH. reflexivity.
Qed.

Lemma segs_map {A B C} (g : C -> A) (f : A -> A -> B) P : segs f (map g P) = segs (fun a b => f (g a) (g b)) P.
Proof.
  induction P as [|x [|y P] IH]; try reflexivity.
  change (f (g x) (g y) :: segs f (map g (y :: P)) = f (g x) (g y) :: segs (fun a b => f (g a) (g b)) (y :: P)).
  now rewrite IH.
Qed.

Lemma segs_length {A B} (f : A -> A -> B) P : List.length (segs f P) = pred (List.length P).
Proof.
  induction P as [|x [|y P] IH]; try reflexivity.
  change (S (List.length (segs f (y :: P))) = S (List.length P)). rewrite IH. reflexivity.
Qed.

Lemma Forall2_map_same {A} (f g : A -> Q) X : Forall (fun a => f a == g a) X -> Forall2 Qeq (map f X) (map g X).
Proof. induction 1; cbn; constructor; auto. Qed.

Lemma Forall2_rev {A B} (R : A -> B -> Prop) l l' : Forall2 R l l' -> Forall2 R (rev l) (rev l').
Proof.
  induction 1; cbn; [constructor|]. apply Forall2_app; [assumption | constructor; [assumption | constructor]].
Qed.

Definition is_max (r : Q) (vals : list Q) : Prop := Forall (fun v => v <= r) vals /\ Exists (fun v => r == v) vals.

Lemma is_max_eqv r vals vals' : Forall2 Qeq vals vals' -> is_max r vals -> is_max r vals'.
Proof.
  intros H [Hf He]. split.
  - clear He. induction H; [constructor|]. inversion Hf; subst. constructor; [lra | auto].
  - clear Hf. induction H; [inversion He|]. inversion He; subst; [left; lra | right; auto].
Qed.

Lemma is_max_rev r vals : is_max r vals -> is_max r (rev vals).
Proof. intros [Hf He]. split; [apply Forall_rev | apply Exists_rev]; assumption. Qed.

(* a value F that bounds all and is attained is the maximum *)
Lemma is_max_is r F vals :
  Forall (fun v => v <= F) vals -> Exists (fun v => v == F) vals -> is_max r vals -> r == F.
Proof.
  intros HF HE [Hr He].
  assert (r <= F).
  { clear HE Hr. induction He as [v l H|v l H IH]; inversion HF; subst; [lra | auto]. }
  assert (F <= r).
  { clear He HF. induction HE as [v l H'|v l H' IH]; inversion Hr; subst; [lra | auto]. }
  lra.
Qed.

(* the feasible values of a variable bounded from below by all values are those above the maximum *)
Lemma is_max_bound r vals y : is_max r vals -> (Forall (fun v => v <= y) vals <-> r <= y).
Proof.
  intros [Hr He]. split.
  - intros Hy. clear Hr. induction He as [v l H|v l H IH]; inversion Hy; subst; [lra | auto].
  - intros Hy. eapply Forall_impl; [|exact Hr]. cbn. intros; lra.
Qed.

Definition fmax (o : option Q) (v : Q) : option Q := Some (match o with Some a => qmax a v | None => v end).

Lemma fold_max vals : forall a, exists r, fold_left fmax vals (Some a) = Some r /\ is_max r (a :: vals).
Proof.
  induction vals as [|v vals IH]; intros a.
  - exists a. split; [reflexivity|]. split; [constructor; [lra | constructor] | left; reflexivity].
  - cbn [fold_left fmax]. destruct (IH (qmax a v)) as (r & E & [Hf He]). exists r. split; [exact E|].
    inversion Hf as [|x l Hx Hl]; subst.
    destruct (qmax_spec a v) as [[Em Lm]|[Em Lm]].
    + split.
      * constructor; [lra | constructor; [lra | exact Hl]].
      * inversion He; subst; [left; lra | right; right; assumption].
    + split.
      * constructor; [lra | constructor; [lra | exact Hl]].
      * inversion He; subst; [right; left; lra | right; right; assumption].
Qed.

Definition seg_val (x : Q) (a b : Q * Q) : Q :=
  qadd (qmul (qdiv (qsub (snd b) (snd a)) (qsub (fst b) (fst a))) (qsub x (fst a))) (snd a).
(* no two consecutive breakpoints coincide (otherwise makeAy divides by zero) *)
Definition distinct_x (P : list (Q * Q)) : Prop := Forall (fun ab => ~ fst (snd ab) == fst (fst ab)) (segs pair P).

Lemma distinct_x_cons a b t : distinct_x (a :: b :: t) <-> ~ fst b == fst a /\ distinct_x (b :: t).
Proof.
  unfold distinct_x. change (segs pair (a :: b :: t)) with ((a, b) :: segs pair (b :: t)).
  split; [intros H; inversion H; subst; auto | intros [H1 H2]; constructor; auto].
Qed.

Lemma lines_max_fold P x : distinct_x P -> forall acc, lines_max P x acc = fold_left fmax (segs (seg_val x) P) acc.
Proof.
  induction P as [|[p1 c1] [|[p2 c2] t] IH]; intros Hd acc; try reflexivity.
  apply distinct_x_cons in Hd. destruct Hd as [Hne Hd]. cbn [fst] in Hne.
  change (segs (seg_val x) ((p1, c1) :: (p2, c2) :: t))
    with (seg_val x (p1, c1) (p2, c2) :: segs (seg_val x) ((p2, c2) :: t)).
  cbn [fold_left]. rewrite <- (IH Hd). cbn [lines_max].
  destruct (qeqb p2 p1) eqn:E; [apply qeqb_eq in E; contradiction|].
  unfold fmax, seg_val. cbn [fst snd]. destruct acc; reflexivity.
Qed.

Lemma lines_max_is_max P x : distinct_x P -> (2 <= List.length P)%nat ->
  exists r, lines_max P x None = Some r /\ is_max r (segs (seg_val x) P).
Proof.
  intros Hd Hl. rewrite lines_max_fold by exact Hd.
  destruct P as [|a [|b t]]; cbn in Hl; try lia.
  change (segs (seg_val x) (a :: b :: t)) with (seg_val x a b :: segs (seg_val x) (b :: t)).
  cbn [fold_left fmax]. apply fold_max.
Qed.

(* the objective of a pwl row of two points is the line through them *)
Lemma obj_row_two_points x0 y0 x1 y1 x : ~ x1 == x0 ->
  obj_row {| g_model := 1; g_ncost := 2; g_c := [x0; y0; x1; y1] |} x
  = Some (qadd (qmul (qdiv (qsub y1 y0) (qsub x1 x0)) x) (qsub y0 (qmul (qdiv (qsub y1 y0) (qsub x1 x0)) x0))).
Proof.
  intros Hne. unfold obj_row, pwl_points. cbn [g_model g_ncost g_c Z.eqb Pos.eqb pairs].
  change (Z.to_nat 2) with 2%nat. cbn [firstn].
  destruct (qeqb x1 x0) eqn:E; [apply qeqb_eq in E; contradiction | reflexivity].
Qed.

(* the value the objective gives a pwl row with the breakpoints P *)
Lemma obj_row_is_max n c P x :
  pwl_points {| g_model := 1; g_ncost := n; g_c := c |} = P -> distinct_x P -> (2 <= List.length P)%nat ->
  exists r, obj_row {| g_model := 1; g_ncost := n; g_c := c |} x = Some r /\ is_max r (segs (seg_val x) P).
Proof.
  intros HP Hd Hl. unfold obj_row. cbn [g_model Z.eqb Pos.eqb]. rewrite HP.
  destruct P as [|[x0 y0] [|[x1 y1] [|c3 t]]]; cbn in Hl; try lia.
  - apply distinct_x_cons in Hd. destruct Hd as [Hne _]. cbn [fst] in Hne.
    destruct (qeqb x1 x0) eqn:E; [apply qeqb_eq in E; contradiction|].
    eexists. split; [reflexivity|]. cbn [segs]. split.
    + constructor; [|constructor]. unfold seg_val. cbn [fst snd]. qstrip. apply Qle_lteq. right. ring.
    + left. unfold seg_val. cbn [fst snd]. qstrip. ring.
  - apply lines_max_is_max; [exact Hd | cbn; lia].
Qed.

(* the makeAy constraints of the row say: y is at least every segment value (m x - y <= m p - c  iff  m (x - p) + c <= y,
   whatever the slope m) *)
Lemma ay_feasible_iff r x y : ay_feasible r x y <-> Forall (fun v => v <= y) (segs (seg_val x) (pwl_points r)).
Proof.
  unfold ay_feasible, ay_rows. rewrite (segs_as_map ay_seg), (segs_as_map (seg_val x)), !Forall_map.
  assert (E : forall ab : (Q * Q) * (Q * Q),
            fst (ay_seg (fst ab) (snd ab)) * x - y <= snd (ay_seg (fst ab) (snd ab)) <-> seg_val x (fst ab) (snd ab) <= y).
  { intros [[p c] [p' c']]. unfold ay_seg, seg_val. cbn [fst snd]. qstrip. generalize ((c' - c) / (p' - p)). intros m.
    split; intros H; lra. }
  split; apply Forall_impl; intros ab; apply E.
Qed.

(* costs_from_areas (areas_go with sign 1): the running cost after an area [l, u] of slope s, and the breakpoints
   (upper end, running cost) of a list of areas *)
Definition nxt (v l u s : Q) : Q := qadd v (qmul (qmul (qsub u l) s) 1).
Lemma nxt_eq v l u s : nxt v l u s == v + (u - l) * s.
Proof. unfold nxt. qstrip. ring. Qed.

Fixpoint bps (pts : list (Q * Q * Q)) (v : Q) : list (Q * Q) :=
  match pts with [] => [] | (l, u, s) :: t => (u, nxt v l u s) :: bps t (nxt v l u s) end.
(* areas that continue a function whose last breakpoint is lu and whose last slope is s0, convexly *)
Fixpoint cvx (lu s0 : Q) (pts : list (Q * Q * Q)) : bool :=
  match pts with [] => true | (l, u, s) :: t => qeqb lu l && qltb l u && qleb s0 s && cvx u s t end.

Lemma cvx_inv lu s0 l u s t : cvx lu s0 ((l, u, s) :: t) = true -> lu == l /\ l < u /\ s0 <= s /\ cvx u s t = true.
Proof.
  cbn [cvx]. intros H. repeat (apply andb_true_iff in H; destruct H as [H ?]).
  repeat split; [now apply qeqb_eq | now apply qltb_lt | now apply qleb_le | assumption].
Qed.

Lemma convex_cvx l u s t : convex_areas ((l, u, s) :: t) = true -> l < u /\ cvx u s t = true.
Proof.
  unfold convex_areas. revert l u s. induction t as [|[[l2 u2] s2] t IH]; intros l u s H.
  - cbn in H. rewrite andb_true_r in H. split; [now apply qltb_lt | reflexivity].
  - apply andb_true_iff in H. destruct H as [Hc Hs].
    cbn [consecutive] in Hc. cbn [nondecr_slopes] in Hs.
    repeat (apply andb_true_iff in Hc; destruct Hc as [Hc ?]). apply andb_true_iff in Hs. destruct Hs as [Hs1 Hs2].
    split; [now apply qltb_lt|]. cbn [cvx].
    destruct (IH l2 u2 s2) as [Hlt Hcv]. { apply andb_true_iff. split; assumption. }
    apply qltb_lt in Hlt. rewrite H0, Hlt, Hs1, Hcv. reflexivity.
Qed.

Lemma areas_go_bps pts : forall v lu s0, cvx lu s0 pts = true -> areas_go pts 1 v (Some lu) = Ok (unpairs (bps pts v)).
Proof.
  induction pts as [|[[l u] s] t IH]; intros v lu s0 H; [reflexivity|].
  cbn [cvx] in H. repeat (apply andb_true_iff in H; destruct H as [H ?]).
  cbn [areas_go]. rewrite H. cbn [negb]. fold (nxt v l u s). rewrite (IH _ _ _ H0). reflexivity.
Qed.

Definition start_val (l s : Q) : Q := qadd 0 (qmul (qmul l s) 1).
Definition area_points (l u s : Q) (t : list (Q * Q * Q)) : list (Q * Q) :=
  (l, start_val l s) :: bps ((l, u, s) :: t) (start_val l s).

Lemma areas_go_points l u s t : cvx u s t = true ->
  areas_go ((l, u, s) :: t) 1 0 None = Ok (unpairs (area_points l u s t)).
Proof.
  intros H. cbn [areas_go]. fold (start_val l s). fold (nxt (start_val l s) l u s).
  rewrite (areas_go_bps _ _ _ _ H). reflexivity.
Qed.

Lemma pairs_unpairs L : pairs (unpairs L) = L.
Proof. induction L as [|[x y] L IH]; [reflexivity|]. cbn [unpairs pairs]. now rewrite IH. Qed.
Lemma pairs0_unpairs L : pairs0 (unpairs L) = L.
Proof. induction L as [|[x y] L IH]; [reflexivity|]. cbn [unpairs pairs0]. now rewrite IH. Qed.
Lemma length_unpairs L : List.length (unpairs L) = (2 * List.length L)%nat.
Proof. induction L as [|[x y] L IH]; [reflexivity|]. cbn [unpairs List.length]. rewrite IH. lia. Qed.

Lemma pwl_points_unpairs L :
  pwl_points {| g_model := 1; g_ncost := (Z.of_nat (List.length (unpairs L)) / 2)%Z; g_c := unpairs L |} = L.
Proof.
  unfold pwl_points. cbn [g_ncost g_c]. rewrite pairs_unpairs, length_unpairs.
  rewrite Nat2Z.inj_mul, Z.mul_comm, Z.div_mul by discriminate. rewrite Nat2Z.id. apply firstn_all.
Qed.

(* the lines of the areas: value v at the lower end of the first area *)
Fixpoint area_lines (v : Q) (pts : list (Q * Q * Q)) (x : Q) : list Q :=
  match pts with [] => [] | (l, u, s) :: t => (v + (x - l) * s) :: area_lines (v + (u - l) * s) t x end.

Lemma segs_bps_distinct pts : forall p0 v s0, cvx p0 s0 pts = true -> distinct_x ((p0, v) :: bps pts v).
Proof.
  induction pts as [|[[l u] s] t IH]; intros p0 v s0 H.
  - constructor.
  - apply cvx_inv in H. destruct H as (Hp & Hlu & _ & Hc). cbn [bps]. apply distinct_x_cons. split.
    + cbn [fst]. lra.
    + exact (IH _ _ _ Hc).
Qed.

(* a reading f of the segment between two breakpoints that gives, for every area, the line of that area at x
   gives the lines of all areas *)
Lemma segs_bps_lines (f : Q * Q -> Q * Q -> Q) x :
  (forall p0 v v' l u s, p0 == l -> l < u -> v == v' -> f (p0, v) (u, nxt v l u s) == v' + (x - l) * s) ->
  forall pts p0 v v' s0, cvx p0 s0 pts = true -> v == v' ->
  Forall2 Qeq (segs f ((p0, v) :: bps pts v)) (area_lines v' pts x).
Proof.
  intros Hf. induction pts as [|[[l u] s] t IH]; intros p0 v v' s0 H Hv.
  - constructor.
  - apply cvx_inv in H. destruct H as (Hp & Hlu & _ & Hc). cbn [bps area_lines].
    change (segs f ((p0, v) :: (u, nxt v l u s) :: bps t (nxt v l u s)))
      with (f (p0, v) (u, nxt v l u s) :: segs f ((u, nxt v l u s) :: bps t (nxt v l u s))).
    constructor; [exact (Hf _ _ _ _ _ _ Hp Hlu Hv) | apply (IH _ _ _ _ Hc)]. rewrite nxt_eq, Hv. reflexivity.
Qed.

(* read directly at x, and read through the mirror (breakpoints negated, order reversed) at - x *)
Definition negx (xy : Q * Q) : Q * Q := (qopp (fst xy), snd xy).
Lemma seg_line x x' p0 v v' l u s : x' == x -> p0 == l -> l < u -> v == v' ->
  seg_val x' (p0, v) (u, nxt v l u s) == v' + (x - l) * s.
Proof. intros Hx Hp Hlu Hv. unfold seg_val. cbn [fst snd]. qstrip. rewrite nxt_eq, Hp, Hx, Hv. field. lra. Qed.
Lemma seg_line_mirror x x' p0 v v' l u s : x' == - x -> p0 == l -> l < u -> v == v' ->
  seg_val x' (negx (u, nxt v l u s)) (negx (p0, v)) == v' + (x - l) * s.
Proof. intros Hx Hp Hlu Hv. unfold seg_val, negx. cbn [fst snd]. qstrip. rewrite nxt_eq, Hp, Hx, Hv. field. lra. Qed.

Lemma distinct_x_mirror P : distinct_x P -> distinct_x (map negx (rev P)).
Proof.
  unfold distinct_x. rewrite (segs_map negx pair), segs_rev.
  rewrite (segs_as_map (fun a b => (negx b, negx a))). intros H.
  apply Forall_rev. rewrite Forall_map. eapply Forall_impl; [|exact H].
  intros [a b] Hab E. apply Hab. unfold negx in E. cbn [fst snd] in *. qstrip_in E. lra.
Qed.

Lemma segs_mirror (x' : Q) P :
  segs (seg_val x') (map negx (rev P)) = rev (segs (fun a b => seg_val x' (negx b) (negx a)) P).
Proof. rewrite (segs_map negx (seg_val x')), segs_rev. reflexivity. Qed.

(* right of the last breakpoint lu the function stays above the continuation of a line of smaller slope *)
Lemma pwl_above pts x : forall v lu s0, cvx lu s0 pts = true -> pts <> [] -> lu <= x ->
  v + (x - lu) * s0 <= pwl_from v pts x.
Proof.
  induction pts as [|[[l u] s] [|b t] IH]; intros v lu s0 H Hne Hx; [congruence| |].
  - apply cvx_inv in H. destruct H as (Hp & Hlu & Hs & _). cbn [pwl_from]. nra.
  - apply cvx_inv in H. destruct H as (Hp & Hlu & Hs & Hc).
    change (pwl_from v ((l, u, s) :: b :: t) x)
      with (if qltb x u then v + (x - l) * s else pwl_from (v + (u - l) * s) (b :: t) x).
    destruct (qltb x u) eqn:E; [nra|]. apply qltb_ge in E.
    assert (H1 := IH (v + (u - l) * s) u s Hc ltac:(discriminate) E). nra.
Qed.

(* left of lu every line of the areas stays below the continuation of a line of smaller slope *)
Lemma lines_below pts x : forall v lu s0, cvx lu s0 pts = true -> x <= lu ->
  Forall (fun w => w <= v + (x - lu) * s0) (area_lines v pts x).
Proof.
  induction pts as [|[[l u] s] t IH]; intros v lu s0 H Hx; [constructor|].
  apply cvx_inv in H. destruct H as (Hp & Hlu & Hs & Hc). cbn [area_lines]. constructor; [nra|].
  assert (Hx' : x <= u) by lra.
  eapply Forall_impl; [|exact (IH (v + (u - l) * s) u s Hc Hx')]. cbn beta. intros w Hw. nra.
Qed.

Lemma lines_max_pwl pts x : forall v lu s0, cvx lu s0 pts = true -> pts <> [] ->
  Forall (fun w => w <= pwl_from v pts x) (area_lines v pts x) /\ Exists (fun w => w == pwl_from v pts x) (area_lines v pts x).
Proof.
  induction pts as [|[[l u] s] [|b t] IH]; intros v lu s0 H Hne; [congruence| |].
  - cbn [pwl_from area_lines]. split; [constructor; [lra | constructor] | left; reflexivity].
  - apply cvx_inv in H. destruct H as (Hp & Hlu & Hs & Hc).
    change (pwl_from v ((l, u, s) :: b :: t) x)
      with (if qltb x u then v + (x - l) * s else pwl_from (v + (u - l) * s) (b :: t) x).
    change (area_lines v ((l, u, s) :: b :: t) x) with ((v + (x - l) * s) :: area_lines (v + (u - l) * s) (b :: t) x).
    destruct (qltb x u) eqn:E.
    + apply qltb_lt in E. split; [|left; reflexivity]. constructor; [lra|].
      assert (Hx' : x <= u) by lra.
      eapply Forall_impl; [|exact (lines_below (b :: t) x (v + (u - l) * s) u s Hc Hx')]. cbn beta. intros w Hw. nra.
    + apply qltb_ge in E. destruct (IH (v + (u - l) * s) u s Hc ltac:(discriminate)) as [Hf He].
      split; [|right; exact He]. constructor; [|exact Hf].
      assert (H1 := pwl_above (b :: t) x (v + (u - l) * s) u s Hc ltac:(discriminate) E). nra.
Qed.

Lemma cvx_first l u s t : l < u -> cvx u s t = true -> cvx l s ((l, u, s) :: t) = true.
Proof.
  intros Hlu Hc. cbn [cvx]. rewrite Hc.
  assert (E1 : qeqb l l = true) by (apply qeqb_eq; reflexivity).
  assert (E2 : qltb l u = true) by (now apply qltb_lt).
  assert (E3 : qleb s s = true) by (apply qleb_le; lra).
  rewrite E1, E2, E3. reflexivity.
Qed.

(* the row of a convex pwl entry: its breakpoints, and the segment values at the generator variable are the area lines *)
Lemma pwl_row_convex t l u s ar p : convex_areas ((l, u, s) :: ar) = true ->
  exists n c P, pwl_row t ((l, u, s) :: ar) = Ok {| g_model := 1; g_ncost := n; g_c := c |} /\
    pwl_points {| g_model := 1; g_ncost := n; g_c := c |} = P /\ distinct_x P /\ (2 <= List.length P)%nat /\
    exists vals, Forall2 Qeq (segs (seg_val (res_sign t * p)) P) vals /\
      forall r, is_max r vals -> r == user_pwl ((l, u, s) :: ar) p.
Proof.
  intros Hcv. destruct (convex_cvx _ _ _ _ Hcv) as [Hlu Hc].
  assert (Hc1 := cvx_first l u s ar Hlu Hc).
  set (L := area_points l u s ar). set (lines := area_lines (l * s) ((l, u, s) :: ar) p).
  assert (HdL : distinct_x L) by (exact (segs_bps_distinct _ _ _ _ Hc1)).
  assert (HlL : (2 <= List.length L)%nat) by (unfold L, area_points; cbn [bps List.length]; lia).
  assert (Hv : start_val l s == l * s) by (unfold start_val; qstrip; ring).
  assert (Hmax : forall r, is_max r lines -> r == user_pwl ((l, u, s) :: ar) p).
  { destruct (lines_max_pwl ((l, u, s) :: ar) p (l * s) l s Hc1 ltac:(discriminate)) as [HF HE].
    intros r. exact (is_max_is _ _ _ HF HE). }
  unfold pwl_row, costs_from_areas. rewrite (areas_go_points _ _ _ _ Hc). cbn [bind]. fold L.
  destruct (mirror_cases t p) as [[-> Hrs]|[-> Hrs]].
  - unfold mirror. rewrite pairs0_unpairs. set (L' := map negx (rev L)).
    change (map (fun xy : Q * Q => (qopp (fst xy), snd xy)) (rev L)) with L'.
    eexists _, _, L'. split; [reflexivity|]. split; [apply pwl_points_unpairs|].
    split; [exact (distinct_x_mirror _ HdL)|]. split; [unfold L'; rewrite map_length, rev_length; exact HlL|].
    exists (rev lines). split.
    + unfold L'. rewrite segs_mirror. apply Forall2_rev.
      exact (segs_bps_lines _ p (fun p0 v v' l u s => seg_line_mirror p _ p0 v v' l u s Hrs) _ _ _ _ _ Hc1 Hv).
    + intros r Hr. apply Hmax. rewrite <- (rev_involutive lines). apply is_max_rev. exact Hr.
  - eexists _, _, L. split; [reflexivity|]. split; [apply pwl_points_unpairs|].
    split; [exact HdL|]. split; [exact HlL|].
    exists lines. split; [|exact Hmax].
    exact (segs_bps_lines _ p (fun p0 v v' l u s => seg_line p _ p0 v v' l u s Hrs) _ _ _ _ _ Hc1 Hv).
Qed.

(* any number of consecutive areas with non-decreasing slopes: the objective value of the row at the generator
   variable res_sign * p is the user's function at the element's own power p, for every element kind *)
Theorem pwl_convex_areas t pts p : pts <> [] -> convex_areas pts = true ->
  exists v, obj_of_res (pwl_row t pts) (res_sign t * p) = Some v /\ v == user_pwl pts p.
Proof.
  intros Hne Hcv. destruct pts as [|[[l u] s] ar]; [congruence|].
  destruct (pwl_row_convex t l u s ar p Hcv) as (n & c & P & Erow & EP & Hd & Hl & vals & Hv & Hmax).
  rewrite Erow. cbn [obj_of_res].
  destruct (obj_row_is_max n c P (res_sign t * p) EP Hd Hl) as (r & Er & Hr).
  exists r. split; [exact Er|]. apply Hmax. exact (is_max_eqv _ _ _ Hv Hr).
Qed.

(* not vacuous: three areas on a load (mirrored), evaluated in the middle area *)
Example pwl_convex_nonvacuous :
  convex_areas [(0, 2, 1); (2, 3, 3); (3, 5, 4)] = true /\
  obj_of_res (pwl_row Load [(0, 2, 1); (2, 3, 3); (3, 5, 4)]) (res_sign Load * (5 # 2)) = Some (7 # 2) /\
  user_pwl [(0, 2, 1); (2, 3, 3); (3, 5, 4)] (5 # 2) == 7 # 2.
Proof. repeat split; vm_compute; reflexivity. Qed.
