(* C17 — a KKT point of a separable convex quadratic program with linear constraints is a global minimiser.
   Vectors are lists of Q; a missing component counts as 0 (dot truncates, vadd pads), so no dimension
   side conditions are needed except that the two compared points have the dimension of the cost. *)
From Coq Require Import QArith List Lia Lqa.
Import ListNotations.
Open Scope Q_scope.

Fixpoint dot (u v : list Q) : Q :=
  match u, v with a :: u', b :: v' => a * b + dot u' v' | _, _ => 0 end.
Fixpoint vadd (u v : list Q) : list Q :=
  match u, v with [], _ => v | _, [] => u | a :: u', b :: v' => (a + b) :: vadd u' v' end.
Definition vscale (k : Q) (u : list Q) : list Q := map (Qmult k) u.
Fixpoint vsub (y x : list Q) : list Q :=
  match y, x with a :: y', b :: x' => (a - b) :: vsub y' x' | _, _ => [] end.
(* sum_j l_j * row_j *)
Fixpoint comb (ls : list Q) (rows : list (list Q)) : list Q :=
  match ls, rows with l :: ls', r :: rows' => vadd (vscale l r) (comb ls' rows') | _, _ => [] end.

(* separable quadratic cost  sum_i a_i x_i^2 + b_i x_i + c_i  and its gradient *)
Record term := { qa : Q; qb : Q; qc : Q }.
Fixpoint cost (cs : list term) (x : list Q) : Q :=
  match cs, x with c :: cs', a :: x' => qa c * a * a + qb c * a + qc c + cost cs' x' | _, _ => 0 end.
Fixpoint grad (cs : list term) (x : list Q) : list Q :=
  match cs, x with c :: cs', a :: x' => (2 * qa c * a + qb c) :: grad cs' x' | _, _ => [] end.

(* A x = b  and  G x <= h, row by row *)
Definition eq_feasible (A : list (list Q)) (b : list Q) (x : list Q) : Prop :=
  Forall2 (fun r bi => dot r x == bi) A b.
Definition le_feasible (G : list (list Q)) (h : list Q) (x : list Q) : Prop :=
  Forall2 (fun r hi => dot r x <= hi) G h.
(* mu_k >= 0 and mu_k (G_k x - h_k) = 0 *)
Fixpoint compl (mu : list Q) (G : list (list Q)) (h : list Q) (x : list Q) : Prop :=
  match mu, G, h with
  | m :: mu', r :: G', hi :: h' => 0 <= m /\ m * (dot r x - hi) == 0 /\ compl mu' G' h' x
  | [], _, _ => True
  | _ :: _, _, _ => False          (* a multiplier without a constraint *)
  end.
Definition vzero (v : list Q) : Prop := Forall (fun a => a == 0) v.

Record KKT (cs : list term) (A : list (list Q)) (b : list Q) (G : list (list Q)) (h : list Q)
           (x lam mu : list Q) : Prop := {
  kkt_eq : eq_feasible A b x;
  kkt_le : le_feasible G h x;
  kkt_stat : vzero (vadd (grad cs x) (vadd (comb lam A) (comb mu G)));
  kkt_compl : compl mu G h x
}.

Lemma dot_nil_r u : dot u [] == 0.
Proof. destruct u; reflexivity. Qed.

Lemma dot_vadd u v d : dot (vadd u v) d == dot u d + dot v d.
Proof.
  revert v d. induction u as [|a u IH]; intros v d.
  - cbn. ring.
  - destruct v as [|b v].
    + cbn [vadd]. destruct d; cbn; ring.
    + destruct d as [|e d]; cbn [vadd dot].
      * ring.
      * rewrite IH. ring.
Qed.

Lemma dot_vscale k u d : dot (vscale k u) d == k * dot u d.
Proof.
  revert d. induction u as [|a u IH]; intros d; cbn.
  - ring.
  - destruct d as [|e d]; cbn [dot].
    + ring.
    + unfold vscale in IH. rewrite IH. ring.
Qed.

Fixpoint wsum (ls : list Q) (rows : list (list Q)) (d : list Q) : Q :=
  match ls, rows with l :: ls', r :: rows' => l * dot r d + wsum ls' rows' d | _, _ => 0 end.

Lemma dot_comb ls rows d : dot (comb ls rows) d == wsum ls rows d.
Proof.
  revert rows. induction ls as [|l ls IH]; intros rows; cbn.
  - reflexivity.
  - destruct rows as [|r rows]; cbn [dot wsum].
    + reflexivity.
    + rewrite dot_vadd, dot_vscale, IH. reflexivity.
Qed.

Lemma dot_vzero v d : vzero v -> dot v d == 0.
Proof.
  intros H. revert d. induction H as [|a v Ha Hv IH]; intros d; cbn.
  - reflexivity.
  - destruct d as [|e d]; [reflexivity|]. rewrite IH, Ha. ring.
Qed.

Lemma dot_vsub r y x : length y = length x -> dot r (vsub y x) == dot r y - dot r x.
Proof.
  revert y x. induction r as [|a r IH]; intros y x L.
  - cbn. ring.
  - destruct y as [|b y], x as [|c x]; cbn in L; try discriminate; cbn [vsub dot].
    + ring.
    + rewrite IH by (injection L; auto). ring.
Qed.

Lemma sq_nonneg t : 0 <= t * t.
Proof. nra. Qed.

Lemma convex_first_order cs x y :
  Forall (fun c => 0 <= qa c) cs -> length x = length cs -> length y = length cs ->
  dot (grad cs x) (vsub y x) <= cost cs y - cost cs x.
Proof.
  intros H. revert x y. induction H as [|c cs Hc Hcs IH]; intros x y Lx Ly.
  - destruct x; [|discriminate]. destruct y; [|discriminate]. cbn. lra.
  - destruct x as [|a x], y as [|b y]; cbn in Lx, Ly; try discriminate.
    cbn [grad vsub dot cost].
    assert (IH' := IH x y ltac:(lia) ltac:(lia)).
    assert (Hsq : 0 <= qa c * ((b - a) * (b - a))).
    { apply Qmult_le_0_compat; [exact Hc|]. apply sq_nonneg. }
    nra.
Qed.

Lemma wsum_eq lam A b x y :
  length y = length x -> eq_feasible A b x -> eq_feasible A b y -> wsum lam A (vsub y x) == 0.
Proof.
  intros L Hx. revert lam. induction Hx as [|r bi A b Hr HA IH]; intros lam Hy.
  - destruct lam; reflexivity.
  - inversion Hy as [|r' bi' A' b' Hr' HA']; subst.
    destruct lam as [|l lam]; cbn [wsum]; [reflexivity|].
    rewrite (IH lam HA'), dot_vsub by exact L. rewrite Hr, Hr'. ring.
Qed.

Lemma wsum_le mu G h x y :
  length y = length x -> compl mu G h x -> le_feasible G h y -> wsum mu G (vsub y x) <= 0.
Proof.
  intros L. revert G h. induction mu as [|m mu IH]; intros G h Hc Hy.
  - cbn. lra.
  - destruct G as [|r G]; [cbn; lra|].
    destruct h as [|hi h]; cbn in Hc; [contradiction|].
    destruct Hc as (Hm & Hs & Hc).
    inversion Hy as [|r' hi' G' h' Hr' HG']; subst.
    cbn [wsum]. rewrite dot_vsub by exact L.
    assert (IH' := IH G h Hc HG').
    assert (m * (dot r y - hi) <= 0).
    { assert (dot r y - hi <= 0) by lra. nra. }
    nra.
Qed.

(* non-vacuity: min x1^2 + x2^2 + 2 x2  s.t. x1 + x2 = 2, x2 <= 1/4 : x = (7/4, 1/4), lam = -7/2, mu = 1 *)
Example kkt_example :
  KKT [{| qa := 1; qb := 0; qc := 0 |}; {| qa := 1; qb := 2; qc := 0 |}] [[1; 1]] [2] [[0; 1]] [1 # 4]
      [7 # 4; 1 # 4] [- (7 # 2)] [1].
Proof.
  constructor.
  - constructor; [cbn; ring | constructor].
  - constructor; [cbn; lra | constructor].
  - unfold vzero. cbn. repeat constructor; ring.
  - cbn. repeat split; try lra; try ring.
Qed.
