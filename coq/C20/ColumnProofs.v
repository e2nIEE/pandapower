From Coq Require Import ZArith QArith Qround List Bool String Lia.
From PPV Require Import Base.QN C20.Model C20.Column.
Import ListNotations.
Open Scope Q_scope.

Lemma all_some_map {A B} (g : A -> option B) (f : A -> B) l :
  (forall x, In x l -> g x = Some (f x)) -> all_some (map g l) = Some (map f l).
Proof.
  induction l as [|a l IH]; intros H; [reflexivity|]. simpl.
  rewrite (H a (or_introl eq_refl)), IH; [reflexivity|]. intros x Hx. apply H. right. exact Hx.
Qed.

Lemma existsb_none {A} (P Q : A -> bool) l : forallb P l = true -> (forall x, P x = true -> Q x = false) -> existsb Q l = false.
Proof.
  induction l as [|a l IH]; simpl; intros H HQ; [reflexivity|].
  apply andb_true_iff in H. destruct H as [H1 H2]. rewrite (HQ a H1), (IH H2 HQ). reflexivity.
Qed.
Lemma forallb_hd_false {A} (P : A -> bool) a l : P a = false -> (nonempty (a :: l) && forallb P (a :: l))%bool = false.
Proof. intros H. simpl. rewrite H. reflexivity. Qed.

(* the generic step: no range error, a modelled conversion that succeeds on every cell *)
Lemma decode_col_ok d ts f :
  existsb is_err ts = false -> modelled d (infer ts) = true ->
  (forall t, In t ts -> conv d (infer ts) (raw_cell (infer ts) t) = Some (f t)) ->
  decode_col d ts = ColOk d (post d (map f ts)).
Proof.
  intros He Hm Hc. unfold decode_col. rewrite He, Hm. simpl negb. cbv iota.
  rewrite map_map. rewrite (all_some_map (fun t => conv d (infer ts) (raw_cell (infer ts) t)) f ts Hc). reflexivity.
Qed.

(* dtype inference on the tokens of each class *)
Lemma infer_all_int ts : forallb is_jint ts = true -> infer ts = if nonempty ts then RInt else RObj.
Proof. intros H. unfold infer. rewrite H. destruct ts; reflexivity. Qed.

Lemma infer_all_bool ts : forallb is_jbool ts = true -> infer ts = if nonempty ts then RBool else RObj.
Proof.
  intros H. destruct ts as [|t r]; [reflexivity|]. unfold infer.
  simpl in H. apply andb_true_iff in H. destruct H as [H1 H2].
  destruct t; try discriminate. simpl. rewrite H2. reflexivity.
Qed.

Definition is_strnull (t : jtok) : bool := match t with JStr _ | JNull => true | _ => false end.
Lemma infer_strnull ts : forallb is_strnull ts = true -> infer ts = RObj.
Proof.
  intros H. unfold infer.
  assert (E : existsb is_jnum ts = false) by (apply (existsb_none is_strnull); [exact H | intros [] ?; try discriminate; reflexivity]).
  rewrite E, andb_false_r.
  destruct ts as [|t r]; [reflexivity|]. simpl in H. apply andb_true_iff in H. destruct H as [H1 _].
  destruct t; try discriminate; reflexivity.
Qed.

Definition is_fnull (t : jtok) : bool := match t with JNum _ | JNull => true | _ => false end.
Lemma infer_fnull ts : forallb is_fnull ts = true -> infer ts = if existsb is_jnum ts then RFloat else RObj.
Proof.
  intros H. unfold infer.
  assert (N : forallb is_numnull ts = true).
  { apply forallb_forall. intros t Ht. rewrite forallb_forall in H. specialize (H t Ht). destruct t; try discriminate; reflexivity. }
  rewrite N. simpl andb.
  destruct ts as [|t r]; [reflexivity|]. simpl in H. apply andb_true_iff in H. destruct H as [H1 H2].
  assert (I : (nonempty (t :: r) && forallb is_jint (t :: r))%bool = false) by (apply forallb_hd_false; destruct t; try discriminate; reflexivity).
  rewrite I. destruct (existsb is_jnum (t :: r)) eqn:E; [reflexivity|].
  simpl in E. apply orb_false_iff in E. destruct E as [E1 _]. destruct t; try discriminate; reflexivity.
Qed.

Definition is_inull (t : jtok) : bool := match t with JInt _ | JNull => true | _ => false end.
Lemma infer_inull ts : forallb is_inull ts = true ->
  infer ts = if (nonempty ts && forallb is_jint ts)%bool then RInt else if existsb is_jnum ts then RFloat else RObj.
Proof.
  intros H. unfold infer.
  assert (N : forallb is_numnull ts = true).
  { apply forallb_forall. intros t Ht. rewrite forallb_forall in H. specialize (H t Ht). destruct t; try discriminate; reflexivity. }
  rewrite N. simpl andb. destruct (nonempty ts && forallb is_jint ts)%bool; [reflexivity|].
  destruct (existsb is_jnum ts) eqn:E; [reflexivity|].
  destruct ts as [|t r]; [reflexivity|]. simpl in H. apply andb_true_iff in H. destruct H as [H1 _].
  simpl in E. apply orb_false_iff in E. destruct E as [E1 _]. destruct t; try discriminate; reflexivity.
Qed.

Definition fitsall (d : dtype) (cs : list (Q * cell)) : bool := forallb (fun p => fits d (snd p)) cs.

(* an int that travelled as a float (nullable Int64 column with missing values) is converted back *)
Lemma conv_nullint_float k z : conv DNullInt k (CF (inject_Z z)) = Some (CI z).
Proof.
  cbn [conv]. unfold is_intq. rewrite Qfloor_Z.
  rewrite (proj2 (qeqb_eq (inject_Z z) (inject_Z z)) (Qeq_refl _)). reflexivity.
Qed.

(* the exact round trip of a column: every cell the dtype can hold is written as a token of a class P on which f undoes
   the writer, no token of P is a range error, and on columns of P-tokens the conversion to the stored dtype is modelled
   and yields f (P, f and these facts are what differs between the stored dtypes) *)
Lemma col_roundtrip_exact d (P : jtok -> bool) (f : jtok -> cell) cs :
  (forall l, post d l = l) ->
  (forall s c, fits d c = true -> P (encode s c) = true /\ f (encode s c) = c) ->
  (forall t, P t = true -> is_err t = false) ->
  (forall ts, forallb P ts = true ->
     modelled d (infer ts) = true /\ forall t, P t = true -> conv d (infer ts) (raw_cell (infer ts) t) = Some (f t)) ->
  fitsall d cs = true -> decode_col d (encode_col cs) = ColOk d (map snd cs).
Proof.
  intros Hpost Henc Herr Hconv H. unfold fitsall in H. rewrite forallb_forall in H.
  assert (T : forallb P (encode_col cs) = true).
  { apply forallb_forall. intros t Ht. apply in_map_iff in Ht. destruct Ht as [p [<- Hp]]. apply Henc, H, Hp. }
  destruct (Hconv _ T) as [Hm Hc]. rewrite forallb_forall in T.
  rewrite (decode_col_ok d (encode_col cs) f).
  - rewrite Hpost. f_equal. unfold encode_col. rewrite map_map. apply map_ext_in. intros p Hp. apply Henc, H, Hp.
  - apply (existsb_none P); [apply forallb_forall; exact T | exact Herr].
  - exact Hm.
  - intros t Ht. apply Hc, T, Ht.
Qed.

(* a column that loads has no cell written as a range error *)
Lemma no_err_in cs p : existsb is_err (encode_col cs) = false -> In p cs -> is_err (encode (fst p) (snd p)) = false.
Proof.
  intros He Hp. apply not_true_is_false. intros E.
  assert (X : existsb is_err (encode_col cs) = true); [|congruence]. apply existsb_exists.
  exists (encode (fst p) (snd p)). split; [apply (in_map (fun p => encode (fst p) (snd p))); exact Hp | exact E].
Qed.

(* the loaded cells are those of the per-cell codec of Model.v when [dec] agrees with it on every written token *)
Lemma cells_as_decoded d (dec : jtok -> cell) cs :
  (forall p, In p cs -> decode d (encode (fst p) (snd p)) = Some (dec (encode (fst p) (snd p)))) ->
  map (fun p => roundtrip d (fst p) (snd p)) cs = map Some (map dec (encode_col cs)).
Proof. intros H. unfold encode_col. rewrite !map_map. apply map_ext_in. exact H. Qed.

Definition fdec (t : jtok) : cell := match t with JNum q => CF q | _ => CNaN end.

(* an object column holding at least one string or bool: raw dtype object, every cell = the per-cell codec of class DObject *)
Definition has_strbool (cs : list (Q * cell)) : bool := existsb (fun p => match snd p with CS _ | CB _ => true | _ => false end) cs.
Definition odec (t : jtok) : cell :=
  match t with JNum q => CF q | JInt z => CI z | JNull => CNone | JBool b => CB b | JStr s => CS s | JRangeError => CNone end.

Lemma infer_robj_of ts : existsb (fun t => match t with JStr _ => true | _ => false end) ts = true -> infer ts = RObj.
Proof.
  intros H. apply existsb_exists in H. destruct H as [t [Ht Hs]]. destruct t; try discriminate.
  unfold infer.
  assert (A : forall P, P (JStr s) = false -> forallb P ts = false).
  { intros P HP. apply not_true_is_false. intros X. rewrite forallb_forall in X. specialize (X _ Ht). congruence. }
  rewrite (A is_jint eq_refl), (A is_numnull eq_refl), (A is_jbool eq_refl). rewrite !andb_false_r. reflexivity.
Qed.

Example col_nullint_nonvacuous :
  decode_col DNullInt (encode_col [(1, CI 5); (1, CNone); (1, CI (-3))]) = ColOk DNullInt [CI 5; CNone; CI (-3)].
Proof. vm_compute. reflexivity. Qed.
Example col_objnum_ints_become_floats :
  decode_col DObject (encode_col [(1, CI 1); (1, CNone)]) = ColOk DObject [CF (inject_Z 1); CNone] /\
  col_class DObject [CI 1; CNone] = DObjNum.
Proof. split; vm_compute; reflexivity. Qed.
Example col_float_inf_refuted :
  decode_col DFloat (encode_col [(1, CInf false); (1, CF (1 # 2))]) = ColOk DFloat [CNaN; CF (1 # 2)].
Proof. vm_compute. reflexivity. Qed.
