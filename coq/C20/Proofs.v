From Coq Require Import ZArith QArith Qround Qabs List Bool String Lia Lqa.
From PPV Require Import Base.QN C20.Model.
Import ListNotations.
Open Scope Q_scope.

Lemma p10_pos n : 0 < p10 n.
Proof. unfold p10. replace 0 with (inject_Z 0) by reflexivity. rewrite <- Zlt_Qlt. apply Z.pow_pos_nonneg; lia. Qed.

Lemma floor_half y : Qabs (inject_Z (Qfloor (y + (1 # 2))) - y) <= 1 # 2.
Proof.
  pose proof (Qfloor_le (y + (1 # 2))) as H1. pose proof (Qlt_floor (y + (1 # 2))) as H2.
  rewrite inject_Z_plus in H2.
  set (k := inject_Z (Qfloor (y + (1 # 2)))) in *.
  assert (O : inject_Z 1 == 1) by reflexivity. rewrite O in H2.
  apply Qabs_Qle_condition. split; lra.
Qed.

(* rounding half up to a multiple of d is off by at most d / 2: both notations of the float codec are this *)
Lemma round_to_multiple q d : 0 < d -> Qabs (inject_Z (Qfloor (q / d + (1 # 2))) * d - q) <= (1 # 2) * d.
Proof.
  intros Hd. set (k := inject_Z _).
  assert (E : k * d - q == (k - q / d) * d) by (field; lra).
  rewrite E, Qabs_Qmult, (Qabs_pos d) by lra. apply Qmult_le_compat_r; [apply floor_half | lra].
Qed.

Lemma qabs_correct q : qabs q == Qabs q.
Proof.
  unfold qabs. destruct (qltb q 0) eqn:L.
  - apply qltb_lt in L. qnorm. rewrite Qabs_neg by lra. reflexivity.
  - apply qltb_ge in L. rewrite Qabs_pos by lra. reflexivity.
Qed.

(* a subnormal float: it is written, with 15 significant digits, but cannot be read back *)
Definition q_sub : Q := 1 # (2 ^ 1030).
Definition sc_sub : Q := 1 / inject_Z (10 ^ 325).

Example fixed_nonvacuous : roundtrip DFloat 1 (CF (1 # 3)) = Some (CF (333333333333333 # 1000000000000000)).
Proof. vm_compute. reflexivity. Qed.
