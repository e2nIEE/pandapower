(* C23 — property theorems (lemmas in C23/Proofs.v, C23/ReplProofs.v, C23/FuseProofs.v).
   z_line_r/x l = series impedance in ohm of a line (r' * length / parallel), z_imp_r/x m v = series impedance in ohm of an
   impedance element whose per-unit values refer to v^2/sn.  Equal series (and shunt) parameters give the same ppc branch,
   hence the same power flow problem. *)
From Coq Require Import ZArith QArith List Bool String.
From PPV Require Import Base.QN C23.Model C23.Proofs.
From PPV Require Base.C07Graph C07.Model C07.UnionFind C23.Repl C23.ReplProofs C23.Fuse C23.FuseProofs.
Import ListNotations.
Open Scope Q_scope.

(* replace_line_by_impedance (with "fix: replace_line_by_impedance takes parallel and length_km from the line's own
   row"): for EVERY line index (shuffled, gapped) the created impedance has the series impedance of the line *)
Theorem C23_line_to_impedance_equiv : forall tab sn idx l m,
  by_label tab idx = Some l -> line_to_imp tab sn idx = Ok m ->
  ~ vn l == 0 -> ~ sn == 0 -> ~ par l == 0 ->
  z_imp_r m (vn l) == z_line_r l /\ z_imp_x m (vn l) == z_line_x l.
Proof.
  intros tab sn idx l m Hl. unfold line_to_imp. rewrite Hl. intros E. inversion E; subst m; clear E.
  intros Hv Hs Hp. unfold z_imp_r, z_imp_x, z_line_r, z_line_x. cbn [rft xft isn]. qstrip. split; field; repeat split; assumption.
Qed.
Print Assumptions C23_line_to_impedance_equiv.
Example C23_line_to_impedance_equiv_nonvacuous :
  exists l m, by_label w_tab 1%Z = Some l /\ line_to_imp w_tab 1 1%Z = Ok m /\ z_imp_r m (vn l) == z_line_r l.
Proof. eexists. eexists. split; [reflexivity|]. split; [reflexivity|]. vm_compute. reflexivity. Qed.
Print Assumptions C23_line_to_impedance_equiv_nonvacuous.
(* the rule before the repair read the positional arrays parallel/length_km at the line LABEL: correct only under G23a
   (line index = 0..n-1 in order), wrong values or IndexError otherwise (regression witnesses) *)
Theorem C23_line_to_impedance_old_equiv_partial : forall tab sn idx l m,
  G23a tab = true -> by_label tab idx = Some l -> line_to_imp_old tab sn idx = Ok m ->
  ~ vn l == 0 -> ~ sn == 0 -> ~ par l == 0 ->
  z_imp_r m (vn l) == z_line_r l /\ z_imp_x m (vn l) == z_line_x l.
Proof.
  intros tab sn idx l m G Hl E. rewrite (G23a_impl_is_label tab sn idx G) in E. eapply C23_line_to_impedance_equiv; eauto.
Qed.
Print Assumptions C23_line_to_impedance_old_equiv_partial.
Theorem C23_line_to_impedance_old_equiv_refuted :
  exists tab sn idx l m, by_label tab idx = Some l /\ line_to_imp_old tab sn idx = Ok m /\ ~ z_imp_r m (vn l) == z_line_r l.
Proof.
  (* line index [1, 0] with different lengths: the impedance of line 1 is computed with the length of line 0 *)
  exists w_tab, 1, 1%Z. eexists. eexists. split; [reflexivity|]. split; [reflexivity|]. vm_compute. discriminate.
Qed.
Print Assumptions C23_line_to_impedance_old_equiv_refuted.
Theorem C23_line_to_impedance_old_index_error :
  exists tab sn idx, by_label tab idx <> None /\ line_to_imp_old tab sn idx = Err "IndexError".
Proof.
  exists [{| lid := 5; r_km := 1 # 4; x_km := 1 # 8; c_km := 0; g_km := 0; len := 2; par := 1; vn := 20 |}], 1, 5%Z.
  split; [discriminate | reflexivity].
Qed.
Print Assumptions C23_line_to_impedance_old_index_error.
Theorem C23_impedance_to_line_equiv : forall m v i,
  ~ isn m == 0 -> z_line_r (imp_to_line m v i) == z_imp_r m v /\ z_line_x (imp_to_line m v i) == z_imp_x m v.
Proof.
  intros m v i H. unfold z_line_r, z_line_x, z_imp_r, z_imp_x, imp_to_line. cbn [r_km x_km len par]. qstrip. split; field; exact H.
Qed.
Print Assumptions C23_impedance_to_line_equiv.
(* merge_parallel_line: same series impedance, same total capacitance and conductance *)
Theorem C23_merge_parallel_line_equiv : forall l,
  ~ par l == 0 -> ~ r_km l * r_km l + x_km l * x_km l == 0 ->
  z_line_r (merge_parallel l) == z_line_r l /\ z_line_x (merge_parallel l) == z_line_x l /\
  c_km (merge_parallel l) * par (merge_parallel l) == c_km l * par l /\ g_km (merge_parallel l) * par (merge_parallel l) == g_km l * par l.
Proof.
  intros l Hp Hd. unfold z_line_r, z_line_x, merge_parallel. cbn [r_km x_km c_km g_km len par]. qstrip.
  (* |y1|^2 = parallel^2 |y0|^2 is not zero *)
  assert (Hpd : ~ par l * r_km l * (par l * r_km l) + - (par l * x_km l) * - (par l * x_km l) == 0).
  { intros X. assert (Y : (par l * par l) * (r_km l * r_km l + x_km l * x_km l) == 0) by (rewrite <- X; ring).
    apply Qmult_integral in Y. destruct Y as [Y|Y]; [|apply Hd, Y].
    apply Qmult_integral in Y. destruct Y; apply Hp; assumption. }
  repeat split; try (field; repeat split; assumption); try ring.
Qed.
Print Assumptions C23_merge_parallel_line_equiv.

(* ward / xward / ext_grid replacements (C23/Repl.v)
   bus_row lk bk n r = the columns PD, QD, GS and the q-sum behind BS of ppc bus row r as _calc_pq_elements_and_add_on_ppc and
   _calc_shunts_and_add_on_ppc fill them from the load / shunt / ward / xward tables of n (lk = bus lookup, bk = BASE_KV per
   row); =r= is == on the four columns; pu_eq compares Sbus = -(PD + jQD)/sn_mva and Ysh = (GS + jBS)/sn_mva.
   base_ok lk bk n b: BASE_KV of the ppc row of bus b is the vn_kv of b (fused buses have one rated voltage) and not 0. *)
Module Repl.
Import C23.Repl C23.ReplProofs.
Open Scope Q_scope.

(* replace_ward_by_internal_elements: for EVERY net, selection of distinct ward indices, lookup and ppc row: the load(ps, qs) and
   shunt(pz, qz, vn_kv of the bus, step 1) created per ward put exactly the ward's P, Q and shunt admittance on the row *)
Theorem C23_ward_replacement_bus_rows : forall lk bk n sel m r,
  replace_wards n sel = Ok m -> NoDup sel -> NoDup (map w_id (wards n)) ->
  (forall w, In w (wards n) -> base_ok lk bk n (w_bus w)) ->
  bus_row lk bk m r =r= bus_row lk bk n r /\ pu_eq (sn m) (bus_row lk bk m r) (sn n) (bus_row lk bk n r).
Proof.
  intros lk bk n sel m r R NS ND G. pose proof (replace_wards_row lk bk n sel m r R NS ND G) as E.
  split; [exact E|]. rewrite (replace_wards_sn n sel m R). apply row_pu, E.
Qed.
Print Assumptions C23_ward_replacement_bus_rows.
Example C23_ward_replacement_nonvacuous : exists m,
  replace_wards w_rnet [4%nat] = Ok m /\ NoDup [4%nat] /\ NoDup (map w_id (wards w_rnet)) /\
  (forall w, In w (wards w_rnet) -> base_ok (fun x => x) (fun _ => 20) w_rnet (w_bus w)) /\
  ~ pd (bus_row (fun x => x) (fun _ => 20) w_rnet 3) == 0 /\ List.length (loads m) = 2%nat /\ List.length (wards m) = 1%nat.
Proof. exact replace_wards_nonvacuous. Qed.
Print Assumptions C23_ward_replacement_nonvacuous.

(* replace_xward_by_internal_elements (the loop creates bus, load, shunt, gen, impedance per xward): rows of every ppc bus *)
Theorem C23_xward_replacement_bus_rows : forall lk bk n sel m r,
  replace_xwards n sel = Ok m -> NoDup sel -> NoDup (map x_id (xwards n)) ->
  (forall x, In x (xwards n) -> base_ok lk bk n (x_bus x) /\ vn_of n (x_bus x) <> None) ->
  (forall l, In l (loads n) -> vn_of n (l_bus l) <> None) -> (forall s, In s (shunts n) -> vn_of n (s_bus s) <> None) ->
  (forall w, In w (wards n) -> vn_of n (w_bus w) <> None) ->
  bus_row lk bk m r =r= bus_row lk bk n r /\ pu_eq (sn m) (bus_row lk bk m r) (sn n) (bus_row lk bk n r).
Proof.
  intros lk bk n sel m r R NS ND G GL GS GW. pose proof (replace_xwards_row false lk bk n sel m r R NS ND G GL GS GW) as E.
  split; [exact E|]. rewrite (replace_xwards_sn false n sel m R). apply row_pu, E.
Qed.
Print Assumptions C23_xward_replacement_bus_rows.
Example C23_xward_replacement_nonvacuous : exists m,
  replace_xwards w_rnet [2%nat] = Ok m /\ NoDup [2%nat] /\ NoDup (map x_id (xwards w_rnet)) /\
  (forall x, In x (xwards w_rnet) -> base_ok (fun x => x) (fun _ => 20) w_rnet (x_bus x) /\ vn_of w_rnet (x_bus x) <> None) /\
  List.length (buses m) = 3%nat /\ List.length (imps m) = 1%nat /\ xwards m = [].
Proof. exact replace_xwards_nonvacuous. Qed.
Print Assumptions C23_xward_replacement_nonvacuous.
(* the voltage source behind r + jx: the ppc branch of the created impedance (C02.Model.impedance_branch, per unit on its own
   sn_mva = net.sn_mva) and the PV set point of the created gen equal the xward's internal branch (C02.Model.xward_branch,
   r_ohm / (BASE_KV^2 / sn_mva)) and set point (VG = vm_pu, PG = 0) — for every xward, rated voltage and net.sn_mva *)
Theorem C23_xward_voltage_source_equiv : forall snet basekv vn nb x,
  basekv == vn -> ~ vn == 0 -> ~ snet == 0 ->
  vsrc_eq (vsrc_of_internal snet (xward_imped false snet vn x) (xward_gen nb x)) (vsrc_of_xward snet basekv true x).
Proof. intros snet basekv vn nb x. apply xward_vsrc_gen. discriminate. Qed.
Print Assumptions C23_xward_voltage_source_equiv.
(* the rule before "fix: replace_xward_by_internal_elements converts the xward impedance to per unit with net.sn_mva" *)
Theorem C23_xward_voltage_source_old_partial : forall snet basekv vn nb x,
  snet == 1 -> basekv == vn -> ~ vn == 0 ->
  vsrc_eq (vsrc_of_internal snet (xward_imped true snet vn x) (xward_gen nb x)) (vsrc_of_xward snet basekv true x).
Proof.
  intros snet basekv vn nb x S1 B V. apply xward_vsrc_gen; auto. rewrite S1. discriminate.
Qed.
Print Assumptions C23_xward_voltage_source_old_partial.
Theorem C23_xward_voltage_source_old_refuted : exists snet vn nb x, ~ vn == 0 /\ ~ snet == 0 /\
  ~ z_r (vsrc_of_internal snet (xward_imped true snet vn x) (xward_gen nb x)) == z_r (vsrc_of_xward snet vn true x).
Proof. exact xward_vsrc_old_refuted. Qed.
Print Assumptions C23_xward_voltage_source_old_refuted.

(* replace_ext_grid_by_gen(slack=True): what the element writes into the ppc row of its bus (reference flag, VM, VA).
   Full statement (all ext_grids) is false: a gen has no angle set point; it holds under G23e (va_degree = 0 or
   calculate_voltage_angles = False); reference flag and VM survive always; slack=False (the default) loses the reference *)
Theorem C23_ext_grid_by_gen_partial : forall cva bis p e, G23e cva e = true ->
  vref_eq (vref_of_gen bis (egrid_gen true p e)) (vref_of_egrid cva bis e).
Proof.
  intros cva bis p e. unfold G23e, vref_eq, vref_of_gen, vref_of_egrid, egrid_gen. cbn. intros G. destruct (e_is e && bis); [|exact I].
  cbn. repeat split; try reflexivity. destruct cva; [|reflexivity]. cbn in G. apply qeqb_eq in G. symmetry. exact G.
Qed.
Print Assumptions C23_ext_grid_by_gen_partial.
Theorem C23_ext_grid_by_gen_refuted : exists cva bis p e, ~ vref_eq (vref_of_gen bis (egrid_gen true p e)) (vref_of_egrid cva bis e).
Proof. exists true, true, None, w_egrid. cbn. intros (_ & _ & _ & H). vm_compute in H. discriminate. Qed.
Print Assumptions C23_ext_grid_by_gen_refuted.
Theorem C23_ext_grid_by_gen_vm_and_reference : forall cva bis p e,
  match vref_of_gen bis (egrid_gen true p e), vref_of_egrid cva bis e with
  | Some u, Some v => is_ref u = is_ref v /\ vm_set u == vm_set v
  | None, None => True | _, _ => False end.
Proof.
  intros cva bis p e. unfold vref_of_gen, vref_of_egrid, egrid_gen. cbn. destruct (e_is e && bis); cbn; [split; reflexivity|exact I].
Qed.
Print Assumptions C23_ext_grid_by_gen_vm_and_reference.
Theorem C23_ext_grid_by_gen_noslack_refuted : exists cva bis p e, G23e cva e = true /\
  ~ vref_eq (vref_of_gen bis (egrid_gen false p e)) (vref_of_egrid cva bis e).
Proof. exists false, true, None, w_egrid. split; [reflexivity|]. cbn. intros (H & _). discriminate. Qed.
Print Assumptions C23_ext_grid_by_gen_noslack_refuted.
End Repl.

(* fuse_buses (C23/Fuse.v on C07.Model.net)
   rep n = the bus -> root bus lookup of the power flow build (C07.Model, proved in C07/UnionFind.v to be the partition by
   fusing switches); sb b1 b2s = the rerouting b2 -> b1.  If every fused bus already shares the ppc row of b1, the partition of
   the buses into ppc rows is the same before and after fuse_buses — in particular for b2 behind a closed bus-bus switch
   without impedance (G23f); across an open switch it is not. *)
Module Fuse.
Import Base.C07Graph C07.Model C07.UnionFind C23.Fuse C23.FuseProofs.
Theorem C23_fuse_buses_partition : forall n b1 b2s,
  (forall x, in_b2 b1 b2s x = true -> rep n x = rep n b1) ->
  forall a b, rep (fuse_buses n b1 b2s) (sb b1 b2s a) = rep (fuse_buses n b1 b2s) (sb b1 b2s b) <-> rep n a = rep n b.
Proof. intros n b1 b2s H. apply fuse_partition. intros x I. apply rep_iff_fused. symmetry. exact (H x I). Qed.
Print Assumptions C23_fuse_buses_partition.
Theorem C23_fuse_closed_switch_partition : forall n b1 b2, G23f n b1 b2 = true ->
  forall a b, rep (fuse_buses n b1 [b2]) (sb b1 [b2] a) = rep (fuse_buses n b1 [b2]) (sb b1 [b2] b) <-> rep n a = rep n b.
Proof. intros n b1 b2 G. apply fuse_partition, G23f_path, G. Qed.
Print Assumptions C23_fuse_closed_switch_partition.
Theorem C23_fuse_surviving_buses_partition : forall n b1 b2s,
  (forall x, in_b2 b1 b2s x = true -> rep n x = rep n b1) ->
  forall a b, in_b2 b1 b2s a = false -> in_b2 b1 b2s b = false ->
  (rep (fuse_buses n b1 b2s) a = rep (fuse_buses n b1 b2s) b <-> rep n a = rep n b).
Proof. intros n b1 b2s H. apply fuse_partition_surviving. intros x I. apply rep_iff_fused. symmetry. exact (H x I). Qed.
Print Assumptions C23_fuse_surviving_buses_partition.
Theorem C23_fuse_open_switch_refuted : exists n b1 b2 a b,
  ~ (rep (fuse_buses n b1 [b2]) (sb b1 [b2] a) = rep (fuse_buses n b1 [b2]) (sb b1 [b2] b) <-> rep n a = rep n b).
Proof. exists w_net, 1%nat, 2%nat, 1%nat, 2%nat. vm_compute. intros [H _]. specialize (H eq_refl). discriminate. Qed.
Print Assumptions C23_fuse_open_switch_refuted.
Example C23_fuse_closed_switch_nonvacuous :
  G23f w_net_closed 1 2 = true /\ rep w_net_closed 1 = rep w_net_closed 2 /\ rep w_net_closed 0 <> rep w_net_closed 1.
Proof. vm_compute. repeat split; congruence. Qed.
Print Assumptions C23_fuse_closed_switch_nonvacuous.
End Fuse.
