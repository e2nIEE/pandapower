(* C27 — property theorems (lemmas in C27/Proofs.v, C27/Refine.v).
   rows_of s g et = the net.group rows of group g and element type et (the impl requires at most one);
   gmem = element_index of the row; tab s et = the element table. *)
From Coq Require Import ZArith List Bool String.
From PPV Require Import Base.Lists C27.Model C27.Proofs C27.Refine.
Import ListNotations.
Open Scope Z_scope.

(* attach onto the existing index based row (reference_column None or NaN): members become the set union, every other
   (group, type) is unaffected, element tables untouched, and every attached element exists *)
Theorem C27_attach_is_union : forall s g et elm r0 s',
  rows_of s g et = [r0] -> rc_null (grc r0) = true -> attach s g et elm = Ok s' ->
  (exists r1, rows_of s' g et = [r1] /\ grc r1 = grc r0 /\ forall x, In x (gmem r1) <-> In x (gmem r0) \/ In x elm) /\
  (forall g' et', (g', et') <> (g, et) -> rows_of s' g' et' = rows_of s g' et') /\ tab s' = tab s /\
  (forall x, In x elm -> In x (ids s et)).
Proof.
  intros s g et elm r0 s' Hrow Hrc. unfold attach, attach_gen. destruct (zin g (map gid (grp s))); simpl; [|discriminate].
  rewrite Hrow, Hrc. destruct (exist_ok s et elm false) eqn:Ex; simpl; [|discriminate].
  intros E. inversion E; subst s'; clear E.
  assert (Hex : forall x, In x elm -> In x (ids s et)).
  { intros x Hx. unfold exist_ok in Ex. rewrite forallb_forall in Ex. apply zin_true, Ex, Hx. }
  set (f := fun r => if (gid r =? g) && Nat.eqb (gty r) et
                     then {| gid := gid r; gty := gty r; gmem := gmem r ++ zdiff elm (gmem r); grc := grc r |} else r).
  assert (Hsel : forall g' et' r, sel g' et' (f r) = sel g' et' r).
  { intros g' et' r. unfold f, sel. destruct ((gid r =? g) && Nat.eqb (gty r) et); reflexivity. }
  split; [|split; [|split; [reflexivity | exact Hex]]].
  - unfold rows_of in *. simpl. fold (sel g et) in *. fold f. rewrite filter_map_comm, (filter_ext _ _ (Hsel g et)). rewrite Hrow. simpl.
    assert (S0 : sel g et r0 = true).
    { assert (In r0 (filter (sel g et) (grp s))) by (rewrite Hrow; left; reflexivity). apply filter_In in H. apply H. }
    unfold f. unfold sel in S0. rewrite S0. eexists. split; [reflexivity|]. simpl. split; [reflexivity|].
    intros x. rewrite in_app_iff, in_zdiff. destruct (in_dec Z.eq_dec x (gmem r0)); tauto.
  - (* the rows of another (group, type) are not rewritten *)
    intros g' et' Hne. unfold rows_of. simpl. fold (sel g' et'). fold f. rewrite filter_map_comm, (filter_ext _ _ (Hsel g' et')).
    rewrite <- (map_id (filter (sel g' et') (grp s))) at 2. apply map_ext_in. intros r Hr. apply filter_In in Hr.
    unfold f. destruct ((gid r =? g) && Nat.eqb (gty r) et) eqn:E2; [|reflexivity].
    rewrite (sel_other g et g' et' r Hne E2) in Hr. destruct Hr; discriminate.
Qed.
Print Assumptions C27_attach_is_union.

(* attach_old tests the reference_column with != None, so a NaN there counts as a column: the row is corrupted *)
Theorem C27_attach_old_nan_row_refuted :
  exists s g et elm s', attach_old s g et elm = Ok s' /\ members_of s g et = Ok [7] /\ members_of s' g et = Err "ValueError".
Proof. exists s_w1_, 1, 0%nat, [2]. eexists. split; [vm_compute; reflexivity | split; vm_compute; reflexivity]. Qed.
Print Assumptions C27_attach_old_nan_row_refuted.
Example C27_attach_nan_row_now_union : exists s', attach s_w1_ 1 0%nat [2] = Ok s' /\ members_of s' 1 0%nat = Ok [7; 2].
Proof. eexists. split; vm_compute; reflexivity. Qed.
Print Assumptions C27_attach_nan_row_now_union.

(* attach_unchecked, which does not check the existence of elements appended to an existing group row, accepts a
   non-existing index as member; attach raises like the new-row path *)
Theorem C27_attach_unchecked_refuted :
  exists s g et elm s', attach_unchecked s g et elm = Ok s' /\ members_of s' g et = Ok [4; 88] /\ ~ In 88 (ids s' et) /\
                        attach s g et elm = Err "UserWarning".
Proof.
  exists {| grp := [{| gid := 0; gty := 0%nat; gmem := [4]; grc := RNone |}]; tab := mk_tab [[(4, 0); (7, 1)]]; lsw := [] |}, 0, 0%nat, [88].
  eexists. split; [vm_compute; reflexivity|]. split; [vm_compute; reflexivity|]. split; [|vm_compute; reflexivity].
  vm_compute. intros [H|[H|[]]]; discriminate.
Qed.
Print Assumptions C27_attach_unchecked_refuted.

Theorem C27_attach_new_row : forall s g et elm s',
  rows_of s g et = [] -> attach s g et elm = Ok s' ->
  exists r1, rows_of s' g et = [r1] /\ gmem r1 = elm /\ rc_null (grc r1) = true /\ forall x, In x elm -> In x (ids s et).
Proof.
  intros s g et elm s' Hrow. unfold attach, attach_gen. destruct (zin g (map gid (grp s))); simpl; [|discriminate]. rewrite Hrow.
  destruct (exist_ok s et elm false) eqn:Ex; [|discriminate]. intros E. inversion E; subst s'; clear E.
  unfold rows_of in *. simpl. unfold add_rows. rewrite filter_app. simpl.
  (* the rows already there keep group and type when the null kinds of reference_column are made uniform *)
  assert (H0 : filter (fun r => (gid r =? g) && Nat.eqb (gty r) et) (uniform (grp s)) = []).
  { unfold uniform. destruct (grp s) as [|r0 t] eqn:Eg; [reflexivity|].
    destruct (forallb (fun r => rc_null (grc r)) (r0 :: t)); [|exact Hrow].
    rewrite filter_map_comm. exact (f_equal (map _) Hrow). }
  rewrite H0. simpl. rewrite Z.eqb_refl, Nat.eqb_refl. simpl. eexists. split; [reflexivity|]. simpl. split; [reflexivity|]. split.
  - destruct (grp s); reflexivity.
  - intros x Hx. unfold exist_ok in Ex. rewrite forallb_forall in Ex. apply zin_true, Ex, Hx.
Qed.
Print Assumptions C27_attach_new_row.

(* detach (also the group part of every drop function): each resulting row stems from one old row; rows of other element
   types / unselected groups are unchanged; a selected index based row keeps exactly members \ ids and is never left
   empty *)
Theorem C27_detach_is_difference : forall s et idl sl r',
  In r' (grp (detach s et idl sl)) ->
  exists r, In r (grp s) /\ gid r' = gid r /\ gty r' = gty r /\ grc r' = grc r /\
    (targeted et sl r = false -> r' = r) /\
    (targeted et sl r = true -> gmem r' <> [] /\
       (rc_null (grc r) = true -> forall x, In x (gmem r') <-> In x (gmem r) /\ ~ In x idl)).
Proof.
  intros s et idl sl r' H. apply detach_in in H. destruct H as [r [Hr H]]. exists r. split; [exact Hr|].
  destruct (targeted et sl r).
  - destruct H as [Hne ->]. simpl. do 3 (split; [reflexivity|]). split; [discriminate|]. intros _. split; [exact Hne|].
    intros N x. unfold detach_mem. rewrite N. apply in_zdiff.
  - subst r'. repeat split; auto; discriminate.
Qed.
Print Assumptions C27_detach_is_difference.
(* ... and nothing else disappears: untouched rows stay, a selected row with a remaining member stays *)
Theorem C27_detach_keeps : forall s et idl sl r,
  In r (grp s) ->
  (targeted et sl r = false -> In r (grp (detach s et idl sl))) /\
  (targeted et sl r = true -> rc_null (grc r) = true -> (exists x, In x (gmem r) /\ ~ In x idl) ->
     exists r', In r' (grp (detach s et idl sl)) /\ gid r' = gid r /\ gty r' = gty r).
Proof.
  intros s et idl sl r Hr. split; intros T.
  - apply detach_in. exists r. rewrite T. auto.
  - intros N [x Hx]. exists (with_mem r (detach_mem s et idl r)). split; [|split; reflexivity].
    apply detach_in. exists r. rewrite T. split; [exact Hr|]. split; [|reflexivity].
    unfold detach_mem. rewrite N. apply in_zdiff in Hx. intros E. rewrite E in Hx. exact Hx.
Qed.
Print Assumptions C27_detach_keeps.

(* reference-column groups: with duplicated reference values detaching one element removes the others too *)
Theorem C27_detach_reference_column_refuted :
  exists s et idl, members_of s 0 et = Ok [4; 2; 7] /\ members_of (detach s et idl None) 0 et = Ok [7].
Proof. exists s_w2, 0%nat, [4]. split; vm_compute; reflexivity. Qed.
Print Assumptions C27_detach_reference_column_refuted.

(* pd.Index.difference as used by attach/detach is the set difference *)
Theorem C27_index_difference_is_set_difference : forall x l d, In x (zdiff l d) <-> In x l /\ ~ In x d.
Proof. exact in_zdiff. Qed.
Print Assumptions C27_index_difference_is_set_difference.

(* refinement to the abstract set model:
   [member s g et x] (C27/Refine.v): x is a member of group g for element type et — listed in the index based row, or an
   element of the table carrying a listed reference value for a reference-column row.  G27_refcols s: every
   reference-column row sits on a table whose reference values (and indices) are unique (otherwise
   C27_detach_reference_column_refuted). *)

(* group_element_index reports exactly the abstract member set *)
Theorem C27_reported_members_are_the_set : forall s g et r l,
  rows_of s g et = [r] -> members_of s g et = Ok l -> forall x, In x l <-> member s g et x.
Proof.
  intros s g et r l Hrow Hm x. unfold members_of in Hm. rewrite Hrow in Hm.
  assert (Hr : forall r', In r' (grp s) /\ gid r' = g /\ gty r' = et <-> r' = r).
  { intros r'. assert (E : In r' (rows_of s g et) <-> In r' (grp s) /\ gid r' = g /\ gty r' = et).
    { unfold rows_of. rewrite filter_In, andb_true_iff, Z.eqb_eq, Nat.eqb_eq. tauto. }
    rewrite <- E, Hrow. simpl. intuition. }
  assert (M : member s g et x <-> row_mem (tab s et) r x).
  { unfold member. split.
    - intros [r' (H1 & H2 & H3 & H4)]. assert (r' = r) by (apply Hr; tauto). subst r'. exact H4.
    - intros H. exists r. destruct (proj2 (Hr r) eq_refl) as (H1 & H2 & H3). tauto. }
  rewrite M. unfold row_mem. destruct (rc_null (grc r)).
  - destruct (zin garbage (gmem r)); [discriminate|]. inversion Hm; subst. tauto.
  - inversion Hm; subst l. rewrite in_map_iff. split.
    + intros [[i nm] [H1 H2]]. simpl in H1. subst i. apply filter_In in H2. destruct H2 as [H2 H3]. simpl in H3.
      exists nm. split; [exact H2 | apply zin_true, H3].
    + intros [nm [H1 H2]]. exists (x, nm). split; [reflexivity|]. apply filter_In. split; [exact H1 | apply zin_true, H2].
Qed.
Print Assumptions C27_reported_members_are_the_set.

(* detach_from_groups = set difference on the selected groups of that element type, for index based and reference-column
   rows alike; every other (group, type) keeps its member set *)
Theorem C27_detach_refines_set_model : forall s et idl sl g et' x,
  G27_refcols s = true ->
  (member (detach s et idl sl) g et' x <-> member s g et' x /\ ~ (et' = et /\ selected sl g /\ In x idl)).
Proof. intros s et idl sl g et' x G. apply detach_member, G27_refcols_uniq_at, G. Qed.
Print Assumptions C27_detach_refines_set_model.

(* drop_elements_simple: every group loses exactly the dropped elements, the table loses exactly their rows *)
Theorem C27_drop_elements_refines_set_model : forall s et idl s',
  G27_refcols s = true -> drop_simple s et idl = Ok s' ->
  (forall g et' x, member s' g et' x <-> member s g et' x /\ ~ (et' = et /\ In x idl)) /\
  (forall p, In p (tab s' et) <-> In p (tab s et) /\ ~ In (fst p) idl) /\
  (forall e, e <> et -> tab s' e = tab s e) /\ lsw s' = lsw s.
Proof. intros s et idl s' G. apply drop_simple_member, G27_refcols_uniq_at, G. Qed.
Print Assumptions C27_drop_elements_refines_set_model.

(* the composite drop_lines step (line switches detached as switches and dropped, then the lines): every group loses
   exactly the dropped lines as line members and exactly the line switches at them as switch members; the line, switch and
   line-switch tables lose exactly these rows; rows of other element types are identical; no member-less row remains
   (drop_lines_spec spells this out) *)
Theorem C27_drop_lines_refines_set_model : forall s idl s',
  G27_refcols s = true -> drop_lines s idl = Ok s' ->
  (forall g et x, member s' g et x <->
       member s g et x /\ ~ (et = ET_LINE /\ In x idl) /\ ~ (et = ET_SWITCH /\ In x (line_switches s idl))) /\
  (forall p, In p (tab s' ET_LINE) <-> In p (tab s ET_LINE) /\ ~ In (fst p) idl) /\
  (forall p, In p (tab s' ET_SWITCH) <-> In p (tab s ET_SWITCH) /\ ~ In (fst p) (line_switches s idl)) /\
  (forall p, In p (lsw s') <-> In p (lsw s) /\ ~ In (fst p) (line_switches s idl)) /\
  (forall e, e <> ET_LINE -> e <> ET_SWITCH -> tab s' e = tab s e) /\
  (forall r, gty r <> ET_LINE -> gty r <> ET_SWITCH -> (In r (grp s') <-> In r (grp s))) /\
  ((forall r, In r (grp s) -> gmem r <> []) -> forall r, In r (grp s') -> gmem r <> []).
Proof. intros s idl s' G. apply drop_lines_member, G27_refcols_uniq, G. Qed.
Print Assumptions C27_drop_lines_refines_set_model.
Example C27_drop_lines_nonvacuous :
  exists s', drop_lines s_ex [5] = Ok s' /\ line_switches s_ex [5] = [5; 9] /\
             map (fun r => (gid r, gty r, gmem r)) (grp s') = [(0, ET_LINE, [3]); (0, ET_SWITCH, [20]); (1, 0%nat, [1])] /\
             members_of s' 1 0%nat = Ok [2].
Proof. eexists. split; [vm_compute; reflexivity|]. vm_compute. repeat split. Qed.
Print Assumptions C27_drop_lines_nonvacuous.
Example C27_refcols_guard_nonvacuous : G27_refcols s_ex = true /\ G27_refcols s_w2 = false.
Proof. split; vm_compute; reflexivity. Qed.
Print Assumptions C27_refcols_guard_nonvacuous.

(* reindex_elements commutes with the set model (no guard): the member set of every group of the reindexed type is the
   image of the old one under the renaming rho that is also applied to the table index; rho is the lookup on every existing
   row; other element types keep their member sets and tables.  Holds for reference-column rows too (their listed
   reference values are untouched, the elements carrying them move). *)
Theorem C27_reindex_commutes_with_set_model : forall s et lk s',
  reindex s et lk = Ok s' ->
  (forall g et' x', member s' g et' x' <-> exists x, member s g et' x /\ x' = if Nat.eqb et' et then rho s et lk x else x) /\
  tab s' et = map (fun p => (rho s et lk (fst p), snd p)) (tab s et) /\
  (forall e, e <> et -> tab s' e = tab s e) /\
  (forall x, In x (ids s et) -> rho s et lk x = remap lk x).
Proof. exact reindex_member. Qed.
Print Assumptions C27_reindex_commutes_with_set_model.
Example C27_reindex_nonvacuous :
  exists s', reindex s_ex ET_SWITCH [(9, 30); (5, 31)] = Ok s' /\ members_of s' 0 ET_SWITCH = Ok [31; 30; 20] /\
             map (rho s_ex ET_SWITCH [(9, 30); (5, 31)]) [5; 9; 20; 77] = [31; 30; 20; 77].
Proof. eexists. split; [vm_compute; reflexivity|]. vm_compute. repeat split. Qed.
Print Assumptions C27_reindex_nonvacuous.
