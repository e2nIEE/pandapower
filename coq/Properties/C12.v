(* C12 — time-series results equal a fresh power flow at every step (lemmas in C12/Proofs.v) *)
From Coq Require Import List Bool String.
From PPV Require Import C12.Model C12.Proofs.
Import ListNotations.
Open Scope string_scope.

(* histories: for any set of controllers each of which is individually sound (what it writes is rebuilt under its own
   recycle flags, or it switches recycling off), any number of time steps, with or without stored internals at the first
   step: in every time step all cached ppc parts (bus PQ, gen, transformer / line / other branch rows, shunts, topology,
   Ybus, Sbus) are fresh when the solver starts, i.e. the step solves the same system as a fresh power flow *)
Theorem C12_step_equals_fresh : forall n cs stored fr,
  Forall (fun c => sound c = true) cs -> fresh fr ->
  Forall (fun fr' => solve_is_fresh fr' = true) (run_steps n cs stored fr).
Proof. exact step_equals_fresh. Qed.
Print Assumptions C12_step_equals_fresh.

(* over the finite domain (13 element tables x 81 columns = 1053 pairs, [domain]): every ConstControl on net[e][v],
   recyclable or not, is sound (a special case of C12_recycle_sound_any below) *)
Theorem C12_recycle_sound : forall u e v, In (e, v) domain -> sound (CConst u e v) = true.
Proof. intros u e v _. apply const_sound_any. Qed.
Print Assumptions C12_recycle_sound.

(* the finite domain is structurally complete: every (element, variable) from which the dependency table computes any cached
   part lies in the domain (the table itself is compared with a mechanical derivation from the code on every run) *)
Theorem C12_deps_in_domain : forall e v, deps e v <> [] -> In (e, v) domain.
Proof. intros e v H. exact (proj1 (deps_pair_ok e v H)). Qed.
Print Assumptions C12_deps_in_domain.

(* without the domain hypothesis: a ConstControl on ANY (element, variable) string pair is sound (one evaluation over the
   pairs the rows of the dependency table name; nothing cached depends on any other pair), and every controller set
   the model can express, over any number of time steps, solves every step with fresh parts *)
Theorem C12_recycle_sound_any : forall u e v, sound (CConst u e v) = true.
Proof. exact const_sound_any. Qed.
Print Assumptions C12_recycle_sound_any.

Theorem C12_time_series_equals_fresh_any : forall n cs stored fr,
  fresh fr -> Forall (fun fr' => solve_is_fresh fr' = true) (run_steps n cs stored fr).
Proof.
  intros n cs stored fr Hf. apply step_equals_fresh; [|exact Hf].
  apply Forall_forall. intros c _. apply ctrl_sound.
Qed.
Print Assumptions C12_time_series_equals_fresh_any.

Theorem C12_tap_controller_sound : forall u e, sound (CTap u e) = true.
Proof. exact tap_sound. Qed.
Print Assumptions C12_tap_controller_sound.

(* any controller set over the domain (ConstControl on any pair of it, tap controllers, other classes), any number of
   time steps: every step solves with fresh parts (the instance of C12_time_series_equals_fresh_any above) *)
Theorem C12_time_series_equals_fresh : forall n cs stored fr,
  Forall in_domain cs -> fresh fr ->
  Forall (fun fr' => solve_is_fresh fr' = true) (run_steps n cs stored fr).
Proof. intros n cs stored fr _. apply C12_time_series_equals_fresh_any. Qed.
Print Assumptions C12_time_series_equals_fresh.

(* histories with diverging steps (continue_on_divergence=True): for every sequence of diverging / solvable time steps and
   every set of sound controllers, every solvable step solves with fresh parts, every diverging step is reported as failed
   and no other step is *)
Theorem C12_divergence_history : forall divs cs stored fr,
  Forall (fun c => sound c = true) cs -> fresh fr ->
  Forall2 step_ok divs (run_steps_div divs cs stored fr).
Proof.
  induction divs as [|d ds IH]; intros cs stored fr Hs Hf; cbn; [constructor|].
  destruct d.
  - constructor; [reflexivity | apply IH; assumption].
  - pose proof (time_step_fresh cs stored fr Hs Hf) as H1.
    constructor; [split; [reflexivity | apply solve_is_fresh_iff; exact H1] | apply IH; assumption].
Qed.
Print Assumptions C12_divergence_history.

(* run_steps_div_old (run_timeseries without the two divergence fixes) satisfies this only under G12c (no controller with
   an initial run, or no recycling) and without batch reading; regression witnesses: a tap controller + a recyclable ConstControl (the steps after a diverging one
   were reported as failed), and only_v_results (a diverging recycled step was recorded silently) *)
Theorem C12_divergence_history_old_partial : forall divs cs stored fr,
  G12c cs = true -> Forall (fun c => sound c = true) cs -> fresh fr ->
  Forall2 step_ok divs (run_steps_div_old divs cs false stored false fr).
Proof.
  intros divs cs stored fr HG. rewrite (run_steps_div_old_G12c divs cs stored fr HG). apply C12_divergence_history.
Qed.
Print Assumptions C12_divergence_history_old_partial.

Theorem C12_divergence_history_old_refuted :
  exists cs divs, Forall (fun c => sound c = true) cs /\
    ~ Forall2 step_ok divs (run_steps_div_old divs cs false false false all_fresh).
Proof.
  exists [CConst false "load" "p_mw"; CTap false "trafo"], [false; true; false].
  split; [repeat constructor|].
  intros H. inversion H as [|? ? ? ? _ H2]. subst. inversion H2 as [|? ? ? ? _ H3]. subst.
  inversion H3 as [|? ? ? ? H4 _]. subst. cbn in H4. discriminate.
Qed.
Print Assumptions C12_divergence_history_old_refuted.

Theorem C12_divergence_silent_old_refuted :
  exists cs divs, G12c cs = true /\ Forall (fun c => sound c = true) cs /\
    ~ Forall2 step_ok divs (run_steps_div_old divs cs true false false all_fresh).
Proof.
  exists [CConst false "load" "p_mw"], [false; true].
  split; [reflexivity|]. split; [repeat constructor|].
  intros H. inversion H as [|? ? ? ? _ H2]. subst. inversion H2 as [|? ? ? ? H3 _]. subst. exact H3.
Qed.
Print Assumptions C12_divergence_silent_old_refuted.

(* set_recycle_const_old (ConstControl without "fix: ConstControl only claims the recycle flag trafo for transformer
   parameters") is sound exactly on G12a and unsound at (line, length_km): regression witness *)
Theorem C12_recycle_old_partial : forall e v,
  In (e, v) domain -> (sound_old (CConst false e v) = true <-> G12a e v = true).
Proof. intros e v _. apply const_sound_old_iff_any. Qed.
Print Assumptions C12_recycle_old_partial.

Theorem C12_recycle_old_refuted : sound_old (CConst false "line" "length_km") = false /\ In ("line", "length_km") domain.
Proof. split; [reflexivity | apply pair_in_domain_In; reflexivity]. Qed.
Print Assumptions C12_recycle_old_refuted.

(* OutputWriter, request lists of any length, any controller flags: run_timeseries records every requested variable
   instead of failing on it *)
Theorem C12_batch_reader_total : forall dc ft l, records_all dc ft l.
Proof.
  intros dc ft l. unfold records_all, writer. destruct (eligible dc ft l) as [b|] eqn:E; [|exact I].
  rewrite (eligible_batch_ok _ _ _ _ E). destruct b; exact I.
Qed.
Print Assumptions C12_batch_reader_total.

(* writer_old (OutputWriter without the two writer fixes): total exactly on G12b, refuted by [(res_line,p_from_mw)] (KeyError) and by two variables
   of one table (ValueError) *)
Theorem C12_batch_reader_old_partial : forall dc ft l b,
  eligible_old dc ft l = Some b -> (records_all_old dc ft l <-> G12b b = true).
Proof.
  intros dc ft l b E. unfold records_all_old, writer_old. rewrite E.
  pose proof (batch_iff b [] (eligible_old_tables _ _ _ _ E)) as H. rewrite disjointb_nil in H.
  assert (H' : batch_old b [] = None <-> G12b b = true) by (unfold G12b; rewrite andb_true_iff; tauto).
  rewrite <- H'. destruct b as [|tv b']; [now cbn|]. now destruct (batch_old (tv :: b') []).
Qed.
Print Assumptions C12_batch_reader_old_partial.

Theorem C12_batch_reader_old_refuted :
  exists l, eligible_old false false l <> None /\ ~ records_all_old false false l.
Proof.
  exists [{| l_table := "res_line"; l_var := "p_from_mw"; l_long := false |}]. split; [discriminate|]. intros H. exact H.
Qed.
Print Assumptions C12_batch_reader_old_refuted.

Theorem C12_batch_reader_old_same_table_refuted :
  exists l, eligible_old false false l <> None /\
            (forall o, In o l -> mems (l_var o) (keys (l_table o)) = true) /\ ~ records_all_old false false l.
Proof.
  exists [{| l_table := "res_bus"; l_var := "vm_pu"; l_long := false |};
          {| l_table := "res_bus"; l_var := "va_degree"; l_long := false |}].
  split; [discriminate|]. split.
  - intros o [<-|[<-|[]]]; reflexivity.
  - intros H. exact H.
Qed.
Print Assumptions C12_batch_reader_old_same_table_refuted.

(* non-vacuity: a non-trivial controller set that really recycles, and an eligible list that is read in batch *)
Example C12_nonvacuous :
  Forall in_domain [CConst false "load" "p_mw"; CConst false "gen" "vm_pu"; CTap false "trafo"] /\
  recyclability [CConst false "load" "p_mw"; CConst false "gen" "vm_pu"; CTap false "trafo"] <> None /\
  writer false false [{| l_table := "res_bus"; l_var := "vm_pu"; l_long := false |};
                      {| l_table := "res_bus"; l_var := "va_degree"; l_long := false |}] = WBatchOk.
Proof.
  split; [|split; [discriminate | reflexivity]].
  apply Forall_cons; [apply pair_in_domain_In; reflexivity|].
  apply Forall_cons; [apply pair_in_domain_In; reflexivity|].
  apply Forall_cons; [exact I | apply Forall_nil].
Qed.
