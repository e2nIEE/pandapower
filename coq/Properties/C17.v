(* C17 — the OPF objective is the user's cost functions (lemmas in C17/*.v) *)
From Coq Require Import ZArith QArith List Bool Lia Lqa.
From PPV Require Import Base.QN C17.Model C17.Proofs C17.KKT C17.Table C17.Pwl C17.Rows.
Import ListNotations.
Open Scope Q_scope.

(* the gencost row written for an active-power poly entry, evaluated by polycost at the generator variable
   res_sign * p of an element whose own result power is p, is the user's polynomial c2 p^2 + c1 p + c0 —
   for every element kind (gen, sgen, ext_grid: res_sign = 1; load, storage, dcline: res_sign = -1) *)
Theorem C17_poly_cost : forall t isq c0 c1 c2 p,
  (isq = false -> c2 == 0) ->
  polycost (row_of (cells_of isq (sign_p t) c2 c1 c0)) (res_sign t * p) == user_poly c0 c1 c2 p.
Proof. exact poly_cost. Qed.
Print Assumptions C17_poly_cost.

(* regression: cells_of_old (all coefficients times the sign) violates the statement, satisfies it only under
   G17old, and deviates by exactly -2 (c2 p^2 + c0) for load / storage / dcline *)
Theorem C17_poly_cost_old_refuted :
  exists t isq c0 c1 c2 p, (isq = false -> c2 == 0) /\
    ~ polycost (row_of (cells_of_old isq (sign_p t) c2 c1 c0)) (res_sign t * p) == user_poly c0 c1 c2 p.
Proof.
  exists Load, true, 5, 0, 1, 3. split; [discriminate|]. vm_compute. discriminate.
Qed.
Print Assumptions C17_poly_cost_old_refuted.
Theorem C17_poly_cost_old_partial : forall t isq c0 c1 c2 p,
  (isq = false -> c2 == 0) -> G17old t c0 c2 = true ->
  polycost (row_of (cells_of_old isq (sign_p t) c2 c1 c0)) (res_sign t * p) == user_poly c0 c1 c2 p.
Proof.
  intros t isq c0 c1 c2 p Hq HG. rewrite sign_p_res_sign, (polycost_signed_old isq _ c0 c1 c2 p (res_sign_sq t) Hq).
  destruct (G17old_cases _ _ _ HG) as [Hn|[H2 H0]].
  - unfold res_sign. rewrite Hn. ring.
  - unfold user_poly. rewrite H2, H0. ring.
Qed.
Print Assumptions C17_poly_cost_old_partial.
Theorem C17_poly_cost_old_deviation : forall t isq c0 c1 c2 p,
  (isq = false -> c2 == 0) -> is_neg_et t = true ->
  polycost (row_of (cells_of_old isq (sign_p t) c2 c1 c0)) (res_sign t * p)
  == user_poly c0 c1 c2 p - 2 * (c2 * p * p + c0).
Proof.
  intros t isq c0 c1 c2 p Hq Hn. rewrite sign_p_res_sign, (polycost_signed_old isq _ c0 c1 c2 p (res_sign_sq t) Hq).
  unfold res_sign. rewrite Hn. ring.
Qed.
Print Assumptions C17_poly_cost_old_deviation.

(* reactive power: likewise for every element kind (the dcline takes the sign -1 for q as res_dcline.q_from_mvar = -Qg) *)
Theorem C17_poly_qcost : forall t isq c0 c1 c2 q,
  (isq = false -> c2 == 0) ->
  polycost (row_of (cells_of isq (sign_q t) c2 c1 c0)) (res_sign t * q) == user_poly c0 c1 c2 q.
Proof.
  intros t isq c0 c1 c2 q Hq. rewrite sign_q_res_sign. exact (polycost_signed isq _ c0 c1 c2 q (res_sign_sq t) Hq).
Qed.
Print Assumptions C17_poly_qcost.
(* regression: sign_q_old (dcline +1) satisfies the statement only without a linear term on a dcline *)
Theorem C17_poly_qcost_old_refuted :
  exists t isq c0 c1 c2 q, (isq = false -> c2 == 0) /\
    ~ polycost (row_of (cells_of isq (sign_q_old t) c2 c1 c0)) (res_sign t * q) == user_poly c0 c1 c2 q.
Proof.
  exists Dcline, false, 0, 1, 0, 1. split; [reflexivity|]. vm_compute. discriminate.
Qed.
Print Assumptions C17_poly_qcost_old_refuted.
Theorem C17_poly_qcost_old_partial : forall t isq c0 c1 c2 q,
  (isq = false -> c2 == 0) -> G17q_old t c1 = true ->
  polycost (row_of (cells_of isq (sign_q_old t) c2 c1 c0)) (res_sign t * q) == user_poly c0 c1 c2 q.
Proof.
  intros t isq c0 c1 c2 q Hq HG.
  (* only the dcline's old sign differs from the result sign *)
  assert (E : t = Dcline \/ sign_q_old t = res_sign t) by (destruct t; auto).
  destruct E as [->|E]; [| rewrite E; exact (polycost_signed isq _ c0 c1 c2 q (res_sign_sq t) Hq)].
  apply qeqb_eq in HG. rewrite polycost_cells by exact Hq. unfold user_poly. cbn [sign_q_old res_sign is_neg_et].
  rewrite HG. ring.
Qed.
Print Assumptions C17_poly_qcost_old_partial.

Example C17_nonvacuous : G17old Load 0 0 = true /\ G17old Gen 5 2 = true /\ G17q_old Storage 1 = true /\ G17q_old Dcline 0 = true.
Proof. repeat split. Qed.

(* whole table: when the mapped row indices are valid and pairwise distinct, after all writes of _fill_gencost_poly
   (no reactive costs) every entry's own row evaluates to the user's polynomial at the element's own power and every
   row without an entry costs 0 — so the objective is the sum of the user's cost functions *)
Theorem C17_poly_rows_spec : forall (isq : bool) (gcs : list (Z * pcost)) (rows : nat),
  (forall gc, In gc gcs -> (0 <= fst gc < Z.of_nat rows)%Z) -> NoDup (map fst gcs) ->
  (isq = false -> forall gc, In gc gcs -> cp2 (snd gc) == 0) ->
  exists m', writes _ fst (fun gc => p_cells isq (snd gc)) gcs (repeat (zero_row isq) rows) = Ok m' /\
    List.length m' = rows /\
    (forall gc p, In gc gcs -> exists r, nth_error m' (Z.to_nat (fst gc)) = Some r /\
        polycost r (res_sign (pc_et (snd gc)) * p) == user_poly (cp0 (snd gc)) (cp1 (snd gc)) (cp2 (snd gc)) p) /\
    (forall j x, (j < rows)%nat -> (forall gc, In gc gcs -> Z.to_nat (fst gc) <> j) ->
        exists r, nth_error m' j = Some r /\ polycost r x == 0).
Proof.
  intros isq gcs rows Hr Hn Hq.
  destruct (writes_spec _ fst (fun gc => p_cells isq (snd gc)) _ (fun gc => cells_of_width isq _ _ _ _) gcs _
              (zero_table isq rows)) as (m' & E & L & _ & Own & Oth).
  { intros a Ha. rewrite repeat_length. exact (Hr a Ha). }
  { exact Hn. }
  exists m'. split; [exact E|]. split; [rewrite L; apply repeat_length|]. split.
  - intros gc p Hin. eexists. split; [exact (Own gc Hin)|]. apply poly_cost. intros Hi. exact (Hq Hi gc Hin).
  - intros j x Hj Hno. rewrite (Oth j Hno). exists (zero_row isq). split; [apply nth_error_repeat; exact Hj | reflexivity].
Qed.
Print Assumptions C17_poly_rows_spec.

Theorem C17_fill_poly_is_writes : forall e m cs isq,
  fill_poly e m cs isq false
  = bind (map_costs e (fun c => (pc_et c, pc_el c)) cs) (fun gcs => writes _ fst (fun gc => p_cells isq (snd gc)) gcs m).
Proof. exact (fun e m cs isq => fill_poly_is_writes e m cs isq false). Qed.
Print Assumptions C17_fill_poly_is_writes.

(* the table WITH reactive cost rows (q_costs = true: 2 ng rows, reactive writes at row g + ng after the active ones):
   every entry owns its active row g and its reactive row g + ng, which evaluate to the user's active / reactive
   polynomial at the element's own p / q; all other rows cost 0 *)
Theorem C17_poly_rows_spec_q : forall (isq : bool) (gcs : list (Z * pcost)) (ngn : nat),
  (forall gc, In gc gcs -> (0 <= fst gc < Z.of_nat ngn)%Z) -> NoDup (map fst gcs) ->
  (isq = false -> forall gc, In gc gcs -> cp2 (snd gc) == 0 /\ cq2 (snd gc) == 0) ->
  exists m', fill_writes isq ngn gcs (repeat (zero_row isq) (2 * ngn)) = Ok m' /\
    List.length m' = (2 * ngn)%nat /\
    (forall gc p q, In gc gcs -> exists rp rq,
        nth_error m' (Z.to_nat (fst gc)) = Some rp /\ nth_error m' (Z.to_nat (fst gc) + ngn) = Some rq /\
        polycost rp (res_sign (pc_et (snd gc)) * p) == user_poly (cp0 (snd gc)) (cp1 (snd gc)) (cp2 (snd gc)) p /\
        polycost rq (res_sign (pc_et (snd gc)) * q) == user_poly (cq0 (snd gc)) (cq1 (snd gc)) (cq2 (snd gc)) q) /\
    (forall j x, (j < 2 * ngn)%nat ->
        (forall gc, In gc gcs -> Z.to_nat (fst gc) <> j /\ (Z.to_nat (fst gc) + ngn)%nat <> j) ->
        exists r, nth_error m' j = Some r /\ polycost r x == 0).
Proof.
  intros isq gcs ngn Hr Hn Hq.
  destruct (writes_spec _ fst (fun gc => p_cells isq (snd gc)) _ (fun gc => cells_of_width isq _ _ _ _) gcs _
              (zero_table isq (2 * ngn))) as (m1 & E1 & L1 & W1 & Own1 & Oth1).
  { intros a Ha. rewrite repeat_length. specialize (Hr a Ha). lia. }
  { exact Hn. }
  rewrite repeat_length in L1.
  destruct (writes_spec _ (fun gc => (fst gc + Z.of_nat ngn)%Z) (fun gc => q_cells isq (snd gc)) _
              (fun gc => cells_of_width isq _ _ _ _) gcs m1 W1) as (m2 & E2 & L2 & _ & Own2 & Oth2).
  { intros a Ha. rewrite L1. specialize (Hr a Ha). lia. }
  { apply NoDup_map_shift. exact Hn. }
  exists m2. split; [unfold fill_writes; rewrite E1; exact E2|]. split; [congruence|]. split.
  - intros gc p q Hin. assert (Hg := Hr gc Hin). eexists _, _. split; [|split; [|split]].
    + (* the reactive writes go to rows >= ngn and leave the active row as it is *)
      rewrite Oth2; [exact (Own1 gc Hin)|]. intros b Hb. specialize (Hr b Hb). lia.
    + rewrite <- (Own2 gc Hin). f_equal. lia.
    + apply poly_cost. intros Hi. apply (Hq Hi gc Hin).
    + apply C17_poly_qcost. intros Hi. apply (Hq Hi gc Hin).
  - intros j x Hj Hno. exists (zero_row isq). split; [|reflexivity].
    rewrite Oth2, Oth1; [apply nth_error_repeat; exact Hj | |].
    + intros b Hb. exact (proj1 (Hno b Hb)).
    + intros b Hb. specialize (Hr b Hb). specialize (Hno b Hb). lia.
Qed.
Print Assumptions C17_poly_rows_spec_q.

Theorem C17_fill_poly_q_is_writes : forall e m cs isq,
  fill_poly e m cs isq true
  = bind (map_costs e (fun c => (pc_et c, pc_el c)) cs) (fun gcs => fill_writes isq (ng e) gcs m).
Proof. exact (fun e m cs isq => fill_poly_is_writes e m cs isq true). Qed.
Print Assumptions C17_fill_poly_q_is_writes.

(* ... and stated on _fill_gencost_poly itself: with lookups that point into the ppc gen table the row bounds need not be
   assumed, they follow from _map_costs_to_gen / _get_gen_index (no negative row, no wrap-around) *)
Theorem C17_fill_poly_q_spec : forall e cs isq gcs,
  lookups_below e -> map_costs e (fun c => (pc_et c, pc_el c)) cs = Ok gcs -> NoDup (map fst gcs) ->
  (isq = false -> forall gc, In gc gcs -> cp2 (snd gc) == 0 /\ cq2 (snd gc) == 0) ->
  exists m', fill_poly e (repeat (zero_row isq) (2 * ng e)) cs isq true = Ok m' /\
    List.length m' = (2 * ng e)%nat /\
    (forall gc p q, In gc gcs -> exists rp rq,
        nth_error m' (Z.to_nat (fst gc)) = Some rp /\ nth_error m' (Z.to_nat (fst gc) + ng e) = Some rq /\
        polycost rp (res_sign (pc_et (snd gc)) * p) == user_poly (cp0 (snd gc)) (cp1 (snd gc)) (cp2 (snd gc)) p /\
        polycost rq (res_sign (pc_et (snd gc)) * q) == user_poly (cq0 (snd gc)) (cq1 (snd gc)) (cq2 (snd gc)) q) /\
    (forall j x, (j < 2 * ng e)%nat ->
        (forall gc, In gc gcs -> Z.to_nat (fst gc) <> j /\ (Z.to_nat (fst gc) + ng e)%nat <> j) ->
        exists r, nth_error m' j = Some r /\ polycost r x == 0).
Proof.
  intros e cs isq gcs Hb Hm Hn Hq. rewrite fill_poly_is_writes, Hm. cbn [bind].
  apply C17_poly_rows_spec_q; [|exact Hn|exact Hq].
  exact (map_costs_rows_valid e _ cs gcs Hb Hm).
Qed.
Print Assumptions C17_fill_poly_q_spec.

Example C17_poly_rows_q_nonvacuous :
  exists m', fill_writes true 2
      [(1%Z, {| pc_et := Load; pc_el := 0; cp0 := 5; cp1 := 2; cp2 := 1; cq0 := 3; cq1 := 1; cq2 := 1 # 2 |})]
      (repeat (zero_row true) 4) = Ok m' /\
    nth_error m' 1 = Some {| g_model := 2; g_ncost := 3; g_c := [1; -2; 5] |} /\
    nth_error m' 3 = Some {| g_model := 2; g_ncost := 3; g_c := [1 # 2; -1; 3] |}.
Proof. exact poly_rows_q_nonvacuous. Qed.

(* _map_costs_to_gen / _get_gen_index: the mapped list holds exactly the entries that have a row; a row index is the
   lookup value of the element and never negative; an element outside the ppc (lookup value -1) has NO row, its entry
   writes nothing; with lookups into the ppc gen table every mapped row is a valid row *)
Theorem C17_map_costs_in : forall e (cs : list pcost) gcs, map_costs e (fun c => (pc_et c, pc_el c)) cs = Ok gcs ->
  forall g c, In (g, c) gcs <-> In c cs /\ get_gen_index e (pc_et c) (pc_el c) = Ok (Some g).
Proof. exact (fun e cs => map_costs_in e (fun c => (pc_et c, pc_el c)) cs). Qed.
Print Assumptions C17_map_costs_in.
Theorem C17_row_index_is_lookup_nonneg : forall e t el g, t <> Dcline -> get_gen_index e t el = Ok (Some g) ->
  lookup_get (lookup_of e t) el = Some g /\ (0 <= g)%Z.
Proof. exact (fun e t el g Ht H => conj (get_gen_index_is_lookup e t el g Ht H) (get_gen_index_nonneg e t el g H)). Qed.
Print Assumptions C17_row_index_is_lookup_nonneg.
Theorem C17_absent_element_no_row : forall e t el v, t <> Dcline ->
  lookup_get (lookup_of e t) el = Some v -> (v < 0)%Z -> get_gen_index e t el = Ok None.
Proof. exact absent_element_no_row. Qed.
Print Assumptions C17_absent_element_no_row.
Theorem C17_absent_element_dropped : forall e (c : pcost) cs v, pc_et c <> Dcline ->
  lookup_get (lookup_of e (pc_et c)) (pc_el c) = Some v -> (v < 0)%Z ->
  map_costs e (fun c => (pc_et c, pc_el c)) (c :: cs) = map_costs e (fun c => (pc_et c, pc_el c)) cs.
Proof. exact (fun e => absent_element_dropped e (fun c => (pc_et c, pc_el c))). Qed.
Print Assumptions C17_absent_element_dropped.
Theorem C17_map_costs_rows_valid : forall e (cs : list pcost) gcs, lookups_below e ->
  map_costs e (fun c => (pc_et c, pc_el c)) cs = Ok gcs -> forall gc, In gc gcs -> (0 <= fst gc < Z.of_nat (ng e))%Z.
Proof. exact (fun e => map_costs_rows_valid e (fun c => (pc_et c, pc_el c))). Qed.
Print Assumptions C17_map_costs_rows_valid.
(* regression: get_gen_index_wrap_old hands the lookup value -1 on as the row index, which addresses the last row of the table *)
Theorem C17_absent_old_refuted :
  get_gen_index_wrap_old env_absent Sgen 0 = Ok (Some (-1)%Z) /\
  (exists m', write_row (repeat (zero_row false) 2) (-1) 2 [7; 0] = Ok m' /\
              nth_error m' 1 = Some {| g_model := 2; g_ncost := 2; g_c := [7; 0] |}) /\
  get_gen_index env_absent Sgen 0 = Ok None.
Proof. split; [reflexivity|]. split; [|reflexivity]. eexists. split; reflexivity. Qed.
Print Assumptions C17_absent_old_refuted.

(* dcline, position -> label: net.gen = user's gens ++ auxiliary gens (to-bus, from-bus per dcline, in the order of
   net.dcline).  The cost entry of the dcline labelled el, k-th row of net.dcline, addresses the ppc row of the gen
   labelled aux[2k+1] — its from-bus generator — for any (gapped, unsorted) labels *)
Theorem C17_dcline_row_spec : forall e (user aux : list Z) k el lab,
  gen_labels e = user ++ aux -> List.length aux = (2 * List.length (dcl_index e))%nat ->
  n_gen_tab e = Z.of_nat (List.length (gen_labels e)) -> NoDup (dcl_index e) ->
  nth_error (dcl_index e) k = Some el -> nth_error aux (2 * k + 1) = Some lab ->
  get_gen_index e Dcline el = Ok (nonneg (lookup_get (lk_gen e) lab)).
Proof.
  intros e user aux k el lab Hg Ha Hn Hnd Hk Hlab.
  assert (Hlt : (k < List.length (dcl_index e))%nat) by (apply nth_error_Some; congruence).
  apply dcline_row_is_from_gen with (k := k).
  - exact (index_of_nodup _ _ 0%nat k Hnd Hk).
  - rewrite (dcl_pos_is_from_gen e user aux k Hg Ha Hn Hlt). exact Hlab.
Qed.
Print Assumptions C17_dcline_row_spec.
Example C17_dcline_row_spec_nonvacuous :
  gen_labels env_gapped = [0; 2]%Z ++ [3; 4]%Z /\ nth_error (dcl_index env_gapped) 0 = Some 0%Z /\
  get_gen_index env_gapped Dcline 0 = Ok (Some 4%Z).
Proof. exact dcline_row_spec_nonvacuous. Qed.

(* piecewise linear cost with one area: for every element kind the gencost row, evaluated as the OPF objective
   evaluates it at the generator variable res_sign * p, is the user's function slope * p *)
Theorem C17_pwl_single_area : forall t l u sl p, ~ u == l ->
  exists v, obj_of_res (pwl_row t [(l, u, sl)]) (res_sign t * p) = Some v /\ v == user_pwl [(l, u, sl)] p.
Proof.
  intros t l u sl p Hne.
  unfold pwl_row, costs_from_areas. cbn [areas_go bind].
  set (c := qadd 0 (qmul (qmul l sl) 1)). set (c' := qadd c (qmul (qmul (qsub u l) sl) 1)).
  (* the row holds the two end points of the block, mirrored or not; its objective is the line through them *)
  destruct (mirror_cases t p) as [[-> Hx]|[-> Hx]].
  - change (obj_of_res _ ?x) with (obj_row {| g_model := 1; g_ncost := 2; g_c := [qopp u; c'; qopp l; c] |} x).
    rewrite obj_row_two_points by (qstrip; lra).
    eexists; split; [reflexivity|]. unfold user_pwl, pwl_from, c', c. qstrip. rewrite Hx. field. lra.
  - change (obj_of_res _ ?x) with (obj_row {| g_model := 1; g_ncost := 2; g_c := [l; c; u; c'] |} x).
    rewrite obj_row_two_points by exact Hne.
    eexists; split; [reflexivity|]. unfold user_pwl, pwl_from, c', c. qstrip. rewrite Hx. field. lra.
Qed.
Print Assumptions C17_pwl_single_area.

(* two convex areas: for every element kind (load / storage / dcline with mirrored breakpoints) the cost variable of the
   row — the maximum of its segment lines — is the user's function at the element's own power *)
Theorem C17_pwl_two_areas : forall t l m u s1 s2 p, l < m -> m < u -> s1 <= s2 ->
  exists v, obj_of_res (pwl_row t [(l, m, s1); (m, u, s2)]) (res_sign t * p) = Some v
            /\ v == user_pwl [(l, m, s1); (m, u, s2)] p.
Proof.
  intros t l m u s1 s2 p Hlm Hmu Hs. apply pwl_convex_areas; [discriminate|].
  unfold convex_areas. cbn [consecutive nondecr_slopes].
  rewrite (proj2 (qltb_lt l m) Hlm), (proj2 (qltb_lt m u) Hmu), (proj2 (qeqb_eq m m) (Qeq_refl m)), (proj2 (qleb_le s1 s2) Hs).
  reflexivity.
Qed.
Print Assumptions C17_pwl_two_areas.

(* ANY number of consecutive areas with non-decreasing slopes (convex_areas = consecutive && nondecr_slopes), every
   element kind (load / storage / dcline: breakpoints mirrored and listed in reverse): the value the OPF objective
   gives the row at the generator variable res_sign * p is the user's function at the element's own power p *)
Theorem C17_pwl_convex_areas : forall t pts p, pts <> [] -> convex_areas pts = true ->
  exists v, obj_of_res (pwl_row t pts) (res_sign t * p) = Some v /\ v == user_pwl pts p.
Proof. exact pwl_convex_areas. Qed.
Print Assumptions C17_pwl_convex_areas.

(* the cost-variable formulation itself (makeAy: m * Pg - y <= m p_i - c_i for every segment): the values y that satisfy
   all constraints of the row are exactly those with y >= user function, hence the minimised cost variable is the user's
   function — no appeal to "y is the maximum of the lines" *)
Theorem C17_pwl_ccv_min : forall t pts p, pts <> [] -> convex_areas pts = true ->
  exists r, pwl_row t pts = Ok r /\
    forall y, ay_feasible r (res_sign t * p) y <-> user_pwl pts p <= y.
Proof.
  intros t pts p Hne Hcv. destruct pts as [|[[l u] s] ar]; [congruence|].
  destruct (pwl_row_convex t l u s ar p Hcv) as (n & c & P & Erow & EP & Hd & Hl & vals & Hv & Hmax).
  eexists. split; [exact Erow|]. intros y.
  destruct (obj_row_is_max n c P (res_sign t * p) EP Hd Hl) as (r & _ & Hr).
  rewrite ay_feasible_iff, EP.
  rewrite (is_max_bound r _ y Hr). rewrite (Hmax r (is_max_eqv _ _ _ Hv Hr)). reflexivity.
Qed.
Print Assumptions C17_pwl_ccv_min.

Example C17_pwl_convex_nonvacuous :
  convex_areas [(0, 2, 1); (2, 3, 3); (3, 5, 4)] = true /\
  obj_of_res (pwl_row Load [(0, 2, 1); (2, 3, 3); (3, 5, 4)]) (res_sign Load * (5 # 2)) = Some (7 # 2) /\
  user_pwl [(0, 2, 1); (2, 3, 3); (3, 5, 4)] (5 # 2) == 7 # 2.
Proof. exact pwl_convex_nonvacuous. Qed.

(* convexity is needed (pypower's formulation cannot represent a concave cost): decreasing slopes on a gen *)
Theorem C17_pwl_nonconvex_refuted :
  exists t pts p, consecutive pts = true /\
    forall v, obj_of_res (pwl_row t pts) (res_sign t * p) = Some v -> ~ v == user_pwl pts p.
Proof.
  exists Gen, [(0, 2, 3); (2, 4, 1)], 1. split; [reflexivity|].
  intros v H. vm_compute in H. injection H as <-. vm_compute. discriminate.
Qed.
Print Assumptions C17_pwl_nonconvex_refuted.

(* regression: pwl_row_old (values times sign, breakpoints not mirrored) on a load *)
Theorem C17_pwl_old_refuted :
  exists t pts p, consecutive pts = true /\
    forall v, obj_of_res (pwl_row_old t pts) (res_sign t * p) = Some v -> ~ v == user_pwl pts p.
Proof.
  exists Load, [(0, 5, 1); (5, 10, 3)], 6. split; [reflexivity|].
  intros v H. vm_compute in H. injection H as <-. vm_compute. discriminate.
Qed.
Print Assumptions C17_pwl_old_refuted.

(* dcline cost entries address the row of the from-bus generator's index label; regression of the positional rule *)
Theorem C17_dcline_row_is_from_gen : forall e el k lab,
  index_of (dcl_index e) el 0 = Some k -> np_get (gen_labels e) (dcl_pos e k) = Some lab ->
  get_gen_index e Dcline el = Ok (nonneg (lookup_get (lk_gen e) lab)).
Proof. exact dcline_row_is_from_gen. Qed.
Print Assumptions C17_dcline_row_is_from_gen.
Theorem C17_dcline_row_old_refuted :
  get_gen_index_old env_gapped Dcline 0 = Ok (Some 3%Z) /\ get_gen_index env_gapped Dcline 0 = Ok (Some 4%Z).
Proof. split; reflexivity. Qed.
Print Assumptions C17_dcline_row_old_refuted.

(* a constant reactive cost creates the reactive rows; regression of the old q_costs test *)
Theorem C17_cq0_creates_q_rows : forall c ws, ~ cq0 c == 0 -> q_costs [c] ws = true.
Proof.
  intros c ws H. unfold q_costs. cbn [existsb]. unfold nz at 1.
  destruct (qeqb (cq0 c) 0) eqn:E; [apply qeqb_eq in E; contradiction | reflexivity].
Qed.
Print Assumptions C17_cq0_creates_q_rows.
Theorem C17_cq0_old_refuted : exists c, ~ cq0 c == 0 /\ q_costs_old [c] [] = false.
Proof.
  exists {| pc_et := Gen; pc_el := 0; cp0 := 0; cp1 := 1; cp2 := 0; cq0 := 2; cq1 := 0; cq2 := 0 |}.
  split; [vm_compute; discriminate | reflexivity].
Qed.
Print Assumptions C17_cq0_old_refuted.

(* every row is evaluated at its own variable; regression of the reactive cost-variable column offset *)
Theorem C17_var_index_own : forall ngn i r, var_index ngn i r = i.
Proof. reflexivity. Qed.
Print Assumptions C17_var_index_own.
Theorem C17_var_index_old_refuted : exists ngn i r, var_index_old ngn i r <> i.
Proof.
  exists 2%nat, 3%nat, {| g_model := 1; g_ncost := 3; g_c := [] |}. vm_compute. discriminate.
Qed.
Print Assumptions C17_var_index_old_refuted.

(* DC OPF is a convex program: any KKT point of  min sum a_i x_i^2 + b_i x_i + c_i  (a_i >= 0)
   s.t. A x = b, G x <= h  is a global minimiser *)
Theorem C17_kkt_global_min : forall cs A b G h x lam mu,
  Forall (fun c => 0 <= qa c) cs -> length x = length cs ->
  KKT cs A b G h x lam mu ->
  forall y, length y = length cs -> eq_feasible A b y -> le_feasible G h y ->
  cost cs x <= cost cs y.
Proof.
  intros cs A b G h x lam mu Hcv Lx [Heq Hle Hst Hcp] y Ly Hye Hyl.
  assert (L : length y = length x) by congruence.
  pose proof (convex_first_order cs x y Hcv Lx Ly) as H1.
  pose proof (dot_vzero _ (vsub y x) Hst) as H2.
  rewrite dot_vadd, dot_vadd, !dot_comb in H2.
  pose proof (wsum_eq lam A b x y L Heq Hye) as H3.
  pose proof (wsum_le mu G h x y L Hcp Hyl) as H4.
  lra.
Qed.
Print Assumptions C17_kkt_global_min.

Example C17_kkt_nonvacuous :
  KKT [{| qa := 1; qb := 0; qc := 0 |}; {| qa := 1; qb := 2; qc := 0 |}] [[1; 1]] [2] [[0; 1]] [1 # 4]
      [7 # 4; 1 # 4] [- (7 # 2)] [1].
Proof. exact kkt_example. Qed.
