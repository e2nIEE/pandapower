(* C34 — explicit runpp arguments take precedence over stored user options.
   runpp_options f stored explicit = net._options after  runpp(net, **explicit)  with
   net.user_pf_options = stored, f = the facts about the net and the installation that the option code reads. *)
From Coq Require Import ZArith QArith List Bool String.
From PPV Require Import Base.QN C34.Model C34.Proofs C34.ModelCtl C34.ProofsCtl.
Import ListNotations.
Open Scope string_scope.

(* FULL STATEMENT (false of the code, see C34_explicit_wins_refuted):
     forall f stored explicit,
       runpp_options f stored explicit = runpp_options f (remove_keys (keys explicit) stored) explicit
   i.e. a stored option whose key is passed explicitly has no influence whatsoever on net._options. *)

(* holds under the guard G34 = for every explicitly passed named argument, bool(value != default) evaluates to True
   (python != incl. list / dict / array values, Model.ne_truth) *)
Theorem C34_explicit_wins_partial : forall f stored explicit,
  G34 explicit = true ->
  runpp_options f stored explicit = runpp_options f (remove_keys (keys explicit) stored) explicit.
Proof.
  intros f stored ex G. rewrite !(runpp_options_guard _ _ _ G). f_equal.
  unfold remove_keys.
  assert (HP : forall k, (fun k => negb (mem k (keys (passed_set ex)))) k = (fun k => negb (mem k (keys ex))) k)
    by (intros k; cbn beta; now rewrite passed_set_guard).
  rewrite !(filter_ext_key _ _ _ HP).
  now rewrite filter_filter_same.
Qed.
Print Assumptions C34_explicit_wins_partial.

Theorem C34_explicit_wins_refuted :
  exists f stored explicit,
    runpp_options f stored explicit <> runpp_options f (remove_keys (keys explicit) stored) explicit.
Proof.
  exists facts0, [("tolerance_mva", VQ (1 # 1000))], [("tolerance_mva", VQ tol_default)]. intros H.
  assert (forall k, (match runpp_options facts0 [("tolerance_mva", VQ (1 # 1000))] [("tolerance_mva", VQ tol_default)] with Ok o => lookup k o | Err _ => None end)
                  = (match runpp_options facts0 (remove_keys (keys [("tolerance_mva", VQ tol_default)]) [("tolerance_mva", VQ (1 # 1000))]) [("tolerance_mva", VQ tol_default)] with
                     Ok o => lookup k o | Err _ => None end)) as E by (intros; now rewrite H).
  specialize (E "tolerance_mva"). vm_compute in E. discriminate E.
Qed.
Print Assumptions C34_explicit_wins_refuted.

(* an explicitly passed, plainly copied option shows up in net._options with the passed value,
   whatever is stored (per-key guard: the value differs from the default, vacuous for **kwargs keys) *)
Theorem C34_explicit_value_visible_partial : forall f stored explicit k v o,
  mem k plain_keys = true ->
  lookup k explicit = Some v ->
  G34_key explicit k = true ->
  runpp_options f stored explicit = Ok o ->
  lookup k o = Some v.
Proof.
  intros f stored ex k v o PK Le G H. apply runpp_options_ok in H.
  set (ov := filter (fun kv => negb (mem (fst kv) (keys (passed_set ex)))) stored) in *.
  unfold G34_key in G. rewrite Le in G.
  assert (Lov : lookup k ov = None).
  { apply lookup_none_keys. unfold ov. rewrite (mem_keys_filter_key (fun k => negb (mem k (keys (passed_set ex))))).
    rewrite passed_set_char. destruct (lookup k named_defaults) as [d|].
    - unfold getd. now rewrite Le, G.
    - now rewrite (lookup_some_keys _ _ _ Le). }
  apply init_core_ok in H. destruct H as (cva & vdl & numba & ls & mi & ivm & iva & ->).
  rewrite lookup_update_notin by (apply lookup_none_keys; exact Lov).
  destruct (base_dict_plain (call_named ex) (call_kwargs ex) ov cva vdl numba ls mi ivm iva k PK Lov) as [d ->].
  f_equal. destruct (lookup k named_defaults) as [d0|] eqn:L.
  - rewrite (getd_call_named _ _ _ L). unfold getd. now rewrite Le.
  - unfold getd. now rewrite (lookup_call_kwargs _ _ L), Le.
Qed.
Print Assumptions C34_explicit_value_visible_partial.

Theorem C34_explicit_value_visible_refuted :
  exists f stored explicit k v o,
    mem k plain_keys = true /\ lookup k explicit = Some v /\
    runpp_options f stored explicit = Ok o /\ lookup k o <> Some v.
Proof.
  exists facts0, [("tolerance_mva", VQ (1 # 1000))], [("tolerance_mva", VQ tol_default)], "tolerance_mva", (VQ tol_default).
  eexists. split; [reflexivity|]. split; [reflexivity|]. split; [vm_compute; reflexivity|].
  vm_compute. discriminate.
Qed.
Print Assumptions C34_explicit_value_visible_refuted.

(* which keys the code regards as passed: a named argument whose value differs from the signature default,
   or any **kwargs key *)
Theorem C34_passed_iff : forall explicit k,
  mem k (keys (passed_set explicit))
  = match lookup k named_defaults with
    | Some d => ne_true (getd k explicit d) d
    | None => mem k (keys explicit)
    end.
Proof. exact passed_set_char. Qed.
Print Assumptions C34_passed_iff.

(* stored options apply to every argument the code regards as not passed ... *)
Theorem C34_stored_applies_when_not_passed : forall f stored explicit k v o,
  NoDup (keys stored) ->
  lookup k stored = Some v ->
  mem k (keys (passed_set explicit)) = false ->
  runpp_options f stored explicit = Ok o ->
  lookup k o = Some v.
Proof.
  intros f stored ex k v o ND L P H. apply runpp_options_ok in H.
  apply init_core_ok in H. destruct H as (cva & vdl & numba & ls & mi & ivm & iva & ->).
  apply lookup_update_in.
  - now apply NoDup_keys_filter.
  - rewrite (lookup_filter_key (fun k => negb (mem k (keys (passed_set ex))))). now rewrite P.
Qed.
Print Assumptions C34_stored_applies_when_not_passed.

(* ... which pins down the recorded defect exactly: an explicit value python-equal to the default loses *)
Theorem C34_explicit_default_loses : forall f stored explicit k d v s o,
  NoDup (keys stored) ->
  lookup k named_defaults = Some d -> lookup k explicit = Some v -> ne_true v d = false ->
  lookup k stored = Some s ->
  runpp_options f stored explicit = Ok o ->
  lookup k o = Some s.
Proof.
  intros f stored ex k d v s o ND Ld Le Ev Ls H.
  apply (C34_stored_applies_when_not_passed f stored ex k s o ND Ls); [|exact H].
  rewrite passed_set_char, Ld. unfold getd. rewrite Le, Ev. reflexivity.
Qed.
Print Assumptions C34_explicit_default_loses.

Example C34_nonvacuous :
  G34 explicit_nv = true /\ NoDup (keys stored_nv) /\
  (exists o, runpp_options facts0 stored_nv explicit_nv = Ok o
             /\ lookup "tolerance_mva" o = Some (VQ (1 # 1000000))
             /\ lookup "max_iteration" o = Some (VZ 25)
             /\ lookup "numba" o = Some (VB true)) /\
  mem "max_iteration" (keys (passed_set explicit_nv)) = false.
Proof. exact nonvacuous. Qed.
Print Assumptions C34_nonvacuous.

(* composite (list / dict / array / Series) option values in `val != default` (run.py:543) *)

(* every default of the signature is a scalar, so two composite values are never compared *)
Theorem C34_defaults_scalar : forall k d, lookup k named_defaults = Some d -> is_scalar d = true.
Proof. exact named_defaults_scalar. Qed.
Print Assumptions C34_defaults_scalar.

(* list / tuple / dict / object values always differ from the default and never raise: they satisfy the guard *)
Theorem C34_container_always_passed : forall v d, is_container v = true -> ne_truth v d = Some true.
Proof.
  intros v d.
  destruct v; cbn; intros H; try discriminate H; destruct (num_of d); reflexivity.
Qed.
Print Assumptions C34_container_always_passed.

(* arrays: size 1 - the element decides; every other size raises (None = ValueError) *)
Theorem C34_array_ne_truth : forall l d,
  ne_truth (VA l) d = match l with [x] => Some (negb (val_eqb x d)) | _ => None end.
Proof.
  intros l d.
  destruct l as [|x [|y l]]; reflexivity.
Qed.
Print Assumptions C34_array_ne_truth.

(* a named argument whose comparison raises makes runpp raise ValueError, for every net - but only when user
   options are stored; without stored options no comparison is evaluated at all *)
Theorem C34_raising_value_raises : forall f stored explicit k d v,
  stored <> [] -> lookup k named_defaults = Some d -> lookup k explicit = Some v -> ne_raises v d = true ->
  runpp_options f stored explicit = Err "ValueError".
Proof.
  intros f stored ex k d v NE L E R. rewrite runpp_options_unfold.
  assert (P : passed_raises (call_named ex) = true).
  { rewrite passed_raises_char. apply existsb_exists. exists (k, d). split; [now apply In_lookup_defaults|].
    cbn [fst snd]. unfold getd. now rewrite E. }
  rewrite P. destruct stored; [congruence | reflexivity].
Qed.
Print Assumptions C34_raising_value_raises.

Theorem C34_no_stored_no_comparison : forall f explicit,
  runpp_options f [] explicit = init_core f (call_named explicit) (call_kwargs explicit) [].
Proof.
  intros. rewrite runpp_options_unfold. reflexivity.
Qed.
Print Assumptions C34_no_stored_no_comparison.

Example C34_composite_nonvacuous :
  runpp_options facts0 stored_c [("tolerance_mva", VA [VQ (1 # 100); VQ (1 # 10)])] = Err "ValueError" /\
  (exists o, runpp_options facts0 [] [("tolerance_mva", VA [VQ (1 # 100); VQ (1 # 10)])] = Ok o
             /\ lookup "tolerance_mva" o = Some (VA [VQ (1 # 100); VQ (1 # 10)])) /\
  (exists o, runpp_options facts0 stored_c [("tolerance_mva", VA [VQ tol_default])] = Ok o
             /\ lookup "tolerance_mva" o = Some (VQ (1 # 1000))) /\
  (exists o, runpp_options facts0 stored_c [("tolerance_mva", VL [VQ tol_default]); ("recycle", VD [])] = Ok o
             /\ lookup "tolerance_mva" o = Some (VL [VQ tol_default]) /\ lookup "recycle" o = Some (VD [])).
Proof. exact composite_nonvacuous. Qed.
Print Assumptions C34_composite_nonvacuous.

(* the run_control branch of runpp (ModelCtl):
   runpp_control fs pf steps initial_run stored explicit = (net._options of every inner power flow in order, outcome)
   of  runpp(net, ** explicit)  with run_control=True and controllers in service;  fs i = facts seen by inner power
   flow #i, pf i = does it converge, steps = control steps per controller level.
   plain_explicit explicit = the explicit arguments without run_control / continue_on_divergence / check_each_level /
   max_iter.  Gctl = no stored option under a key that run_control adds or consumes, caller passes none of
   recycle / only_v_results / ctrl_variables / run / kwargs. *)

(* the keyword arguments handed to every inner run configure it exactly like the plain call ... *)
Theorem C34_inner_call_is_plain_call : forall f stored explicit,
  NoDup (keys explicit) -> Gctl stored explicit = true ->
  runpp_options f stored (inner_explicit explicit) = runpp_options f stored (plain_explicit explicit).
Proof.
  intros f stored ex ND G. rewrite !runpp_options_unfold, (call_named_inner _ ND).
  destruct (negb (is_empty stored) && passed_raises (call_named (plain_explicit ex))); [reflexivity|].
  rewrite (init_core_kw_agree _ _ _ _ _ (kw_agree_inner _ _ ND G)). f_equal.
  apply filter_ext_in. intros [k v] Hin. cbn [fst]. f_equal. apply (passed_inner _ _ ND).
  apply (Gctl_stored _ _ _ G). apply mem_In. unfold keys. apply in_map_iff. now exists (k, v).
Qed.
Print Assumptions C34_inner_call_is_plain_call.

(* ... the inner call cannot re-enter run_control or take the recycle shortcut ... *)
Theorem C34_inner_call_takes_plain_branch : forall internal_stored ctrl_in_service explicit,
  NoDup (keys explicit) ->
  runpp_branch internal_stored ctrl_in_service (inner_explicit explicit) = BPlain.
Proof.
  intros is cs ex ND. unfold runpp_branch.
  assert (R : getd "recycle" (call_kwargs (inner_explicit ex)) VNone = VNone).
  { unfold getd. rewrite lookup_call_kwargs by reflexivity. now rewrite (lookup_inner _ _ ND). }
  assert (C : getd "run_control" (call_named (inner_explicit ex)) VNone = VB false).
  { unfold getd. rewrite (lookup_call_named _ _ (VB false)) by reflexivity.
    unfold getd. now rewrite (lookup_inner _ _ ND). }
  rewrite R, C. reflexivity.
Qed.
Print Assumptions C34_inner_call_takes_plain_branch.

(* ... so EVERY inner power flow of the control loop (initial run, control iterations, the retry after
   repair_control with continue_on_divergence), whatever converges or diverges, sees the plain call's options *)
Theorem C34_control_every_inner_run_is_plain : forall fs pf steps initial_run stored explicit i o,
  NoDup (keys explicit) -> Gctl stored explicit = true ->
  nth_error (fst (runpp_control fs pf steps initial_run stored explicit)) i = Some o ->
  o = runpp_options (fs i) stored (plain_explicit explicit).
Proof.
  intros fs pf steps ir stored ex i o ND G H. unfold runpp_control in H.
  apply control_trace_inv in H. now rewrite (C34_inner_call_is_plain_call _ _ _ ND G) in H.
Qed.
Print Assumptions C34_control_every_inner_run_is_plain.

(* explicit-wins carries over to every inner run under G34 *)
Theorem C34_control_explicit_wins_partial : forall fs pf steps initial_run stored explicit i o,
  NoDup (keys explicit) -> Gctl stored explicit = true -> G34 (plain_explicit explicit) = true ->
  nth_error (fst (runpp_control fs pf steps initial_run stored explicit)) i = Some o ->
  o = runpp_options (fs i) (remove_keys (keys (plain_explicit explicit)) stored) (plain_explicit explicit).
Proof.
  intros fs pf steps ir stored ex i o ND G G' H.
  rewrite (C34_control_every_inner_run_is_plain _ _ _ _ _ _ _ _ ND G H). now apply C34_explicit_wins_partial.
Qed.
Print Assumptions C34_control_explicit_wins_partial.

(* the guard Gctl is needed: run_control overwrites the caller's only_v_results (and recycle), run_control.py:277 *)
Theorem C34_control_only_v_results_overwritten :
  exists o p, runpp_options facts0 [] (inner_explicit explicit_ovr) = Ok o /\
              runpp_options facts0 [] (plain_explicit explicit_ovr) = Ok p /\
              lookup "only_v_results" o = Some (VB false) /\ lookup "only_v_results" p = Some (VB true).
Proof.
  eexists. eexists. split; [vm_compute; reflexivity|]. split; [vm_compute; reflexivity|]. split; reflexivity.
Qed.
Print Assumptions C34_control_only_v_results_overwritten.

Theorem C34_control_stored_only_v_results_overruled :
  exists o p, runpp_options facts0 stored_ovr (inner_explicit [("run_control", VB true)]) = Ok o /\
              runpp_options facts0 stored_ovr (plain_explicit [("run_control", VB true)]) = Ok p /\
              lookup "only_v_results" o = Some (VB false) /\ lookup "only_v_results" p = Some (VB true).
Proof.
  eexists. eexists. split; [vm_compute; reflexivity|]. split; [vm_compute; reflexivity|]. split; reflexivity.
Qed.
Print Assumptions C34_control_stored_only_v_results_overruled.

Example C34_control_nonvacuous :
  NoDup (keys explicit_cnv) /\ Gctl stored_cnv explicit_cnv = true /\ G34 (plain_explicit explicit_cnv) = true /\
  let '(tr, out) := runpp_control (fun _ => facts0) (fun i => negb (Nat.eqb i 1)) [2%nat] true stored_cnv explicit_cnv in
  List.length tr = 4%nat /\ out = "ok" /\
  (exists o, nth_error tr 2 = Some (Ok o) /\ lookup "tolerance_mva" o = Some (VQ (1 # 1000000))
             /\ lookup "max_iteration" o = Some (VZ 25) /\ lookup "numba" o = Some (VB false)).
Proof. exact control_nonvacuous. Qed.
Print Assumptions C34_control_nonvacuous.
