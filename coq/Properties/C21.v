(* C21 — PYPOWER/MATPOWER conversion round trip: property theorems (lemmas in C21/*.v).
   to_* = pandapower -> per-unit ppc row (to_ppc/_pd2ppc), from_* = ppc row -> pandapower element (from_ppc).
   Square roots taken by the implementation are oracle inputs constrained by 0 <= s /\ s*s == argument. *)
From Coq Require Import ZArith QArith List Bool Lqa.
From PPV Require Import Base.QN C21.Model C21.Proofs C21.GenWhich C21.Impedance.
Import ListNotations.
Open Scope Q_scope.

(* ppc -> net -> ppc on a branch converted to a line: r, x, b and g are reproduced (from_line is from_ppc
   with "fix: from_ppc no longer halves the line conductance") *)
Theorem C21_line_roundtrip : forall pif S vn r,
  ~ pif == 0 -> ~ S == 0 -> ~ vn == 0 ->
  let r' := to_line pif S vn (from_line pif S vn r) in
  br_r r' == br_r r /\ br_x r' == br_x r /\ br_b r' == br_b r /\ br_g r' == br_g r.
Proof.
  intros pif S vn r Hp HS Hv. unfold_line_conv.
  (* r, x, b, g: each is divided by the base impedance vn^2 / S and multiplied by it again, b also by pi f *)
  split; [|split; [|split]]; field.
  - exact (conj HS Hv).
  - exact (conj HS Hv).
  - exact (conj HS (conj Hv Hp)).
  - exact (conj HS Hv).
Qed.
Print Assumptions C21_line_roundtrip.

Example C21_line_roundtrip_nonvacuous : ~ (157 # 1) == 0 /\ ~ (10 # 1) == 0 /\ ~ (20 # 1) == 0.
Proof. repeat split; intro H; discriminate H. Qed.

(* from_line_old (g = G/Zni*1e6/2) halves the conductance: exact characterisation, regression witness and the guard under
   which it is right *)
Theorem C21_line_roundtrip_old_faithful : forall pif S vn r,
  ~ pif == 0 -> ~ S == 0 -> ~ vn == 0 ->
  let r' := to_line pif S vn (from_line_old pif S vn r) in
  br_r r' == br_r r /\ br_x r' == br_x r /\ br_b r' == br_b r /\ br_g r' == br_g r / 2.
Proof. exact ppc_line_roundtrip_old. Qed.
Print Assumptions C21_line_roundtrip_old_faithful.

Theorem C21_line_roundtrip_old_refuted :
  exists pif S vn r, ~ pif == 0 /\ ~ S == 0 /\ ~ vn == 0 /\
    ~ br_g (to_line pif S vn (from_line_old pif S vn r)) == br_g r.
Proof.
  exists 1, 1, 1, {| br_r := 1; br_x := 1; br_b := 0; br_g := 1 |}.
  repeat split; intro H; vm_compute in H; discriminate H.
Qed.
Print Assumptions C21_line_roundtrip_old_refuted.

Theorem C21_line_roundtrip_old_partial : forall pif S vn r,
  ~ pif == 0 -> ~ S == 0 -> ~ vn == 0 -> G21_line r = true ->
  let r' := to_line pif S vn (from_line_old pif S vn r) in
  br_r r' == br_r r /\ br_x r' == br_x r /\ br_b r' == br_b r /\ br_g r' == br_g r.
Proof.
  intros pif S vn r Hp HS Hv G.
  destruct (ppc_line_roundtrip_old pif S vn r Hp HS Hv) as (A & B & C & D).
  cbv zeta. repeat split; try assumption.
  unfold G21_line in G. apply qeqb_eq in G. rewrite D, G. reflexivity.
Qed.
Print Assumptions C21_line_roundtrip_old_partial.

(* net -> ppc -> net: the created line (length 1, parallel 1) carries the same total ohmic r, x, c, g *)
Theorem C21_line_ohmic_equivalent : forall pif S vn l,
  ~ pif == 0 -> ~ S == 0 -> ~ vn == 0 -> ~ l_par l == 0 ->
  let l' := from_line pif S vn (to_line pif S vn l) in
  l_len l' == 1 /\ l_par l' == 1 /\
  l_r l' == l_r l * l_len l / l_par l /\ l_x l' == l_x l * l_len l / l_par l /\
  l_c l' == l_c l * l_len l * l_par l /\ l_g l' == l_g l * l_len l * l_par l.
Proof.
  intros pif S vn l Hp HS Hv Hpar. unfold_line_conv.
  repeat split; try reflexivity; field; repeat split; assumption.
Qed.
Print Assumptions C21_line_ohmic_equivalent.

(* a branch is converted to a line only if it joins equal base voltages with neutral tap and no shift,
   so base voltage of from bus (to_ppc) and to bus (from_ppc) coincide *)
Theorem C21_line_class_same_base : forall fvn tvn tap shift,
  which fvn tvn tap shift = 0%nat -> fvn == tvn /\ (tap == 0 \/ tap == 1) /\ shift == 0.
Proof.
  intros fvn tvn tap shift H. unfold which in H.
  destruct (is_line fvn tvn tap shift) eqn:E.
  - unfold is_line in E. apply andb_prop in E. destruct E as [E E3]. apply andb_prop in E. destruct E as [E1 E2].
    apply qeqb_eq in E1. apply qeqb_eq in E3. apply orb_prop in E2.
    repeat split; try assumption. destruct E2 as [E2|E2]; apply qeqb_eq in E2; auto.
  - destruct (is_trafo tap shift); discriminate.
Qed.
Print Assumptions C21_line_class_same_base.

Theorem C21_class_exclusive : forall fvn tvn tap shift,
  is_line fvn tvn tap shift = true -> is_trafo tap shift = false.
Proof.
  intros. unfold is_line, is_trafo in *.
  destruct (qeqb fvn tvn), (qeqb tap 0), (qeqb tap 1), (qeqb shift 0); cbn in *; congruence.
Qed.
Print Assumptions C21_class_exclusive.

(* ppc transformer row -> net.trafo (vk, vkr, pfe, i0, tap as one Ratio step, shift) -> ppc row:
   r, x, g, b, tap ratio and shift are reproduced (pi model; hv side = from bus; RATE_A a number) *)
Theorem C21_trafo_roundtrip : forall S fvn tvn zk ym r x b g tap shift rate sq_vn sq_x sq_b,
  0 < S -> 0 < tvn -> tvn <= fvn -> isclose0 tap = false -> 0 < tap -> ~ x == 0 -> b <= 0 -> 0 <= rate ->
  0 <= zk /\ zk * zk == r * r + x * x ->
  0 <= ym /\ ym * ym == b * b + g * g ->
  let t := fst (from_trafo S fvn tvn zk ym r x b g tap shift (Some rate)) in
  0 <= sq_vn /\ sq_vn * sq_vn == tap_arg t * tap_arg t ->
  is_sqrt sq_x (x_arg S tvn sq_vn t) ->
  is_sqrt sq_b (b_arg t) ->
  let row := to_trafo S fvn tvn sq_vn sq_x sq_b t in
  feq (tr_r row) r /\ feq (tr_x row) x /\ feq (tr_g row) g /\ feq (tr_b row) b /\
  tr_tap row == tap /\ tr_shift row == shift.
Proof. exact trafo_roundtrip_sec. Qed.
Print Assumptions C21_trafo_roundtrip.

(* RATE_A = NaN (max_loading_percent NaN for that transformer): with "fix: from_ppc treats a NaN branch rating
   like a missing one" every rating yields a positive sn_mva (so C21_trafo_roundtrip applies) *)
Theorem C21_rating_always_positive : forall rate, (match rate with Some r => 0 <= r | None => True end) ->
  exists s, sn_of_rate rate = Some s /\ 0 < s.
Proof.
  intros [r|] H; eexists; (split; [reflexivity|]); [exact (rate_sn_pos r H) | reflexivity].
Qed.
Print Assumptions C21_rating_always_positive.
Theorem C21_rating_old_nan_refuted : sn_of_rate_old None = None.
Proof. reflexivity. Qed.
Print Assumptions C21_rating_old_nan_refuted.

(* impedance-class branches (different base voltages, tap 0/1, no shift): ppc row -> net.impedance -> ppc row reproduces
   r, x, b, g for EVERY rating, zero and NaN included (after the repair "fix: from_ppc treats a NaN rating of an impedance
   branch like a missing one") *)
Theorem C21_impedance_roundtrip : forall S r x b g rate, ~ S == 0 ->
  let row := to_impedance S (from_impedance S r x b g rate) in
  feq (ir_r row) r /\ feq (ir_x row) x /\ feq (ir_b row) b /\ feq (ir_g row) g.
Proof.
  intros S r x b g rate HS.
  assert (exists sn, imp_sn_of_rate rate = Some sn /\ ~ sn == 0) as (sn & E & Hs).
  { unfold imp_sn_of_rate, sn_of_rate. eexists; split; [reflexivity|].
    destruct rate as [ra|]; [|discriminate]. destruct (isclose0 ra) eqn:C; [discriminate | exact (isclose0_false ra C)]. }
  unfold from_impedance, from_impedance_with. rewrite E.
  cbn [to_impedance fmap fmap2 feq i_sn i_rft i_xft i_bf i_gf ir_r ir_x ir_b ir_g].
  repeat split; qstrip; field; split; assumption.
Qed.
Print Assumptions C21_impedance_roundtrip.

Example C21_impedance_roundtrip_nonvacuous :
  ~ (10 # 1) == 0 /\ i_sn (from_impedance (10 # 1) (1 # 100) (4 # 100) 0 0 None) = Some MAX_VAL /\
  i_sn (from_impedance (10 # 1) (1 # 100) (4 # 100) 0 0 (Some (25 # 1))) = Some (25 # 1).
Proof. repeat split. intro H; discriminate H. Qed.

(* from_impedance_old keeps a NaN rating: regression witness and the guard under which it is right *)
Theorem C21_impedance_roundtrip_old_refuted : exists S r x b g rate, ~ S == 0 /\
  ~ feq (ir_r (to_impedance S (from_impedance_old S r x b g rate))) r.
Proof. exists 1, (1 # 100), (4 # 100), 0, 0, None. split; [intro H; discriminate H | cbn; tauto]. Qed.
Print Assumptions C21_impedance_roundtrip_old_refuted.

Theorem C21_impedance_roundtrip_old_partial : forall S r x b g rate, ~ S == 0 -> G21_imp_rate rate = true ->
  let row := to_impedance S (from_impedance_old S r x b g rate) in
  feq (ir_r row) r /\ feq (ir_x row) x /\ feq (ir_b row) b /\ feq (ir_g row) g.
Proof.
  intros S r x b g [ra|] HS G; [| discriminate G].
  change (from_impedance_old S r x b g (Some ra)) with (from_impedance S r x b g (Some ra)).
  apply C21_impedance_roundtrip; assumption.
Qed.
Print Assumptions C21_impedance_roundtrip_old_partial.

(* bus rows: PD/QD -> load or sgen -> PD/QD ; GS/BS -> shunt -> GS/BS *)
Theorem C21_bus_pq_roundtrip : forall pd qd,
  fst (to_bus_pq (from_bus_pq pd qd)) == pd /\ snd (to_bus_pq (from_bus_pq pd qd)) == qd.
Proof.
  intros pd qd. unfold from_bus_pq.
  destruct (Qlt_le_dec 0 pd) as [P|P]; [|destruct (Qlt_le_dec pd 0) as [N|N]].
  - (* pd > 0: one load *)
    rewrite (proj2 (qltb_lt 0 pd) P), (proj2 (qltb_ge pd 0)) by lra.
    cbn [orb app to_bus_pq fst snd]. qstrip. split; lra.
  - (* pd < 0: one sgen *)
    rewrite (proj2 (qltb_ge 0 pd) P), (proj2 (qltb_lt pd 0) N), (proj2 (qeqb_false pd 0)) by lra.
    cbn [orb andb app to_bus_pq fst snd]. qstrip. split; lra.
  - (* pd == 0: a load exactly when qd is not 0 *)
    assert (Z : pd == 0) by lra.
    rewrite (proj2 (qltb_ge 0 pd) P), (proj2 (qltb_ge pd 0) N), (proj2 (qeqb_eq pd 0) Z).
    destruct (qeqb qd 0) eqn:D; cbn [orb andb negb app to_bus_pq fst snd]; qstrip.
    + apply qeqb_eq in D. split; lra.
    + split; lra.
Qed.
Print Assumptions C21_bus_pq_roundtrip.

Theorem C21_shunt_roundtrip : forall vn gs bs, ~ vn == 0 ->
  fst (to_bus_shunt vn (from_bus_shunt vn gs bs)) == gs /\ snd (to_bus_shunt vn (from_bus_shunt vn gs bs)) == bs.
Proof.
  intros vn gs bs Hv. unfold from_bus_shunt.
  destruct (qeqb gs 0) eqn:A; destruct (qeqb bs 0) eqn:B; cbn [negb orb to_bus_shunt to_bus_shunt1 fst snd s_p s_q s_vn s_step];
    unfold sq; qstrip; try (apply qeqb_eq in A); try (apply qeqb_eq in B).
  - split; lra.
  - split; field; assumption.
  - split; field; assumption.
  - split; field; assumption.
Qed.
Print Assumptions C21_shunt_roundtrip.

(* generator rows: every slack bus with gen rows gets exactly one ext_grid, every PV bus exactly one gen
   (classification "first row of the bus"; the implementation's regrouped computation gen_which equals it:
   C21_gen_which_is_first_row_of_bus below) *)
Theorem C21_one_ext_grid_per_slack_bus : forall b l,
  (forall g, In g l -> g_bus g = b -> g_type g = 3%Z) ->
  count_class b 0 l (gen_which_spec l) = if memz b (map g_bus l) then 1%nat else 0%nat.
Proof. exact (fun b l => gen_spec_one_per_bus b 3%Z 0%nat l (or_introl (conj eq_refl eq_refl))). Qed.
Print Assumptions C21_one_ext_grid_per_slack_bus.

Theorem C21_one_gen_per_pv_bus : forall b l,
  (forall g, In g l -> g_bus g = b -> g_type g = 2%Z) ->
  count_class b 1 l (gen_which_spec l) = if memz b (map g_bus l) then 1%nat else 0%nat.
Proof. exact (fun b l => gen_spec_one_per_bus b 2%Z 1%nat l (or_intror (conj eq_refl eq_refl))). Qed.
Print Assumptions C21_one_gen_per_pv_bus.

(* _gen_to_which as implemented (rows regrouped by bus type 3,2,1,4; duplicated() over that order; sort_index) is the
   direct rule "ext_grid / gen = FIRST gen row of its bus in the original ppc order, every later row of a slack/PV bus
   and every row of a PQ bus = sgen, rows of isolated buses are dropped", for every list of gen rows in which the bus
   type is a function of the bus (in the implementation the type column is ppc["bus"][bus_pos, BUS_TYPE]). *)
Theorem C21_gen_which_is_first_row_of_bus : forall l,
  (forall g g', In g l -> In g' l -> g_bus g = g_bus g' -> g_type g = g_type g') ->
  gen_which l = gen_which_spec l.
Proof. exact gen_which_eq_spec. Qed.
Print Assumptions C21_gen_which_is_first_row_of_bus.

(* the hypothesis is needed: rows of ONE bus typed 2 then 3 are classified differently by the regrouped computation *)
Theorem C21_gen_which_inconsistent_types_refuted : exists l, gen_which l <> gen_which_spec l.
Proof.
  exists [ {| g_bus := 1; g_type := 2; g_pg := 0; g_vg := 1 |}; {| g_bus := 1; g_type := 3; g_pg := 0; g_vg := 1 |} ].
  vm_compute. discriminate.
Qed.
Print Assumptions C21_gen_which_inconsistent_types_refuted.

(* hence the implementation's own classification creates exactly one ext_grid per slack bus / one gen per PV bus *)
Theorem C21_impl_one_ext_grid_per_slack_bus : forall b l,
  (forall g g', In g l -> In g' l -> g_bus g = g_bus g' -> g_type g = g_type g') ->
  (forall g, In g l -> g_bus g = b -> g_type g = 3%Z) ->
  count_class b 0 l (gen_which l) = if memz b (map g_bus l) then 1%nat else 0%nat.
Proof. exact (fun b l Hc => gen_which_one_per_bus b 3%Z 0%nat l Hc (or_introl (conj eq_refl eq_refl))). Qed.
Print Assumptions C21_impl_one_ext_grid_per_slack_bus.

Theorem C21_impl_one_gen_per_pv_bus : forall b l,
  (forall g g', In g l -> In g' l -> g_bus g = g_bus g' -> g_type g = g_type g') ->
  (forall g, In g l -> g_bus g = b -> g_type g = 2%Z) ->
  count_class b 1 l (gen_which l) = if memz b (map g_bus l) then 1%nat else 0%nat.
Proof. exact (fun b l Hc => gen_which_one_per_bus b 2%Z 1%nat l Hc (or_intror (conj eq_refl eq_refl))). Qed.
Print Assumptions C21_impl_one_gen_per_pv_bus.

(* non-vacuity: 7 rows, buses 5(PQ) 2(PV) 7(slack) 2 7 9(isolated) 3(PV): consistent, several rows per bus, first rows
   not in type order; classes sgen, gen, ext_grid, sgen, sgen, dropped, gen *)
Example C21_gen_which_nonvacuous :
  (forall g g', In g gw_example -> In g' gw_example -> g_bus g = g_bus g' -> g_type g = g_type g') /\
  gen_which gw_example = [2; 1; 0; 2; 2; 3; 1]%nat.
Proof. split; [exact gw_example_consistent | exact gw_example_value]. Qed.

(* the hypotheses of C21_trafo_roundtrip are satisfiable: 110/20 kV, tap ratio 1.1, r+jx = 0.03+0.04j, g+jb = 0.004-0.003j *)
Example C21_trafo_roundtrip_nonvacuous :
  let S := 1 in let fvn := 110 # 1 in let tvn := 20 # 1 in
  let t := fst (from_trafo S fvn tvn (5 # 100) (5 # 1000) (3 # 100) (4 # 100) (-3 # 1000) (4 # 1000) (11 # 10) (150 # 1) (Some (25 # 1))) in
  isclose0 (11 # 10) = false /\
  (0 <= 5 # 100 /\ (5 # 100) * (5 # 100) == (3 # 100) * (3 # 100) + (4 # 100) * (4 # 100)) /\
  (0 <= 5 # 1000 /\ (5 # 1000) * (5 # 1000) == (-3 # 1000) * (-3 # 1000) + (4 # 1000) * (4 # 1000)) /\
  (0 <= 121 # 1 /\ (121 # 1) * (121 # 1) == tap_arg t * tap_arg t) /\
  is_sqrt (4 # 100) (x_arg S tvn (121 # 1) t) /\ is_sqrt (3 # 1000) (b_arg t).
Proof. vm_compute. repeat split; intro H; discriminate H. Qed.
