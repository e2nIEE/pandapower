(* C02 — property theorems; the algebra of the branch two-port they rest on is in C02/Proofs.v, the 3W star and
   tap-changer specifications in C02/Star.v and C02/Tap2.v.
   Model: C02/Model.v = build_branch.py (line, transformer, impedance, xward, switch, trafo3w star equivalent),
   makeYbus.branch_vectors (stamps_core), pfsoln branch flows (flows), results_branch.py, makeBdc.
   Spec side: documented equivalent circuits in physical units (kV, Ohm, S, MVA), see doc/elements/*.rst.
   Ceq2 = component-wise equality of a pair of complex numbers (S_from, S_to). *)
From Coq Require Import ZArith QArith List Bool Lia Lqa Setoid Morphisms.
From PPV Require Import Base.QN Base.QC C31.Model C02.Model C02.Run C02.Proofs
                         C02.Model3w C02.Run3w C02.Star C02.Tap2.
Open Scope Q_scope.

(* the four Ybus stamps of a branch row = ideal transformer with complex ratio n = TAP e^{j SHIFT} on the from side
   in series with the pi two-port (series 1/(r+jx) seen from "from", 1/(r+r_asym + j(x+x_asym)) seen from "to",
   half the charging admittance at each end), for every row, tap, shift and voltages *)
Theorem C02_tap_stamps : forall br e vf vt,
  b_stat br = true ->
  ~ (b_r br) * (b_r br) + (b_x br) * (b_x br) == 0 ->
  ~ (b_r br + b_ra br) * (b_r br + b_ra br) + (b_x br + b_xa br) * (b_x br + b_xa br) == 0 ->
  ~ b_tap br == 0 ->
  re e * re e + im e * im e == 1 ->
  let y := stamps_core br e in
  let '(yff, yft, ytf, ytt) := y in
  Ceq2 (Cadd (Cmul yff vf) (Cmul yft vt), Cadd (Cmul ytf vf) (Cmul ytt vt))
       (twoport_I (Cinv (mkC (b_r br) (b_x br)))
                  (Cinv (mkC (b_r br + b_ra br) (b_x br + b_xa br)))
                  (Cscale (1#2) (mkC (b_g br) (b_b br)))
                  (Cscale (1#2) (mkC (b_g br + b_ga br) (b_b br + b_ba br)))
                  (Cscale (b_tap br) e) vf vt).
Proof. intros br e vf vt Hs _ _ Ht He. exact (stamps_twoport br e vf vt Hs Ht He). Qed.
Print Assumptions C02_tap_stamps.

(* per-unit pipeline = physical circuit, for every branch row: MW/Mvar terminal powers from the per-unit voltages
   equal those of the pi circuit Z = z_pu*base^2/sn [Ohm], Y = y_pu*sn/base^2 [S] behind the ideal transformer on the
   voltages in kV; the system base sn_mva cancels *)
Theorem C02_pu_eq_physical : forall br e vf vt sn base,
  b_stat br = true ->
  ~ (b_r br) * (b_r br) + (b_x br) * (b_x br) == 0 ->
  ~ (b_r br + b_ra br) * (b_r br + b_ra br) + (b_x br + b_xa br) * (b_x br + b_xa br) == 0 ->
  ~ b_tap br == 0 -> re e * re e + im e * im e == 1 -> ~ sn == 0 -> ~ base == 0 ->
  Ceq2 (flows (stamps_core br e) vf vt sn)
       (pi_flows_phys2 (Cscale (base * base / sn) (mkC (b_r br) (b_x br)))
                       (Cscale (base * base / sn) (mkC (b_r br + b_ra br) (b_x br + b_xa br)))
                       (Cscale (1 / (2 * (base * base / sn))) (mkC (b_g br) (b_b br)))
                       (Cscale (1 / (2 * (base * base / sn))) (mkC (b_g br + b_ga br) (b_b br + b_ba br)))
                       (Cscale base (Cdiv vf (Cscale (b_tap br) e))) (Cscale base vt)).
Proof. exact pu_eq_phys. Qed.
Print Assumptions C02_pu_eq_physical.

Theorem C02_stamps_do_not_raise : forall br e,
  ~ (b_r br) * (b_r br) + (b_x br) * (b_x br) == 0 ->
  ~ (b_r br + b_ra br) * (b_r br + b_ra br) + (b_x br + b_xa br) * (b_x br + b_xa br) == 0 ->
  stamps br e = Ok (stamps_core br e).
Proof. exact stamps_ok. Qed.
Print Assumptions C02_stamps_do_not_raise.

(* line: per-km data, length, parallel (and the temperature correction of r) -> documented pi circuit *)
Theorem C02_line_pu_eq_physical : forall sn fhz pi sqrt3 base vnfrom l vf vt,
  l_in l = true -> ~ sn == 0 -> ~ base == 0 -> ~ l_par l == 0 ->
  ~ cnorm2 (line_z_phys l) == 0 ->
  Ceq2 (flows (stamps_core (line_branch sn fhz pi sqrt3 base vnfrom l) C1) vf vt sn)
       (line_flows_phys fhz pi l (Cscale base vf) (Cscale base vt)).
Proof. exact line_pu_eq_physical. Qed.
Print Assumptions C02_line_pu_eq_physical.

(* impedance element: documented z_ft, z_tf, y_f, y_t on the element's own sn_mva *)
Theorem C02_impedance_pu_eq_documented : forall sn i vf vt,
  i_in i = true -> ~ sn == 0 -> ~ i_sn i == 0 ->
  ~ i_rft i * i_rft i + i_xft i * i_xft i == 0 -> ~ i_rtf i * i_rtf i + i_xtf i * i_xtf i == 0 ->
  Ceq2 (flows (stamps_core (impedance_branch sn i) C1) vf vt sn) (imp_doc_flows sn i vf vt).
Proof. intros sn i vf vt Hin Hsn Hi _ _. apply impedance_pu_eq_documented; assumption. Qed.
Print Assumptions C02_impedance_pu_eq_documented.

(* transformer series impedance (doc/elements/trafo.rst: z_k = vk/100 * S_N/sn, r_k = vkr/100 * S_N/sn,
   x_k = sqrt(z_k^2 - r_k^2), scaled by (vn_lv_trafo / V_N,lv-bus)^2, divided by the number of parallel transformers):
   r = vkr/100 * k, r^2 + x^2 = (vk/100 * k)^2, x >= 0 with
   k = (vn_lv,tap-adjusted / V_N)^2 * S_N / sn_trafo / parallel;  o_x is the sqrt oracle with its defining equation *)
Theorem C02_trafo_rx_documented : forall sn t o vnl vnlbus,
  o_x o * o_x o == fst (trafo_zr sn t vnl vnlbus) * fst (trafo_zr sn t vnl vnlbus)
                   - snd (trafo_zr sn t vnl vnlbus) * snd (trafo_zr sn t vnl vnlbus) ->
  0 <= o_x o -> 0 < fst (trafo_zr sn t vnl vnlbus) -> 0 < t_par t -> ~ t_sn t == 0 -> ~ vnlbus == 0 ->
  let k := (vnl / vnlbus) * (vnl / vnlbus) * sn / t_sn t / t_par t in
  let '(r, x) := trafo_rx sn t o vnl vnlbus in
  r == t_vkr t / 100 * k /\ 0 <= x /\ r * r + x * x == (t_vk t / 100 * k) * (t_vk t / 100 * k).
Proof.
  intros sn t o vnl vnlbus. unfold trafo_rx, trafo_zr, qsq. cbn [fst snd].
  set (z := qmul (qdiv (qdiv (t_vk t) 100) (t_sn t)) (qmul (qmul (qdiv vnl vnlbus) (qdiv vnl vnlbus)) sn)).
  set (r := qmul (qdiv (qdiv (t_vkr t) 100) (t_sn t)) (qmul (qmul (qdiv vnl vnlbus) (qdiv vnl vnlbus)) sn)).
  intros Hx Hx0 Hz Hp Hsn Hv.
  assert (Hs : qsign z = 1) by (unfold qsign; destruct (qltb 0 z) eqn:E; [reflexivity | apply qltb_ge in E; exfalso; apply (Qlt_not_le _ _ Hz E)]).
  rewrite Hs.
  assert (Hp' : ~ t_par t == 0) by (intro K; rewrite K in Hp; apply (Qlt_irrefl 0 Hp)).
  assert (Ez : z == t_vk t / 100 / t_sn t * (vnl / vnlbus * (vnl / vnlbus) * sn)) by (unfold z; qstrip; reflexivity).
  assert (Er : r == t_vkr t / 100 / t_sn t * (vnl / vnlbus * (vnl / vnlbus) * sn)) by (unfold r; qstrip; reflexivity).
  repeat split.
  - qstrip. rewrite Er. field. repeat split; assumption.
  - qstrip. rewrite Qmult_1_l. apply Qle_shift_div_l; [exact Hp | rewrite Qmult_0_l; exact Hx0].
  - qstrip. rewrite Qmult_1_l.
    transitivity ((r * r + o_x o * o_x o) / (t_par t * t_par t)); [field; exact Hp'|].
    rewrite Hx. transitivity (z * z / (t_par t * t_par t)); [field; exact Hp'|].
    rewrite Ez. field. repeat split; assumption.
Qed.
Print Assumptions C02_trafo_rx_documented.

(* magnetising admittance: y_m = i0/100, g_m = pfe_kw/(sn_mva 1000), b_m = -sqrt(y_m^2 - g_m^2) relative to the
   transformer rating; in physical units referred to the (tap-adjusted) LV rated voltage vnl:
   G = pfe_mw * parallel / vnl^2 [S],  |Y| = i0/100 * sn_trafo * parallel / vnl^2,  b <= 0 (inductive);  per unit on
   baseZ = V_N^2/S_N *)
Theorem C02_trafo_gb_documented : forall sn t o vnl vnlbus,
  o_bm o * o_bm o == trafo_ym2 t -> 0 <= o_bm o ->
  ~ sn == 0 -> ~ vnl == 0 -> ~ t_vnl0 t == 0 ->
  let baseZ := vnlbus * vnlbus / sn in
  let '(g, b) := trafo_gb sn t o vnl vnlbus in
  g == t_pfe t / 1000 * t_par t / (vnl * vnl) * baseZ /\
  g * g + b * b == (t_i0 t / 100 * t_sn t * t_par t / (vnl * vnl) * baseZ) * (t_i0 t / 100 * t_sn t * t_par t / (vnl * vnl) * baseZ) /\
  (0 <= t_par t -> 0 < sn -> b <= 0).
Proof.
  intros sn t o vnl vnlbus Hb Hb0 Hsn Hv Hv0 baseZ. unfold trafo_gb, qsq.
  unfold trafo_ym2, qsq in Hb.
  assert (Hb' : o_bm o * o_bm o == (t_i0 t / 100 * t_sn t) * (t_i0 t / 100 * t_sn t) - (t_pfe t * (1 # 1000)) * (t_pfe t * (1 # 1000))).
  { rewrite Hb. qstrip. reflexivity. }
  repeat split.
  - qstrip. unfold baseZ. field. repeat split; assumption.
  - qstrip.
    transitivity (((t_pfe t * (1 # 1000)) * (t_pfe t * (1 # 1000)) + o_bm o * o_bm o) *
                  ((t_par t / (vnl * vnl) * baseZ) * (t_par t / (vnl * vnl) * baseZ))).
    { unfold baseZ. field. repeat split; assumption. }
    rewrite Hb'. unfold baseZ. field. repeat split; assumption.
  - intros Hp Hs. qstrip.
    assert (Hd : 0 < sn * (vnl * vnl)) by (apply Qmult_lt_0_compat; [exact Hs | nra]).
    assert (E : - o_bm o / (t_vnl0 t * t_vnl0 t) * (vnlbus * vnlbus / sn) * t_par t / (vnl / t_vnl0 t * (vnl / t_vnl0 t))
                == - (o_bm o * t_par t * (vnlbus * vnlbus) / (sn * (vnl * vnl)))) by (field; repeat split; assumption).
    rewrite E. apply (Qopp_le_compat 0). apply Qle_shift_div_l; [exact Hd|]. rewrite Qmult_0_l.
    apply Qmult_le_0_compat; [apply Qmult_le_0_compat; assumption | nra].
Qed.
Print Assumptions C02_trafo_gb_documented.

(* T model: the pi parameters of _wye_delta carry the same terminal currents as the T circuit
   (za = r*rr + j x*xr, zb = r(1-rr) + j x(1-xr), magnetising branch at the star point) for all voltages *)
Theorem C02_wye_delta_two_port : forall r x g b rr xr vf vt,
  let za := wd_za r x rr xr in let zb := wd_zb r x rr xr in let yc := mkC g b in
  ~ za ==c C0 -> ~ zb ==c C0 -> ~ yc ==c C0 ->
  ~ Cadd (Cadd za zb) (Cmul (Cmul za zb) yc) ==c C0 ->
  let '(r', x', g', b', ga, ba) := wye_delta_core r x g b rr xr in
  Ceq2 (pi_circuit_I r' x' g' b' ga ba vf vt) (t_circuit_I za zb yc vf vt).
Proof. exact wye_delta_two_port. Qed.
Print Assumptions C02_wye_delta_two_port.

(* T-model transformer end to end: row with the _wye_delta parameters -> makeYbus stamps -> pfsoln flows =
   S_N v conj(i) of the documented T circuit behind the ideal transformer TAP e^{j SHIFT}, for all voltages *)
Theorem C02_t_model_row_flows : forall br e vf vt sn r x g b rr xr,
  b_stat br = true -> b_ra br == 0 -> b_xa br == 0 ->
  ~ (b_r br) * (b_r br) + (b_x br) * (b_x br) == 0 -> ~ b_tap br == 0 -> re e * re e + im e * im e == 1 ->
  (b_r br, b_x br, b_g br, b_b br, b_ga br, b_ba br) = wye_delta_core r x g b rr xr ->
  let za := wd_za r x rr xr in let zb := wd_zb r x rr xr in let yc := mkC g b in
  ~ za ==c C0 -> ~ zb ==c C0 -> ~ yc ==c C0 -> ~ Cadd (Cadd za zb) (Cmul (Cmul za zb) yc) ==c C0 ->
  let vf' := Cdiv vf (Cscale (b_tap br) e) in
  let i := t_circuit_I za zb yc vf' vt in
  Ceq2 (flows (stamps_core br e) vf vt sn)
       (Cscale sn (Cmul vf' (Cconj (fst i))), Cscale sn (Cmul vt (Cconj (snd i)))).
Proof. exact t_model_row_flows. Qed.
Print Assumptions C02_t_model_row_flows.
Theorem C02_flows_pi_circuit : forall br e vf vt sn,
  b_stat br = true -> b_ra br == 0 -> b_xa br == 0 ->
  ~ (b_r br) * (b_r br) + (b_x br) * (b_x br) == 0 -> ~ b_tap br == 0 -> re e * re e + im e * im e == 1 ->
  let vf' := Cdiv vf (Cscale (b_tap br) e) in
  let i := pi_circuit_I (b_r br) (b_x br) (b_g br) (b_b br) (b_ga br) (b_ba br) vf' vt in
  Ceq2 (flows (stamps_core br e) vf vt sn)
       (Cscale sn (Cmul vf' (Cconj (fst i))), Cscale sn (Cmul vt (Cconj (snd i)))).
Proof. intros br e vf vt sn Hs Hra Hxa _. apply flows_pi_circuit; assumption. Qed.
Print Assumptions C02_flows_pi_circuit.

(* tap changer: with the sqrt / arctan oracles satisfying their defining equations, the adjusted rated voltage and
   the added angle are modulus and argument of u1 * (1 + diff*pct/100 * e^{+-j phi}) (X + jY below) *)
Theorem C02_tap_polar_documented : forall X Y vn ca sa,
  vn * vn == X * X + Y * Y -> ca * ca + sa * sa == 1 -> sa * X == ca * Y ->
  0 < X -> 0 < vn -> 0 < ca ->
  vn * ca == X /\ vn * sa == Y.
Proof. exact tap_polar_documented. Qed.
Print Assumptions C02_tap_polar_documented.
Theorem C02_tap_ratio_hv : forall tc o vnh vnl shift,
  tc_side tc = HV -> (tc_type tc = Ratio \/ tc_type tc = Symmetrical) ->
  tap_notable tc o vnh vnl shift = Ok (o_vn o, vnl, Some (qadd shift (o_atan o))).
Proof. intros tc o vnh vnl shift Hs [Ht|Ht]; unfold tap_notable; rewrite Hs, Ht; reflexivity. Qed.
Print Assumptions C02_tap_ratio_hv.
Theorem C02_tap_ratio_lv : forall tc o vnh vnl shift,
  tc_side tc = LV -> (tc_type tc = Ratio \/ tc_type tc = Symmetrical) ->
  tap_notable tc o vnh vnl shift = Ok (vnh, o_vn o, Some (qadd shift (o_atan o))).
Proof. intros tc o vnh vnl shift Hs [Ht|Ht]; unfold tap_notable; rewrite Hs, Ht; reflexivity. Qed.
Print Assumptions C02_tap_ratio_lv.

(* trafo3w tap changer at the star point: NaN tap_step_degree = 0 degree (repaired), the step is applied;
   the pre-repair rule dropped the tap changer (regression witness) *)
Theorem C02_star_tap_nan_degree_is_zero : forall x blk, x_deg x = None ->
  tap3_block x blk =
  tap3_block {| x_side := x_side x; x_star := x_star x; x_type := x_type x; x_pos := x_pos x; x_neutral := x_neutral x;
                x_pct := x_pct x; x_deg := if x_star x then Some 0 else None |} blk.
Proof.
  intros x blk H. unfold tap3_block, tap3_block_gen. cbn [x_side x_star x_type x_pos x_neutral x_pct x_deg].
  rewrite H. destruct (x_star x); reflexivity.
Qed.
Print Assumptions C02_star_tap_nan_degree_is_zero.
Theorem C02_old_star_tap_refuted :
  exists x blk p, x_side x = blk /\ x_star x = true /\ x_pct x = Some p /\ ~ p == 0 /\ x_pos x = Some 2 /\ x_neutral x = Some 0 /\
                  tc_pct (tap3_block_old x blk) = None /\ tc_pct (tap3_block x blk) <> None.
Proof.
  exists {| x_side := 0; x_star := true; x_type := Ratio; x_pos := Some 2; x_neutral := Some 0; x_pct := Some (3 # 2); x_deg := None |}, 0%nat, (3 # 2).
  repeat split; try reflexivity; try discriminate.
Qed.
Print Assumptions C02_old_star_tap_refuted.

(* branch current: i_ka * sqrt(3) * |U| = |S| *)
Theorem C02_i_ka_sq : forall s p q vm basekv sqrt3,
  sqrt3 * sqrt3 == 3 -> s * s == p * p + q * q -> ~ vm * basekv == 0 ->
  3 * (i_ka s vm basekv sqrt3 * i_ka s vm basekv sqrt3) * ((vm * basekv) * (vm * basekv)) == p * p + q * q.
Proof. exact i_ka_sq. Qed.
Print Assumptions C02_i_ka_sq.
Theorem C02_line_loading : forall ifrom ito l v,
  fst (line_loading ifrom ito l) = Some v ->
  v * (l_maxi l * l_df l * l_par l) == 100 * qmax ifrom ito /\ snd (line_loading ifrom ito l) = qmax ifrom ito.
Proof.
  intros ifrom ito l v. unfold line_loading. cbn [fst snd].
  destruct (qeqb (qmul (qmul (l_maxi l) (l_df l)) (l_par l)) 0) eqn:E; [discriminate|].
  intros H. injection H as <-. split; [|reflexivity].
  assert (Hn : ~ l_maxi l * l_df l * l_par l == 0).
  { intro K. assert (K' : qeqb (qmul (qmul (l_maxi l) (l_df l)) (l_par l)) 0 = true).
    { apply qeqb_eq. qstrip. exact K. } rewrite K' in E. discriminate. }
  qstrip. field. repeat split; intro K; apply Hn; rewrite K; ring.
Qed.
Print Assumptions C02_line_loading.

(* DC model: p_from = -p_to = S_N (theta_f - theta_t - shift) / (x tap) *)
Theorem C02_dc_model : forall br shift pi vaf vat sn b,
  b_stat br = true -> ~ b_x br == 0 -> ~ b_tap br == 0 -> dc_b br = Ok b ->
  fst (dc_flow b shift pi vaf vat sn) == sn * ((vaf - vat) - shift * pi / 180) / (b_x br * b_tap br)
  /\ fst (dc_flow b shift pi vaf vat sn) + snd (dc_flow b shift pi vaf vat sn) == 0.
Proof.
  intros br shift pi vaf vat sn b Hs Hx Ht. unfold dc_b. rewrite (qeqb_ne _ _ Hx), (qeqb_ne _ _ Ht), Hs.
  intros H. injection H as <-. split; [|apply dc_lossless].
  unfold dc_flow. cbn [fst]. qstrip. field. split; assumption.
Qed.
Print Assumptions C02_dc_model.

(* non-vacuity: a concrete line (r' = 1/4, x' = 1/2 Ohm/km, 2 km, 20 kV, sn = 1) satisfies the hypotheses *)
Example C02_nonvacuous :
  let l := {| l_r := 1 # 4; l_x := 1 # 2; l_c := 10; l_g := 0; l_len := 2; l_par := 1; l_in := true;
              l_maxload := Some 100; l_maxi := 1 # 2; l_df := 1; l_temp := None |} in
  ~ cnorm2 (line_z_phys l) == 0 /\
  stamps (line_branch 1 50 (355 # 113) (19 # 11) 20 20 l) C1 = Ok (stamps_core (line_branch 1 50 (355 # 113) (19 # 11) 20 20 l) C1).
Proof. split; [vm_compute; discriminate | vm_compute; reflexivity]. Qed.
Print Assumptions C02_nonvacuous.

(* three-winding transformer: star equivalent
   (_calculate_sc_voltages_of_equivalent_transformers, _trafo_df_from_trafo3w, _get_trafo3w_results)

   The three equivalent 2W transformers, pushed through the unchanged 2W pipeline (trafo_rx), form a star whose
   impedances reproduce the documented pairwise short-circuit data (doc/elements/trafo3w.rst): with
   sc_pair v smin sn = v/100 * sn/smin (short-circuit voltage v percent relative to the smaller rating of the pair, on the
   system base) and star_r / star_x the per-unit r / x of a block at nominal ratio,
     r_h + r_m = sc_pair vkr_hv min(s_h, s_m),  r_m + r_l = sc_pair vkr_mv min(s_m, s_l),  r_h + r_l = sc_pair vkr_lv min(s_h, s_l)
     x_pair >= 0 and r_pair^2 + x_pair^2 = (sc_pair vk_pair)^2 for the three pairs
   (real and imaginary part separately; a single star x may be negative, its sign survives the sign(vki)*sqrt(.) coding
   of vk_percent).  All square roots are oracle inputs constrained by their defining equations and signs
   (t3_orc_ok, x_orc_ok; validated by the correspondence run through the residuals t3_resids / trafo_resid). *)
Theorem C02_t3_star_pairwise : forall sn w o3 vk2 vkr2 oh om ol vh bh vm bm vl bl,
  t3_vk w o3 = Ok (vk2, vkr2) -> t3_orc_ok w o3 ->
  x_orc_ok sn (t3_trafo w vk2 vkr2 0) oh vh bh -> x_orc_ok sn (t3_trafo w vk2 vkr2 1) om vm bm ->
  x_orc_ok sn (t3_trafo w vk2 vkr2 2) ol vl bl ->
  0 < sn -> 0 < pick 0 (w_sn w) -> 0 < pick 1 (w_sn w) -> 0 < pick 2 (w_sn w) ->
  ~ vh == 0 -> ~ bh == 0 -> ~ vm == 0 -> ~ bm == 0 -> ~ vl == 0 -> ~ bl == 0 ->
  let '(s0, s1, s2) := w_sn w in
  let '(vk_hm, vk_ml, vk_hl) := w_vk w in let '(vkr_hm, vkr_ml, vkr_hl) := w_vkr w in
  let rh := star_r sn w vk2 vkr2 0 oh vh bh in let xh := star_x sn w vk2 vkr2 0 oh vh bh in
  let rm := star_r sn w vk2 vkr2 1 om vm bm in let xm := star_x sn w vk2 vkr2 1 om vm bm in
  let rl := star_r sn w vk2 vkr2 2 ol vl bl in let xl := star_x sn w vk2 vkr2 2 ol vl bl in
  (rh + rm == sc_pair vkr_hm (qmin2 s0 s1) sn /\ rm + rl == sc_pair vkr_ml (qmin2 s1 s2) sn /\ rh + rl == sc_pair vkr_hl (qmin2 s0 s2) sn) /\
  (0 <= xh + xm /\ (rh + rm) * (rh + rm) + (xh + xm) * (xh + xm) == sc_pair vk_hm (qmin2 s0 s1) sn * sc_pair vk_hm (qmin2 s0 s1) sn) /\
  (0 <= xm + xl /\ (rm + rl) * (rm + rl) + (xm + xl) * (xm + xl) == sc_pair vk_ml (qmin2 s1 s2) sn * sc_pair vk_ml (qmin2 s1 s2) sn) /\
  (0 <= xh + xl /\ (rh + rl) * (rh + rl) + (xh + xl) * (xh + xl) == sc_pair vk_hl (qmin2 s0 s2) sn * sc_pair vk_hl (qmin2 s0 s2) sn).
Proof.
  intros sn w o3 vk2 vkr2 oh om ol vh bh vm bm vl bl Hvk Horc Hoh Hom Hol Hsn H0 H1 H2 Hvh Hbh Hvm Hbm Hvl Hbl.
  destruct (star_block sn w o3 vk2 vkr2 0 oh vh bh) as [Rh Xh]; try assumption; [lia|].
  destruct (star_block sn w o3 vk2 vkr2 1 om vm bm) as [Rm Xm]; try assumption; [lia|].
  destruct (star_block sn w o3 vk2 vkr2 2 ol vl bl) as [Rl Xl]; try assumption; [lia|].
  clear Hoh Hom Hol Hvk. unfold t3_orc_ok, t3_vk_delta, z_br_to_bus in *.
  destruct (w_sn w) as [[s0 s1] s2]. destruct (w_vk w) as [[k0 k1] k2]. destruct (w_vkr w) as [[q0 q1] q2].
  destruct (o_vki_d o3) as [[i0 i1] i2]. cbn [pick] in *.
  pose proof (pos_nz _ H0) as H0'. pose proof (pos_nz _ H1) as H1'. pose proof (pos_nz _ H2) as H2'.
  assert (H100 : ~ 100 == 0) by discriminate.
  (* the star values of the three blocks add up pairwise to the delta values *)
  set (ar := qmul s0 (qdiv q0 (qmin2 s0 s1))) in *. set (br := qmul s0 (qdiv q1 (qmin2 s1 s2))) in *. set (cr := qmul s0 (qdiv q2 (qmin2 s0 s2))) in *.
  pose proof (wye_delta_vec_sums ar br cr s0 s1 s2 100 sn H0' H1' H2' H100) as WR.
  pose proof (wye_delta_vec_sums i0 i1 i2 s0 s1 s2 100 sn H0' H1' H2' H100) as WI.
  destruct (wye_delta_vec (ar, br, cr) (s0, s1, s2)) as [[r0 r1] r2]. destruct (wye_delta_vec (i0, i1, i2) (s0, s1, s2)) as [[j0 j1] j2].
  destruct (o_vk2 o3) as [[kk0 kk1] kk2]. cbn [pick] in *.
  destruct Horc as ([Hi0 Hi0s] & [Hi1 Hi1s] & [Hi2 Hi2s] & _).
  destruct WR as (S01r & S12r & S02r). destruct WI as (S01x & S12x & S02x).
  rewrite <- Rh, <- Rm in S01r. rewrite <- Rm, <- Rl in S12r. rewrite <- Rh, <- Rl in S02r.
  rewrite <- Xh, <- Xm in S01x. rewrite <- Xm, <- Xl in S12x. rewrite <- Xh, <- Xl in S02x.
  pose proof (star_pair _ _ _ _ _ _ _ _ _ _ H0 Hsn (pos_nz _ (qmin2_pos _ _ H0 H1)) Hi0 Hi0s S01r S01x) as [R01 M01].
  pose proof (star_pair _ _ _ _ _ _ _ _ _ _ H0 Hsn (pos_nz _ (qmin2_pos _ _ H1 H2)) Hi1 Hi1s S12r S12x) as [R12 M12].
  pose proof (star_pair _ _ _ _ _ _ _ _ _ _ H0 Hsn (pos_nz _ (qmin2_pos _ _ H0 H2)) Hi2 Hi2s S02r S02x) as [R02 M02].
  exact (conj (conj R01 (conj R12 R02)) (conj M01 (conj M12 M02))).
Qed.
Print Assumptions C02_t3_star_pairwise.

(* one equivalent transformer whose vk_percent carries a sign (vk = sign(vki) sqrt(vki^2 + vkr^2)):
   r + jx = (vkr + j vki)/100 * k with the documented factor k *)
Theorem C02_trafo_rx_signed : forall sn t o vnl vnlbus vki K,
  t_vk t == qsign vki * K -> 0 <= K -> K * K == vki * vki + t_vkr t * t_vkr t -> ~ t_vk t == 0 ->
  o_x o * o_x o == fst (trafo_zr sn t vnl vnlbus) * fst (trafo_zr sn t vnl vnlbus)
                   - snd (trafo_zr sn t vnl vnlbus) * snd (trafo_zr sn t vnl vnlbus) ->
  0 <= o_x o -> 0 < sn -> 0 < t_sn t -> 0 < t_par t -> ~ vnl == 0 -> ~ vnlbus == 0 ->
  let k := (vnl / vnlbus) * (vnl / vnlbus) * sn / t_sn t / t_par t in
  fst (trafo_rx sn t o vnl vnlbus) == t_vkr t / 100 * k /\ snd (trafo_rx sn t o vnl vnlbus) == vki / 100 * k.
Proof. exact trafo_rx_signed. Qed.
Print Assumptions C02_trafo_rx_signed.

(* loss side: pfe_kw / i0_percent sit on the equivalent transformer of the loss side only (none for "star"); every
   other block has zero magnetising admittance *)
Theorem C02_t3_loss_side : forall w vk2 vkr2 blk,
  (t_pfe (t3_trafo w vk2 vkr2 blk), t_i0 (t3_trafo w vk2 vkr2 blk)) =
  if Nat.eqb (w_loss w) blk then (w_pfe w, w_i0 w) else (0, 0).
Proof. intros. unfold t3_trafo. cbn [t_pfe t_i0]. destruct (Nat.eqb (w_loss w) blk); reflexivity. Qed.
Print Assumptions C02_t3_loss_side.
Theorem C02_t3_other_blocks_no_shunt : forall sn w vk2 vkr2 blk o vnl vnlbus,
  w_loss w <> blk -> o_bm o * o_bm o == qmax (trafo_ym2 (t3_trafo w vk2 vkr2 blk)) 0 ->
  fst (trafo_gb sn (t3_trafo w vk2 vkr2 blk) o vnl vnlbus) == 0 /\ snd (trafo_gb sn (t3_trafo w vk2 vkr2 blk) o vnl vnlbus) == 0.
Proof. intros. apply t3_other_blocks_no_shunt; [assumption | eapply t3_other_blocks_bm_zero; eassumption]. Qed.
Print Assumptions C02_t3_other_blocks_no_shunt.

(* the result columns p/q_hv, p/q_mv, p/q_lv, pl/ql of res_trafo3w (stamps + pfsoln + _get_trafo3w_results on the three
   rows) are the terminal powers of the star circuit star_S — block h from the hv terminal (ideal transformer at the
   terminal) to the star point, blocks m / l from the star point (ideal transformers at the star side) to the mv / lv
   terminals, each a pi two-port (row_I: series z, half shunts at both ends) — for all voltages and for pi- and T-model
   rows alike; pl + j ql is their sum.  For a T-model block the currents row_I are those of the T circuit
   (C02_t3_block_t_model). *)
Theorem C02_t3_results_star : forall rh rm rl eh em el vh va vm vl sn,
  row_sym_ok rh eh -> row_sym_ok rm em -> row_sym_ok rl el ->
  let res := t3_results (flows (stamps_core rh eh) vh va sn) (flows (stamps_core rm em) va vm sn)
                        (flows (stamps_core rl el) va vl sn) in
  let '(Sh, Sm, Sl) := star_S sn rh rm rl eh em el vh va vm vl in
  r3_hv res ==c Sh /\ r3_mv res ==c Sm /\ r3_lv res ==c Sl /\ r3_loss res ==c Cadd (Cadd Sh Sm) Sl.
Proof.
  intros rh rm rl eh em el vh va vm vl sn Hh Hm Hl.
  destruct (blk_flows rh eh vh va sn Hh) as [A _]. destruct (blk_flows rm em va vm sn Hm) as [_ B].
  destruct (blk_flows rl el va vl sn Hl) as [_ D]. cbn [fst snd] in A, B, D. cbn zeta in *.
  unfold t3_results, star_S. cbn [r3_hv r3_mv r3_lv r3_loss].
  repeat split; try (apply A); try (apply B); try (apply D); cbn [re im Cadd]; qnorm.
  - destruct A as [A1 _], B as [B1 _], D as [D1 _]. rewrite A1, B1, D1. reflexivity.
  - destruct A as [_ A1], B as [_ B1], D as [_ D1]. rewrite A1, B1, D1. reflexivity.
Qed.
Print Assumptions C02_t3_results_star.
Theorem C02_t3_block_t_model : forall br e vf vt r x g b rr xr,
  (b_r br, b_x br, b_g br, b_b br, b_ga br, b_ba br) = wye_delta_core r x g b rr xr ->
  let za := wd_za r x rr xr in let zb := wd_zb r x rr xr in let yc := mkC g b in
  ~ za ==c C0 -> ~ zb ==c C0 -> ~ yc ==c C0 -> ~ Cadd (Cadd za zb) (Cmul (Cmul za zb) yc) ==c C0 ->
  Ceq2 (row_I br e vf vt) (t_circuit_I za zb yc (Cdiv vf (Cscale (b_tap br) e)) vt).
Proof.
  intros br e vf vt r x g b rr xr Hrow za zb yc Ha Hb Hc Hd.
  pose proof (wye_delta_two_port r x g b rr xr (Cdiv vf (Cscale (b_tap br) e)) vt Ha Hb Hc Hd) as W.
  rewrite <- Hrow in W. exact W.
Qed.
Print Assumptions C02_t3_block_t_model.
(* with Kirchhoff's current law at the star point (the auxiliary bus has no injection; the solution is an oracle input)
   the reported losses are the sum of the losses of the three star branches; the loss of a series-only block is sn |i|^2 z *)
Theorem C02_t3_losses_star : forall fh fm fl : C * C,
  Cadd (Cadd (snd fh) (fst fm)) (fst fl) ==c C0 ->
  r3_loss (t3_results fh fm fl) ==c Cadd (Cadd (pl (fst fh) (snd fh)) (pl (fst fm) (snd fm))) (pl (fst fl) (snd fl)).
Proof.
  intros [[ar ai] [br bi]] [[cr ci] [dr di]] [[er ei] [fr fi]]. cbn [fst snd]. intros [K1 K2].
  unfold t3_results, pl. cbn [r3_loss]. revert K1 K2. cunfold. intros K1 K2.
  assert (K : br + cr + er == 0) by (rewrite <- K1; qstrip; reflexivity).
  assert (K' : bi + ci + ei == 0) by (rewrite <- K2; qstrip; reflexivity).
  split; qstrip; lra.
Qed.
Print Assumptions C02_t3_losses_star.
Theorem C02_blk_series_loss : forall z n vf vt sn, ~ z ==c C0 ->
  let i := blk_I z C0 C0 n vf vt in
  Cadd (Cscale sn (Cmul (Cdiv vf n) (Cconj (fst i)))) (Cscale sn (Cmul vt (Cconj (snd i))))
  ==c Cscale (sn * cnorm2 (fst i)) z.
Proof.
  intros [zr zi] n vf vt sn Hz. apply Cnz_norm in Hz. cbn [re im] in Hz. cbn zeta. unfold blk_I. cbn [fst snd].
  set (u := Cdiv vf n). destruct u as [ur ui]. destruct vt as [tr ti].
  cstrip; field; exact Hz.
Qed.
Print Assumptions C02_blk_series_loss.

(* second tap changer (tap2_* columns)
   tap_second = pass "2" of the loop in _calc_tap_from_dataframe.  For well-formed tap changers of any kind on any side
   the composition is the documented rule step_doc applied twice, the second time to the state left by the first:
   a Ratio / Symmetrical step multiplies the rated-voltage phasor of its side by n_tap = 1 + steps e^{+-j phi}
   (u' (ca + j sa) = u n_tap, shift' = shift + angle), an ideal phase shifter adds diff*tap_step_degree or the arcsin
   angle, no tap side / unknown type leaves the state alone *)
Theorem C02_tap2_composition : forall tc1 o1 ca1 sa1 tc2 o2 ca2 sa2 vnh vnl sh,
  tap_wf tc1 -> tap_wf tc2 ->
  exists vnh1 vnl1 sh1 vnh2 vnl2 sh2,
    tap_notable tc1 o1 vnh vnl sh = Ok (vnh1, vnl1, Some sh1) /\
    tap_second (tap_notable tc1 o1 vnh vnl sh) tc2 o2 = Ok (vnh2, vnl2, Some sh2) /\
    (orc_ok tc1 o1 ca1 sa1 vnh vnl -> step_doc tc1 o1 ca1 sa1 (vnh, vnl, sh) (vnh1, vnl1, sh1)) /\
    (orc_ok tc2 o2 ca2 sa2 vnh1 vnl1 -> step_doc tc2 o2 ca2 sa2 (vnh1, vnl1, sh1) (vnh2, vnl2, sh2)).
Proof.
  intros tc1 o1 ca1 sa1 tc2 o2 ca2 sa2 vnh vnl sh W1 W2.
  destruct (step_sound tc1 o1 ca1 sa1 vnh vnl sh W1) as (vnh1 & vnl1 & sh1 & E1 & D1).
  destruct (step_sound tc2 o2 ca2 sa2 vnh1 vnl1 sh1 W2) as (vnh2 & vnl2 & sh2 & E2 & D2).
  exists vnh1, vnl1, sh1, vnh2, vnl2, sh2. rewrite E1. unfold tap_second, bind. rewrite E2. repeat split; assumption.
Qed.
Print Assumptions C02_tap2_composition.
(* two Ratio / Symmetrical changers on the hv side: vn_hv e^{j(a1+a2)} = vn_hv0 * n_tap1 * n_tap2 *)
Theorem C02_tap2_same_side_product : forall tc1 o1 ca1 sa1 tc2 o2 ca2 sa2 vnh vnl sh,
  tc_side tc1 = HV -> tc_side tc2 = HV ->
  (tc_type tc1 = Ratio \/ tc_type tc1 = Symmetrical) -> (tc_type tc2 = Ratio \/ tc_type tc2 = Symmetrical) ->
  orc_ok tc1 o1 ca1 sa1 vnh vnl -> orc_ok tc2 o2 ca2 sa2 (o_vn o1) vnl ->
  tap_second (tap_notable tc1 o1 vnh vnl sh) tc2 o2 = Ok (o_vn o2, vnl, Some (qadd (qadd sh (o_atan o1)) (o_atan o2))) /\
  Cscale (o_vn o2) (Cmul (mkC ca1 sa1) (mkC ca2 sa2))
    ==c Cscale vnh (Cmul (tap_n tc1 (o_c o1) (o_s o1)) (tap_n tc2 (o_c o2) (o_s o2))).
Proof.
  intros tc1 o1 ca1 sa1 tc2 o2 ca2 sa2 vnh vnl sh S1 S2 T1 T2 O1 O2.
  rewrite (C02_tap_ratio_hv tc1 o1 vnh vnl sh S1 T1). unfold tap_second, bind.
  rewrite (C02_tap_ratio_hv tc2 o2 (o_vn o1) vnl _ S2 T2). split; [reflexivity|].
  unfold orc_ok in O1, O2. rewrite S1 in O1. rewrite S2 in O2.
  destruct O1 as (Hv & Hu & Ht & HX & Hvn & Hca).
  destruct (tap_polar_documented _ _ _ _ _ Hv Hu Ht HX Hvn Hca) as [E1 E2].
  destruct O2 as (Hv2 & Hu2 & Ht2 & HX2 & Hvn2 & Hca2).
  destruct (tap_polar_documented _ _ _ _ _ Hv2 Hu2 Ht2 HX2 Hvn2 Hca2) as [F1 F2].
  set (n1 := tap_n tc1 (o_c o1) (o_s o1)) in *. set (n2 := tap_n tc2 (o_c o2) (o_s o2)) in *.
  destruct n1 as [n1r n1i]. destruct n2 as [n2r n2i]. cbn [re im] in *.
  cstrip.
  - transitivity ((o_vn o2 * ca2) * ca1 - (o_vn o2 * sa2) * sa1); [ring|]. rewrite F1, F2.
    transitivity ((o_vn o1 * ca1) * n2r - (o_vn o1 * sa1) * n2i); [ring|]. rewrite E1, E2. ring.
  - transitivity ((o_vn o2 * sa2) * ca1 + (o_vn o2 * ca2) * sa1); [ring|]. rewrite F1, F2.
    transitivity ((o_vn o1 * ca1) * n2i + (o_vn o1 * sa1) * n2r); [ring|]. rewrite E1, E2. ring.
Qed.
Print Assumptions C02_tap2_same_side_product.
Theorem C02_tap2_errors_pass : forall e vnh vnl tc2 o2,
  tap_second (Raise e) tc2 o2 = Raise e /\ tap_second (Ok (vnh, vnl, None)) tc2 o2 = Ok (vnh, vnl, None).
Proof. intros. split; reflexivity. Qed.
Print Assumptions C02_tap2_errors_pass.

(* non-vacuity of the hypotheses *)
(* 3W transformer 40/40/40 MVA, vk = 5 %, vkr = 3 % for all pairs: vki_delta = 4, star vkr = 3/2, vki = 2, vk = 5/2;
   the sqrt oracle of each block on the system base 1 MVA at nominal ratio is 2/100/40 = 1/2000 *)
Definition ex_w : trafo3w :=
  {| w_vn := (110, 20, 10); w_sn := (40, 40, 40); w_vk := (5, 5, 5); w_vkr := (3, 3, 3); w_pfe := 30; w_i0 := 1 # 10;
     w_shift := (0, 0); w_in := true; w_maxload := Some 100; w_loss := 0 |}.
Definition ex_o3 : t3_orc := {| o_vki_d := (4, 4, 4); o_vk2 := (5 # 2, 5 # 2, 5 # 2) |}.
Definition ex_ox : trafo_orc := {| o_x := 1 # 2000; o_bm := 0 |}.
Example C02_t3_star_nonvacuous :
  t3_vk ex_w ex_o3 = Ok ((5 # 2, 5 # 2, 5 # 2), (3 # 2, 3 # 2, 3 # 2)) /\ t3_orc_ok ex_w ex_o3 /\
  x_orc_ok 1 (t3_trafo ex_w (5 # 2, 5 # 2, 5 # 2) (3 # 2, 3 # 2, 3 # 2) 0) ex_ox 110 110 /\
  x_orc_ok 1 (t3_trafo ex_w (5 # 2, 5 # 2, 5 # 2) (3 # 2, 3 # 2, 3 # 2) 1) ex_ox 20 20 /\
  x_orc_ok 1 (t3_trafo ex_w (5 # 2, 5 # 2, 5 # 2) (3 # 2, 3 # 2, 3 # 2) 2) ex_ox 10 10 /\
  star_r 1 ex_w (5 # 2, 5 # 2, 5 # 2) (3 # 2, 3 # 2, 3 # 2) 0 ex_ox 110 110
    + star_r 1 ex_w (5 # 2, 5 # 2, 5 # 2) (3 # 2, 3 # 2, 3 # 2) 1 ex_ox 20 20 == sc_pair 3 40 1.
Proof.
  split; [vm_compute; reflexivity|]. split; [vm_compute; repeat split; try discriminate|].
  repeat split; vm_compute; try reflexivity; discriminate.
Qed.
Print Assumptions C02_t3_star_nonvacuous.
Example C02_t3_results_nonvacuous :
  let r := mkB (1 # 100) (1 # 10) 0 0 0 0 0 0 1 0 true 100 in
  row_sym_ok r C1 /\ ~ r3_loss (t3_results (flows (stamps_core r C1) (mkC (21 # 20) 0) C1 1) (flows (stamps_core r C1) C1 (mkC (19 # 20) 0) 1)
                                            (flows (stamps_core r C1) C1 (mkC (9 # 10) (-1 # 20)) 1)) ==c C0.
Proof.
  split; [repeat split; try reflexivity; vm_compute; discriminate | vm_compute; intros [H _]; discriminate H].
Qed.
Print Assumptions C02_t3_results_nonvacuous.
(* two tap changers on the hv side: Symmetrical 90 degree, 3 steps of 25 % (n = 1 + 3/4 j, |n| = 5/4) then Ratio, -1 step of 2 % *)
Definition ex_tc1 : tapc := {| tc_side := HV; tc_type := Symmetrical; tc_diff := Some 3; tc_pct := Some 25; tc_deg := Some 90 |}.
Definition ex_tc2 : tapc := {| tc_side := HV; tc_type := Ratio; tc_diff := Some (-1); tc_pct := Some 2; tc_deg := Some 0 |}.
Definition ex_to1 : tap_orc := {| o_c := 0; o_s := 1; o_vn := 125; o_atan := 18434949 # 500000; o_asin := 0 |}.
Definition ex_to2 : tap_orc := {| o_c := 1; o_s := 0; o_vn := 245 # 2; o_atan := 0; o_asin := 0 |}.
Example C02_tap2_nonvacuous :
  tap_wf ex_tc1 /\ tap_wf ex_tc2 /\ orc_ok ex_tc1 ex_to1 (4 # 5) (3 # 5) 100 20 /\ orc_ok ex_tc2 ex_to2 1 0 125 20 /\
  tap_second (tap_notable ex_tc1 ex_to1 100 20 0) ex_tc2 ex_to2 = Ok (245 # 2, 20, Some (18434949 # 500000)).
Proof.
  split; [exact I|]. split; [exact I|].
  split; [vm_compute; repeat split; try reflexivity; discriminate|].
  split; [vm_compute; repeat split; try reflexivity; discriminate|]. vm_compute. reflexivity.
Qed.
Print Assumptions C02_tap2_nonvacuous.

(* the rows of the transformer pipeline meet the structural part of row_sym_ok by construction *)
Theorem C02_trafo_branch_shape : forall sn tm t o vnh vnl shift bh bl row,
  trafo_branch sn tm t o vnh vnl shift bh bl = Ok row ->
  b_ra row = 0 /\ b_xa row = 0 /\ b_stat row = t_in t /\ b_tap row = nominal_ratio vnh vnl bh bl /\ b_shift row = shift.
Proof.
  intros sn tm t o vnh vnl shift bh bl row. apply trafo_branch_shape.
Qed.
Print Assumptions C02_trafo_branch_shape.

(* trafo3w tap changer at the star point (tap_step_degree 0 / NaN): the corrected step put on the other side of the block is
   the reciprocal of the documented n_tap — the rated voltage of the star side of the block is divided by n_tap *)
Theorem C02_star_tap_reciprocal : forall x blk p d c' s' g,
  x_side x = blk -> x_star x = true -> x_pct x = Some p ->
  (exists a n, x_pos x = Some a /\ x_neutral x = Some n /\ d == a - n) -> ~ 100 + p * d == 0 ->
  tc_deg (tap3_block x blk) = Some g ->
  (g == 0 -> c' == 1 /\ s' == 0) -> (g == -180 -> c' == -1 /\ s' == 0) ->
  tc_side (tap3_block x blk) = match blk with O => LV | _ => HV end /\
  tap_n (tap3_block x blk) c' s' ==c mkC (1 / (1 + p * d / 100)) 0.
Proof.
  intros x blk p d c' s' g Hs Hst Hp (a & n & Ha & Hn & Hd) Hnz.
  unfold tap3_block, tap3_block_gen. rewrite Hs, Nat.eqb_refl, Hst, Hp, Ha, Hn. cbv beta iota.
  set (tcor := qdiv (qmul 100 p) (qadd 100 (qmul p (qsub a n)))). cbn [tc_deg tc_side].
  intros Hg H0 H180. split; [reflexivity|]. injection Hg as <-.
  (* the block carries |tcor| at angle 0 or -180, that is the step -tcor; and 1 - tcor d / 100 = 1 / n_tap *)
  rewrite (tap_n_signed _ tcor c' s' (qsub a n)); [| reflexivity | reflexivity |].
  - assert (Et : tcor == 100 * p / (100 + p * d)) by (unfold tcor; qstrip; rewrite Hd; reflexivity).
    split; cbn [re im]; [|reflexivity]. rewrite Et. qstrip. rewrite <- Hd.
    field. exact Hnz.
  - destruct (qltb tcor 0); [apply H0 | apply H180]; qstrip; reflexivity.
Qed.
Print Assumptions C02_star_tap_reciprocal.
Example C02_star_tap_nonvacuous :
  let x := {| x_side := 0; x_star := true; x_type := Ratio; x_pos := Some 2; x_neutral := Some 0; x_pct := Some (3 # 2); x_deg := None |} in
  tc_deg (tap3_block x 0) = Some (-180 # 1) /\ tap_n (tap3_block x 0) (-1) 0 ==c mkC (100 # 103) 0.
Proof. split; [vm_compute; reflexivity | vm_compute; split; reflexivity]. Qed.
Print Assumptions C02_star_tap_nonvacuous.
Theorem C02_t3_row_shape : forall sn tm cva w x o3 blk tpo o bh bl row,
  t3_row sn tm cva w x o3 blk tpo o bh bl = Ok row ->
  b_ra row = 0 /\ b_xa row = 0 /\ b_stat row = w_in w.
Proof.
  intros sn tm cva w x o3 blk tpo o bh bl row. unfold t3_row, bind, with_tap.
  destruct (t3_vk w o3) as [[vk2 vkr2]|e]; [|discriminate]. cbn [fst snd bind].
  destruct (tap_notable _ _ _ _ _) as [[[vnh vnl] [sh|]]|e]; try discriminate.
  intros H. apply C02_trafo_branch_shape in H. destruct H as (A & B & D & _). repeat split; assumption.
Qed.
Print Assumptions C02_t3_row_shape.

(* two-winding transformer, trafo_model "pi": ONE composed statement
   element parameters -> branch row (_calc_branch_values_from_trafo_df) -> makeYbus stamps -> pfsoln flows = the documented
   circuit in physical units: ideal transformer vn_hv : vn_lv (tap-adjusted) with the phase shift e at the hv side, then on
   the lv side Z_k (Re = vkr/100 vn_lv^2/(sn par), |.| = vk/100 vn_lv^2/(sn par), Im >= 0) and Y_m (Re = pfe/1000 par/vn_lv^2,
   |.| = i0/100 sn par/vn_lv^2, Im <= 0) half at each end; bus voltages bh*vf, bl*vt in kV, powers in MVA; the system base
   sn_mva and the bus base voltages cancel *)
Theorem C02_trafo_pi_chain : forall sn t o vnh vnl shift bh bl row e vf vt,
  trafo_branch sn false t o vnh vnl shift bh bl = Ok row -> t_in t = true ->
  0 <= o_x o ->
  o_x o * o_x o == fst (trafo_zr sn t vnl bl) * fst (trafo_zr sn t vnl bl) - snd (trafo_zr sn t vnl bl) * snd (trafo_zr sn t vnl bl) ->
  0 <= o_bm o -> o_bm o * o_bm o == trafo_ym2 t ->
  0 < t_vk t -> 0 < t_sn t -> 0 < t_par t -> 0 < sn -> 0 < vnl -> 0 < vnh -> 0 < bl -> 0 < bh -> ~ t_vnl0 t == 0 ->
  re e * re e + im e * im e == 1 ->
  exists Zk Ym : C,
    (re Zk == t_vkr t / 100 * (vnl * vnl) / (t_sn t * t_par t) /\ 0 <= im Zk /\
     re Zk * re Zk + im Zk * im Zk == (t_vk t / 100 * (vnl * vnl) / (t_sn t * t_par t)) * (t_vk t / 100 * (vnl * vnl) / (t_sn t * t_par t))) /\
    (re Ym == t_pfe t / 1000 * t_par t / (vnl * vnl) /\ im Ym <= 0 /\
     re Ym * re Ym + im Ym * im Ym == (t_i0 t / 100 * t_sn t * t_par t / (vnl * vnl)) * (t_i0 t / 100 * t_sn t * t_par t / (vnl * vnl))) /\
    Ceq2 (flows (stamps_core row e) vf vt sn)
         (pi_flows_phys2 Zk Zk (Cscale (1 # 2) Ym) (Cscale (1 # 2) Ym)
                         (Cdiv (Cscale (bh * (vnl / vnh)) vf) e) (Cscale bl vt)).
Proof.
  intros sn t o vnh vnl shift bh bl row e vf vt Hrow Hin Hx0 Hx Hb0 Hb Hvk Hts Hp Hsn Hvnl Hvnh Hbl Hbh Hv0 He.
  pose proof (pos_nz _ Hts) as Hts'. pose proof (pos_nz _ Hp) as Hp'. pose proof (pos_nz _ Hsn) as Hsn'.
  pose proof (pos_nz _ Hvnl) as Hvnl'. pose proof (pos_nz _ Hvnh) as Hvnh'. pose proof (pos_nz _ Hbl) as Hbl'.
  pose proof (pos_nz _ Hbh) as Hbh'.
  assert (Hz : 0 < fst (trafo_zr sn t vnl bl)).
  { unfold trafo_zr, qsq. cbn [fst]. qstrip. repeat (apply Qdiv_pos || apply Qmult_lt_0_compat); assumption || reflexivity. }
  assert (Hk : 0 < t_vk t / 100 * (vnl / bl * (vnl / bl) * sn / t_sn t / t_par t)).
  { repeat (apply Qdiv_pos || apply Qmult_lt_0_compat); assumption || reflexivity. }
  pose proof (C02_trafo_rx_documented sn t o vnl bl Hx Hx0 Hz Hp Hts' Hbl') as RX.
  pose proof (C02_trafo_gb_documented sn t o vnl bl Hb Hb0 Hsn' Hvnl' Hv0) as GB.
  unfold trafo_branch in Hrow. destruct (qleb (t_df t) 0); [discriminate|].
  destruct (trafo_rx sn t o vnl bl) as [r x]. destruct (trafo_gb sn t o vnl bl) as [g b].
  cbn zeta in RX, GB. destruct RX as (Er & Hx1 & Ez). destruct GB as (Eg & Ey & Hbneg).
  injection Hrow as <-. rewrite Hin.
  set (baseZ := bl * bl / sn).
  assert (HbZ : 0 < baseZ) by (apply Qdiv_pos; [apply Qmult_lt_0_compat; exact Hbl | exact Hsn]).
  pose proof (pos_nz _ HbZ) as HbZ'.
  exists (Cscale baseZ (mkC r x)), (Cscale (1 / baseZ) (mkC g b)).
  split; [|split].
  - cbn [re im Cscale]. repeat split.
    + qstrip. rewrite Er. unfold baseZ. field. repeat split; assumption.
    + qstrip. apply Qmult_le_0_compat; [apply Qlt_le_weak; exact HbZ | exact Hx1].
    + transitivity ((r * r + x * x) * (baseZ * baseZ)); [qstrip; ring|]. rewrite Ez. unfold baseZ. field. repeat split; assumption.
  - cbn [re im Cscale]. repeat split.
    + qstrip. rewrite Eg. unfold baseZ. field. repeat split; assumption.
    + qstrip. rewrite <- (Qmult_0_r (1 / baseZ)). apply Qmult_le_l; [apply Qdiv_pos; [reflexivity | exact HbZ]|].
      apply Hbneg; [apply Qlt_le_weak; exact Hp | exact Hsn].
    + transitivity ((g * g + b * b) * ((1 / baseZ) * (1 / baseZ))); [qstrip; ring|]. rewrite Ey. unfold baseZ. field. repeat split; assumption.
  - (* the per-unit flows are the physical ones (pu_eq_phys_sym), then the arguments are brought into the documented form *)
    assert (Hnz : ~ r * r + x * x == 0) by (rewrite Ez; apply mul_nz; apply pos_nz; exact Hk).
    assert (Hratio : ~ nominal_ratio vnh vnl bh bl == 0).
    { unfold nominal_ratio. intro K. qstrip_in K. revert K. repeat apply div_nz; assumption. }
    etransitivity.
    { apply (pu_eq_phys_sym (mkB r x g b 0 0 0 0 (nominal_ratio vnh vnl bh bl) shift true _) e vf vt sn bl);
        brow_cbn; assumption || reflexivity. }
    cbv zeta. brow_cbn. fold baseZ.
    apply pi_flows_phys2_proper; try reflexivity.
    1,2: cstrip; field; exact HbZ'.
    destruct e as [er ei]. destruct vf as [vfr vfi]. cbn [re im] in He.
    assert (Hn : ~ er * er + ei * ei == 0) by (rewrite He; discriminate).
    unfold nominal_ratio. cstrip; field; repeat split; try assumption;
      try (intro K; apply Hn; rewrite <- K; ring);
      try (apply norm_scale_nz; [apply mul_nz; assumption | exact Hn]).
Qed.
Print Assumptions C02_trafo_pi_chain.
(* non-vacuity: 40 MVA 110/20 kV, vk 5 %, vkr 3 %, pfe 120 kW, i0 0.5 %: sqrt values 4/4000 and 4/25 are rational *)
Definition ex_t : trafo :=
  {| t_vnh0 := 110; t_vnl0 := 20; t_sn := 40; t_vk := 5; t_vkr := 3; t_pfe := 120; t_i0 := 1 # 2; t_par := 1; t_df := 1;
     t_in := true; t_maxload := Some 100; t_rr := 1 # 2; t_xr := 1 # 2 |}.
Definition ex_to : trafo_orc := {| o_x := 1 # 1000; o_bm := 4 # 25 |}.
Example C02_trafo_pi_chain_nonvacuous :
  (exists row, trafo_branch 1 false ex_t ex_to 110 20 0 110 20 = Ok row) /\
  o_x ex_to * o_x ex_to == fst (trafo_zr 1 ex_t 20 20) * fst (trafo_zr 1 ex_t 20 20) - snd (trafo_zr 1 ex_t 20 20) * snd (trafo_zr 1 ex_t 20 20) /\
  o_bm ex_to * o_bm ex_to == trafo_ym2 ex_t.
Proof. split; [eexists; vm_compute; reflexivity | split; vm_compute; reflexivity]. Qed.
Print Assumptions C02_trafo_pi_chain_nonvacuous.

(* trafo_model "t", from the producer: whenever _calc_branch_values_from_trafo_df returns a row for a transformer with a
   magnetising branch (no UserWarning, _wye_delta does not raise FloatingPointError), the row carries TAP = nominal ratio,
   SHIFT = adjusted shift and its stamps + flows are S_N v conj(i) of the documented T circuit: hv leakage
   za = r rr + j x xr, lv leakage zb = r(1-rr) + j x(1-xr) with (r, x) of C02_trafo_rx_documented, magnetising branch
   yc = g + jb of C02_trafo_gb_documented at the inner node, behind the ideal transformer — all side conditions discharged *)
Theorem C02_trafo_t_chain : forall sn t o vnh vnl shift bh bl row e vf vt,
  trafo_branch sn true t o vnh vnl shift bh bl = Ok row -> t_in t = true ->
  ~ (fst (trafo_gb sn t o vnl bl) == 0 /\ snd (trafo_gb sn t o vnl bl) == 0) ->
  ~ nominal_ratio vnh vnl bh bl == 0 -> re e * re e + im e * im e == 1 ->
  let r := fst (trafo_rx sn t o vnl bl) in let x := snd (trafo_rx sn t o vnl bl) in
  let za := wd_za r x (t_rr t) (t_xr t) in let zb := wd_zb r x (t_rr t) (t_xr t) in
  let yc := mkC (fst (trafo_gb sn t o vnl bl)) (snd (trafo_gb sn t o vnl bl)) in
  let vf' := Cdiv vf (Cscale (nominal_ratio vnh vnl bh bl) e) in
  let i := t_circuit_I za zb yc vf' vt in
  b_tap row = nominal_ratio vnh vnl bh bl /\ b_shift row = shift /\
  Ceq2 (flows (stamps_core row e) vf vt sn)
       (Cscale sn (Cmul vf' (Cconj (fst i))), Cscale sn (Cmul vt (Cconj (snd i)))).
Proof.
  intros sn t o vnh vnl shift bh bl row e vf vt Hrow Hin Hgb Hratio He.
  unfold trafo_branch in Hrow. destruct (qleb (t_df t) 0); [discriminate|].
  destruct (trafo_rx sn t o vnl bl) as [r x]. destruct (trafo_gb sn t o vnl bl) as [g b]. cbn [fst snd] in *.
  assert (Hyc : ~ mkC g b ==c C0).
  { intros [K1 K2]. cbn [re im C0] in K1, K2. apply Hgb. split; assumption. }
  destruct (wye_delta r x g b (t_rr t) (t_xr t)) as [[[[[[r' x'] g'] b'] ga] ba]|] eqn:Ew; [|discriminate].
  injection Hrow as <-. cbn zeta. cbn [b_tap b_shift]. split; [reflexivity|]. split; [reflexivity|].
  destruct (wye_delta_ok _ _ _ _ _ _ _ Ew Hyc) as (Ec & Ha & Hb & Hd).
  apply (t_row_flows (mkB r' x' g' b' 0 0 ga ba (nominal_ratio vnh vnl bh bl) shift (t_in t) _) e vf vt sn r x g b (t_rr t) (t_xr t));
    brow_cbn; assumption || reflexivity.
Qed.
Print Assumptions C02_trafo_t_chain.
Example C02_trafo_t_chain_nonvacuous :
  (exists row, trafo_branch 1 true ex_t ex_to 110 20 0 110 20 = Ok row) /\
  ~ (fst (trafo_gb 1 ex_t ex_to 20 20) == 0 /\ snd (trafo_gb 1 ex_t ex_to 20 20) == 0) /\ ~ nominal_ratio 110 20 110 20 == 0.
Proof. split; [eexists; vm_compute; reflexivity | split; vm_compute; [intros [H _]; discriminate H | discriminate]]. Qed.
Print Assumptions C02_trafo_t_chain_nonvacuous.
