(* C11 — three-phase vs symmetric.  First the symmetrical-component theorems (lemmas in C11/Proofs.v): these are stated in
   the exact field Q(sqrt3, j) (Base/C11K.v) where a = exp(j*120deg) is an element, so no oracle and no hypothesis about a is
   needed; ==k is component-wise equality.  Then the one-third base of the branch rows (C11/Base3Proofs.v) and the
   zero-sequence transformer models (C11/ZeroProofs.v), over Q and the complex numbers of Base/QC.v. *)
From Coq Require Import ZArith QArith Qabs List Bool Lqa.
From PPV Require Import Base.QN Base.QC Base.C11K C11.Model C11.Proofs C11.Base3 C11.Base3Proofs C11.Zero C11.ZeroProofs.
Import ListNotations.
Open Scope Q_scope.

(* the operator of the implementation's Tabc/T012 satisfies a^2 + a + 1 = 0, asq = a^2 = conj a = 1/a, |a| = 1 *)
Theorem C11_a_is_primitive_cube_root :
  Kadd (Kadd (Kmul Ka Ka) Ka) K1 ==k K0 /\
  Kasq ==k Kmul Ka Ka /\ Kmul Ka Kasq ==k K1 /\ Kconj Ka ==k Kasq /\ Knorm2 Ka ==k K1 /\ Kmul Ka (Kmul Ka Ka) ==k K1.
Proof. vm_compute. repeat split. Qed.
Print Assumptions C11_a_is_primitive_cube_root.

(* sequence_to_phase and phase_to_sequence are mutually inverse *)
Theorem C11_transformations_inverse : forall x,
  K3eq (phase_to_sequence (sequence_to_phase x)) x /\ K3eq (sequence_to_phase (phase_to_sequence x)) x.
Proof. intros [[x0 x1] x2]. split; k3; kpush; ksplit; ring [Ka_sq Kasq_lin]. Qed.
Print Assumptions C11_transformations_inverse.

(* symmetric network (zero and negative sequence vanish): phase a carries the positive-sequence (= symmetric power flow)
   voltage, phases b and c are the same phasor rotated by -120 / +120 degrees, all three magnitudes are equal *)
Theorem C11_balanced_phases : forall x0 x1 x2, x0 ==k K0 -> x2 ==k K0 ->
  let '(va, vb, vc) := sequence_to_phase (x0, x1, x2) in
  va ==k x1 /\ vb ==k Kmul Kasq va /\ vc ==k Kmul Ka va /\
  Knorm2 vb ==k Knorm2 va /\ Knorm2 vc ==k Knorm2 va.
Proof. exact balanced_phases. Qed.
Print Assumptions C11_balanced_phases.

(* the per-phase powers sum to three times the sum of the sequence powers (every V, I) *)
Theorem C11_power_invariance : forall v i,
  sum3 (S_from_VI (sequence_to_phase v) (sequence_to_phase i)) ==k Kscale 3 (sum3 (S_from_VI v i)).
Proof. exact power_invariance. Qed.
Print Assumptions C11_power_invariance.

(* symmetric network: every phase carries one third of the total *)
Theorem C11_per_phase_thirds : forall v0 v1 v2 i0 i1 i2,
  v0 ==k K0 -> v2 ==k K0 -> i0 ==k K0 -> i2 ==k K0 ->
  let '(sa, sb, sc) := S_from_VI (sequence_to_phase (v0, v1, v2)) (sequence_to_phase (i0, i1, i2)) in
  sa ==k Kmul v1 (Kconj i1) /\ sb ==k sa /\ sc ==k sa /\
  sa ==k Kscale (1 # 3) (Kadd (Kadd sa sb) sc).
Proof. exact per_phase_thirds. Qed.
Print Assumptions C11_per_phase_thirds.

(* res_line_3ph: the per-phase powers of each side sum to sqrt3 * sum of V_s conj(I_s) (the symmetric formula
   S = sqrt3 * V * conj(I) when only the positive sequence is present), losses are from + to, the neutral current is 3*I0 *)
Theorem C11_line_phase_sum_is_total : forall vf jf vt jt,
  let r := line_results_3ph vf jf vt jt in
  sum3 (sf r) ==k Kmul Ksqrt3 (sum3 (S_from_VI vf jf)) /\
  sum3 (st r) ==k Kmul Ksqrt3 (sum3 (S_from_VI vt jt)) /\
  sum3 (sl r) ==k Kadd (sum3 (sf r)) (sum3 (st r)) /\
  in_f r ==k Kscale 3 (fst (fst jf)) /\ in_t r ==k Kscale 3 (fst (fst jt)).
Proof.
  intros vf jf vt jt r. subst r. unfold line_results_3ph. cbn [sf st sl in_f in_t].
  rewrite sum3_add, !sum3_mul, !power_invariance, !sum3_s2p. kpush.
  ksplit; try reflexivity; ring [Kinvsqrt3_lin].
Qed.
Print Assumptions C11_line_phase_sum_is_total.

Theorem C11_line_balanced_thirds : forall v1 j1 vt jt,
  let r := line_results_3ph (K0, v1, K0) (K0, j1, K0) vt jt in
  let '(sa, sb, sc) := sf r in
  sa ==k Kmul Kinvsqrt3 (Kmul v1 (Kconj j1)) /\ sb ==k sa /\ sc ==k sa /\
  sa ==k Kscale (1 # 3) (sum3 (sf r)) /\ in_f r ==k K0.
Proof.
  intros v1 j1 vt jt r. subst r. unfold line_results_3ph. cbn [sf in_f]. k3. kpush. ksplit; ring [Ka_sq Kasq_lin].
Qed.
Print Assumptions C11_line_balanced_thirds.

(* element result writers: the three phase values of every load/sgen/asymmetric element sum to its total, and the
   per-phase bus sums add up to the signed total of the elements at the bus (any element list) *)
Theorem C11_element_phase_sum_is_total : forall e, q3sum (elem_phases e) == elem_total e.
Proof. intros [g p sc ins | g pa pb pc sc ins]; unfold elem_phases, elem_total, q3sum; qstrip; [field | ring]. Qed.
Print Assumptions C11_element_phase_sum_is_total.

Theorem C11_bus_phase_sum_is_total : forall els, q3sum (bus_pq_3ph els) == signed_total els.
Proof.
  induction els as [|e els IH]; [reflexivity|].
  cbn [bus_pq_3ph signed_total]. destruct (bus_pq_3ph els) as [[a b] c]. unfold q3sum in IH. rewrite <- IH.
  destruct e as [g p sc ins | g pa pb pc sc ins]; unfold elem_phases, elem_total, q3sum; qstrip; [field | ring].
Qed.
Print Assumptions C11_bus_phase_sum_is_total.

(* per-phase nodal balance at the ext_grid bus needs the ext_grid's zero sequence current to be the current that leaves
   the bus into the branches: true for every admittance, voltage and current after the repair
   "fix: runpp_3ph removes the zero sequence ext_grid admittance from the zero sequence network" *)
Theorem C11_ext_grid_zero_seq_current : forall y0 v i, eg_zero_seq_current y0 v i ==c i.
Proof. intros. unfold eg_zero_seq_current, eg_seq_current_reported. ring. Qed.
Print Assumptions C11_ext_grid_zero_seq_current.

(* the rule before the repair subtracted the NEGATIVE sequence admittance y2: it reported -y2*v instead of -y0*v
   (regression witness) and was right only for y0 = y2 (x0x_max = 1, r0x0_max = rx_max) *)
Theorem C11_ext_grid_current_old_refuted :
  exists y0 y2 v i, i ==c Copp (Cmul y0 v) /\ ~ eg_zero_seq_current_old y0 y2 v i ==c i.
Proof.
  exists (mkC 1 0), (mkC 2 0), (mkC 1 0), (mkC (-1) 0). split.
  - vm_compute. split; reflexivity.
  - intros [A _]. vm_compute in A. discriminate A.
Qed.
Print Assumptions C11_ext_grid_current_old_refuted.
Theorem C11_ext_grid_current_old_faithful : forall y0 y2 v i, i ==c Copp (Cmul y0 v) ->
  eg_zero_seq_current_old y0 y2 v i ==c Copp (Cmul y2 v).
Proof. intros y0 y2 v i E. unfold eg_zero_seq_current_old, eg_seq_current_reported. rewrite E. ring. Qed.
Print Assumptions C11_ext_grid_current_old_faithful.
Theorem C11_ext_grid_current_old_partial : forall y0 y2 v i, G11_eg y0 y2 = true -> eg_zero_seq_current_old y0 y2 v i ==c i.
Proof.
  intros y0 y2 v i G. apply andb_prop in G. rewrite !qeqb_eq in G.
  unfold eg_zero_seq_current_old, eg_seq_current_reported. rewrite (G : y0 ==c y2). ring.
Qed.
Print Assumptions C11_ext_grid_current_old_partial.
Example C11_ext_grid_current_nonvacuous : G11_eg (mkC (3 # 4) (-15 # 4)) (mkC (3 # 4) (-15 # 4)) = true.
Proof. reflexivity. Qed.

(* The one-third base of the pf_3ph branch rows (model C11/Base3.v of build_branch.py; lemmas in C11/Base3Proofs.v).
   The ppc of runpp_3ph carries baseMVA = net.sn_mva (the per-phase base power); its positive-sequence branch rows are
   per unit on the three-phase base 3*sn_mva.  pf3ph = true is mode "pf_3ph", false is mode "pf" (runpp).
   sqrt is an oracle input: the statements hold for ALL oracle values meeting the contract is_sqrt s x := 0 <= s /\ s*s == x. *)

(* lines: the pf_3ph row at sn = s is the pf row at sn = 3*s, i.e. r, x three times and b, g one third of the pf row at s;
   and the ohmic values recovered with the respective base (V^2/(3s) resp. V^2/s) are the sn-free physical values
   r*l/parallel [ohm], x*l/parallel [ohm], 2*pi*f*c*1e-9*l*parallel [S], g*1e-6*l*parallel [S] *)
Theorem C11_base_third_consistency_line : forall s f pi l,
  line_row_eq (line_row_of true s f pi l) (line_row_of false (3 * s) f pi l) /\
  (G11_line s l = true ->
   (let r3 := line_row_of true s f pi l in let r1 := line_row_of false s f pi l in
    lr_r r3 == 3 * lr_r r1 /\ lr_x r3 == 3 * lr_x r1 /\ lr_b r3 == lr_b r1 / 3 /\ lr_g r3 == lr_g r1 / 3) /\
   (let v2 := l_basekv l * l_basekv l in
    q4eq (line_ohm_of (v2 / (3 * s)) (line_row_of true s f pi l)) (line_ohm_spec f pi l) /\
    q4eq (line_ohm_of (v2 / s) (line_row_of false s f pi l)) (line_ohm_spec f pi l))).
Proof.
  intros s f pi l. split; [apply line_third_consistency |]. intros G. split; [apply line_third_scaling | apply line_ohmic]; exact G.
Qed.
Print Assumptions C11_base_third_consistency_line.
Example C11_base_third_line_nonvacuous : G11_line 10 line_wit = true /\ ~ lr_r (line_row_of true 10 50 (355 # 113) line_wit) == 0 /\
  ~ lr_b (line_row_of true 10 50 (355 # 113) line_wit) == 0 /\ ~ lr_g (line_row_of true 10 50 (355 # 113) line_wit) == 0.
Proof. exact line_nonvacuous. Qed.

(* two-winding transformers, the complete row written for trafo_model "t" (r, x, g, b, g_asym, b_asym after the T -> pi
   conversion _wye_delta; incl. pfe/3, vnl^2/3, i0/3, the clamp of b_mva_squared and both sqrt calls):
   the pf_3ph row at sn = s is the pf row at sn = 3*s (trow_scaled 1 = component-wise equality) *)
Theorem C11_base_third_consistency : forall s t q sx3 sb3 sx1 sb1,
  G11_trafo true s t q = true ->
  is_sqrt sx3 (x_sqrt_arg true s t q) -> is_sqrt sx1 (x_sqrt_arg false (3 * s) t q) ->
  is_sqrt sb3 (b_sqrt_arg true t) -> is_sqrt sb1 (b_sqrt_arg false t) ->
  trow_scaled 1 (trafo_row_t true s t q sx3 sb3) (trafo_row_t false (3 * s) t q sx1 sb1).
Proof.
  intros s t q sx3 sb3 sx1 sb1 G X3 X1 B3 B1. pose proof (proj1 (G11_trafo_wf _ _ _ _ G)) as W.
  unfold trafo_row_t. apply wye_delta_homogeneous; [lra |]. apply trafo_rxgb_consistency; assumption.
Qed.
Print Assumptions C11_base_third_consistency.

(* ... i.e. against the pf row at the same sn: impedances three times, admittances one third *)
Theorem C11_base_third_scaling : forall s t q sx3 sb3 sx1 sb1,
  G11_trafo true s t q = true ->
  is_sqrt sx3 (x_sqrt_arg true s t q) -> is_sqrt sx1 (x_sqrt_arg false s t q) ->
  is_sqrt sb3 (b_sqrt_arg true t) -> is_sqrt sb1 (b_sqrt_arg false t) ->
  trow_scaled 3 (trafo_row_t true s t q sx3 sb3) (trafo_row_t false s t q sx1 sb1) /\
  rxgb_scaled 3 (trafo_rxgb true s t q sx3 sb3) (trafo_rxgb false s t q sx1 sb1).
Proof.
  intros s t q sx3 sb3 sx1 sb1 G X3 X1 B3 B1. pose proof (proj1 (G11_trafo_wf _ _ _ _ G)) as W.
  assert (R : rxgb_scaled 3 (trafo_rxgb true s t q sx3 sb3) (trafo_rxgb false s t q sx1 sb1)) by (apply trafo_rxgb_third; assumption).
  split; [| exact R]. unfold trafo_row_t. apply wye_delta_homogeneous; [lra | exact R].
Qed.
Print Assumptions C11_base_third_scaling.

(* sn-free ohmic specification: the values recovered from the rows with the base they were computed on
   (zb3 = V^2/(3s) for pf_3ph, zb1 = V^2/s for pf) are  r = vkr/100 * vn_trafo_lv^2/sn_trafo/parallel [ohm] and
   g = pfe/vn_trafo_lv^2 * parallel [S]  in both modes, and the recovered x [ohm] and b [S] of the two modes coincide *)
Theorem C11_base_third_ohmic : forall s t q sx3 sb3 sx1 sb1,
  G11_trafo true s t q = true ->
  is_sqrt sx3 (x_sqrt_arg true s t q) -> is_sqrt sx1 (x_sqrt_arg false s t q) ->
  is_sqrt sb3 (b_sqrt_arg true t) -> is_sqrt sb1 (b_sqrt_arg false t) ->
  let zb3 := t_basekv_lv t * t_basekv_lv t / (3 * s) in let zb1 := t_basekv_lv t * t_basekv_lv t / s in
  (trafo_r true s t q * zb3 == trafo_ohm_r t q /\ trafo_r false s t q * zb1 == trafo_ohm_r t q /\
   trafo_g true s t q / zb3 == trafo_siemens_g t q /\ trafo_g false s t q / zb1 == trafo_siemens_g t q) /\
  (trafo_x true s t q sx3 * zb3 == trafo_x false s t q sx1 * zb1 /\
   trafo_b true s t q sb3 / zb3 == trafo_b false s t q sb1 / zb1).
Proof.
  intros s t q sx3 sb3 sx1 sb1 G X3 X1 B3 B1. pose proof (proj1 (G11_trafo_wf _ _ _ _ G)) as W.
  split; [apply trafo_ohmic | apply trafo_ohmic_xb]; assumption.
Qed.
Print Assumptions C11_base_third_ohmic.

(* the T -> pi conversion itself is homogeneous of degree one: any base change by k commutes with it *)
Theorem C11_wye_delta_base_change : forall k v' v rr xr, ~ k == 0 -> rxgb_scaled k v' v ->
  trow_scaled k (wye_delta v' rr xr) (wye_delta v rr xr).
Proof. exact wye_delta_homogeneous. Qed.
Print Assumptions C11_wye_delta_base_change.

(* the tapped voltage of a "Ratio" tap changer is |u1 + du| for every oracle value meeting the contract *)
Theorem C11_tap_voltage : forall t q, is_sqrt q (tap_sqrt_arg t) -> q == Qabs.Qabs (tap_u1 t + tap_du t).
Proof.
  intros t q [A B]. unfold tap_sqrt_arg, qsq in B. qstrip_in B.
  set (u := tap_u1 t + tap_du t) in *.
  assert (E : q * q == u * u) by (rewrite B; unfold u; ring).
  destruct (Qlt_le_dec u 0) as [N | P].
  - rewrite Qabs_neg by lra. nra.
  - rewrite Qabs_pos by assumption. nra.
Qed.
Print Assumptions C11_tap_voltage.

Example C11_base_third_nonvacuous :
  let s := 1 in let t := trafo_wit in let q := 21 in
  is_sqrt q (tap_sqrt_arg t) /\ G11_trafo true s t q = true /\ G11_trafo false s t q = true /\ G11_trafo false (3 * s) t q = true /\
  is_sqrt (1323 # 200000) (x_sqrt_arg true s t q) /\ is_sqrt (441 # 200000) (x_sqrt_arg false s t q) /\
  is_sqrt (1323 # 200000) (x_sqrt_arg false (3 * s) t q) /\
  is_sqrt (8 # 3000) (b_sqrt_arg true t) /\ is_sqrt (8 # 1000) (b_sqrt_arg false t) /\
  ~ tr_g (trafo_row_t true s t q (1323 # 200000) (8 # 3000)) == 0 /\ ~ tr_b (trafo_row_t true s t q (1323 # 200000) (8 # 3000)) == 0.
Proof. exact trafo_nonvacuous. Qed.

(* impedance elements under the rule [imp_row_of], which multiplies gf/bf/gt/bt by sn_factor = 3 (build_branch.py before
   "fix: runpp_3ph puts the shunt admittances of impedance elements on the three-phase base"): the series part of the pf_3ph
   row is on the base 3*s, the shunt part is not; the row is a consistent base change only without shunt part, otherwise the
   shunt admittances are 3 times the pf values instead of one third (9 times too large) *)
Theorem C11_base_third_impedance_partial : forall s i, G11_imp_noshunt i = true ->
  imp_row_scaled 3 (imp_row_of true s i) (imp_row_of false s i).
Proof.
  intros s i G. apply G11_imp_noshunt_true in G. destruct G as (A & B & C & D).
  unfold imp_row_scaled, imp_row_of, imp_row_gen, imp_series, imp_shunt, three_if; cbn [ir_r ir_x ir_r_asym ir_x_asym ir_g ir_b ir_g_asym ir_b_asym].
  qstrip. rewrite A, B, C, D. repeat split; unfold Qdiv; ring.
Qed.
Print Assumptions C11_base_third_impedance_partial.
Theorem C11_base_third_impedance_refuted :
  exists s i, ~ s == 0 /\ ~ i_sn i == 0 /\ ~ imp_row_scaled 3 (imp_row_of true s i) (imp_row_of false s i).
Proof.
  exists 1, imp_wit. split; [discriminate |]. split; [discriminate |].
  intros (_ & _ & _ & _ & H & _). vm_compute in H. discriminate.
Qed.
Print Assumptions C11_base_third_impedance_refuted.
Theorem C11_base_third_impedance_faithful : forall s i,
  let r3 := imp_row_of true s i in let r1 := imp_row_of false s i in
  ir_g r3 == 3 * ir_g r1 /\ ir_b r3 == 3 * ir_b r1 /\ ir_g_asym r3 == 3 * ir_g_asym r1 /\ ir_b_asym r3 == 3 * ir_b_asym r1.
Proof.
  intros s i. unfold imp_row_of, imp_row_gen, imp_series, imp_shunt, three_if; cbn [ir_r ir_x ir_r_asym ir_x_asym ir_g ir_b ir_g_asym ir_b_asym].
  qstrip. repeat split; unfold Qdiv; ring.
Qed.
Print Assumptions C11_base_third_impedance_faithful.
(* with the admittances divided by sn_factor ([imp_row_repaired], build_branch.py:1026-1031) the impedance row is a consistent
   base change for all inputs *)
Theorem C11_base_third_impedance_repaired : forall s i, imp_row_scaled 3 (imp_row_repaired true s i) (imp_row_repaired false s i).
Proof.
  intros s i. unfold imp_row_scaled, imp_row_repaired, imp_row_gen, imp_series, imp_shunt_repaired, three_if, third_if;
    cbn [ir_r ir_x ir_r_asym ir_x_asym ir_g ir_b ir_g_asym ir_b_asym].
  qstrip. repeat split; unfold Qdiv; ring.
Qed.
Print Assumptions C11_base_third_impedance_repaired.
Example C11_base_third_impedance_nonvacuous :
  G11_imp_noshunt {| i_rft := 1 # 100; i_xft := 1 # 50; i_rtf := 1 # 100; i_xtf := 1 # 50; i_gf := 0; i_bf := 0; i_gt := 0; i_bt := 0; i_sn := 10 |} = true.
Proof. reflexivity. Qed.

(* Zero-sequence transformer equivalents of runpp_3ph (C11/Zero.v = pd2ppc_zero.py:_add_trafo_sc_impedance_zero for the
   vector groups YNyn, Dyn (and Yzn, correspondence only) in mode pf_3ph, followed by makeYbus.branch_vectors).
   T equivalent of the documentation:  z1 = si0_hv_partial * z0 (hv leakage), z2 = (1 - si0_hv_partial) * z0 (lv leakage),
   z3 = z_m0 (magnetising), D = z1 z2 + z2 z3 + z1 z3.  tap = TAP * exp(j*shift) is the ideal transformer at the hv side.
   All statements are identities in the field Q(j) for ALL inputs under the listed non-degeneracy conditions. *)

(* what z0 and z_m0 are: Re z0 = vkr0, |z0| = vk0 (per unit of the transformer rating, referred to the lv bus voltage level on
   the base V^2/(3 sn)); in ohm |z0| = vk0/100 * vn_trafo_lv^2 / sn_trafo — free of net.sn_mva;  |z_m0| = mag0_percent * |z0|
   (mag0_percent is the plain ratio z_mag0/z0),  Re z_m0 = mag0_rx * Im z_m0 *)
Theorem C11_zero_seq_impedances : forall sn z q sx sm,
  is_sqrt sx (z0_sqrt_arg sn z q) -> is_sqrt sm (mag_sqrt_arg z) ->
  ~ z0_zsc sn z q == 0 -> ~ t_par (z_t z) == 0 -> ~ sm == 0 -> ~ sn == 0 -> ~ t_basekv_lv (z_t z) == 0 -> ~ t_sn (z_t z) == 0 ->
  (re (z0_k sn z q sx) == z0_rsc sn z q / t_par (z_t z) /\
   cnorm2 (z0_k sn z q sx) == (z0_zsc sn z q / t_par (z_t z)) * (z0_zsc sn z q / t_par (z_t z))) /\
  (let zbase := t_basekv_lv (z_t z) * t_basekv_lv (z_t z) / (3 * sn) in
   z0_zsc sn z q * zbase == vk0_eff z / 100 * (vn_trafo_lv (z_t z) q * vn_trafo_lv (z_t z) q) / t_sn (z_t z) /\
   z0_rsc sn z q * zbase == vkr0_eff z / 100 * (vn_trafo_lv (z_t z) q * vn_trafo_lv (z_t z) q) / t_sn (z_t z)) /\
  (re (z0_mag sn z q sm) == z_mag0_rx z * im (z0_mag sn z q sm) /\
   cnorm2 (z0_mag sn z q sm) == (z_mag0 z * z0_zsc sn z q / t_par (z_t z)) * (z_mag0 z * z0_zsc sn z q / t_par (z_t z))).
Proof.
  intros. split; [apply z0_k_spec; assumption |]. split; [apply z0_ohmic; assumption | apply z0_mag_spec; assumption].
Qed.
Print Assumptions C11_zero_seq_impedances.

(* YNyn: the two-port that makeYbus stamps for the row is exactly the two-port of the T equivalent behind the ideal
   transformer:  Y11 = (z2+z3)/D, Y12 = Y21 = -z3/D, Y22 = (z1+z3)/D *)
Theorem C11_zero_seq_YNyn_two_port : forall sn bm z q sx sm e,
  z_vg z = YNyn -> z_ins z = true ->
  ~ sn == 0 -> ~ t_basekv_lv (z_t z) == 0 -> ~ t_basekv_hv (z_t z) == 0 ->
  ~ vn_trafo_lv (z_t z) q == 0 -> ~ vn_trafo_hv (z_t z) q == 0 ->
  let z0 := z0_k sn z q sx in let z1 := z1_of z z0 in let z2 := z2_of z z0 in let z3 := z0_mag sn z q sm in
  let D := Dsum z1 z2 z3 in
  ~ z1 ==c C0 -> ~ z2 ==c C0 -> ~ z3 ==c C0 -> ~ D ==c C0 ->
  let r := zero_row sn bm z q sx sm in let s := branch_vectors r e in let tap := ctap r e in
  ~ tap ==c C0 -> ~ Cconj tap ==c C0 ->
  Cmul (Yff s) (Cmul tap (Cconj tap)) ==c Cdiv (Cadd z2 z3) D /\
  Cmul (Yft s) (Cconj tap) ==c Copp (Cdiv z3 D) /\
  Cmul (Ytf s) tap ==c Copp (Cdiv z3 D) /\
  Ytt s ==c Cdiv (Cadd z1 z3) D.
Proof.
  intros sn bm z q sx sm e VG INS S BL BH VL VH z0 z1 z2 z3 D N1 N2 N3 ND r s tap NT NTC.
  pose proof (ratio_factor sn z q S BL BH VL VH) as RF.
  destruct (t_to_pi_spec z1 z2 z3 N1 N2 N3 ND) as (PC & PAB & PAN & PBN). fold D in PC, PAB, PAN, PBN.
  set (p := t_to_pi z1 z2 z3) in *.
  set (rat := trafo_ratio (z_t z) q) in *.
  (* the row of the vector group *)
  assert (E : mkC (zr_r r) (zr_x r) = mkC (re (p_zc p)) (im (p_zc p)) /\
              zr_ysym r = Cq (qsq rat) (Cq (qdiv (ztap_lv sn z q) (ztap_hv sn z q)) (Cq 2 (Cq 1 (p_YAN p)))) /\
              zr_yasym r = Csub (Cq 2 (Cq 1 (p_YBN p))) (zr_ysym r))
    by (unfold r, zero_row; rewrite VG, INS; repeat split).
  destruct E as (ER & ES & EA).
  destruct (bv_generic r e (zero_row_status sn bm z q sx sm INS) NT NTC) as (H1 & H2 & H3 & H4).
  fold s in H1, H2, H3, H4. fold tap in H1, H2, H3.
  assert (EY : Cinv (mkC (zr_r r) (zr_x r)) ==c Cdiv z3 D).
  { rewrite ER, C_eta, PC. field. split; auto. }
  assert (ESYM : zr_ysym r ==c Cq 2 (Cdiv z2 D)).
  { rewrite ES, !Cq_Cq, PAN. apply Cq_proper; [| reflexivity].
    unfold qsq. rewrite qmul_correct, qdiv_correct.
    transitivity (rat * rat * (ztap_lv sn z q / ztap_hv sn z q) * 2); [ring | rewrite RF; ring]. }
  rewrite H1, H2, H3, H4, EA, EY, ESYM, PBN, !Cq_Cq. rewrite !Cq_mul.
  assert (DS : forall a b, Cdiv (Cadd a b) D ==c Cadd (Cdiv a D) (Cdiv b D)) by (intros; unfold Cdiv; ring).
  rewrite !DS.
  generalize (Cdiv z1 D) (Cdiv z2 D) (Cdiv z3 D). intros u1 u2 u3. unfold CofQ.
  split; [| split; [| split]].
  - cstrip; ring.
  - reflexivity.
  - reflexivity.
  - cstrip; ring.
Qed.
Print Assumptions C11_zero_seq_YNyn_two_port.

(* YNyn: impedance seen from hv (referred through the ideal transformer) with lv grounded is z1 + z2||z3, from lv with hv
   grounded z2 + z1||z3  (stated as admittance * impedance = 1) *)
Theorem C11_zero_seq_YNyn_short_circuit : forall sn bm z q sx sm e,
  z_vg z = YNyn -> z_ins z = true ->
  ~ sn == 0 -> ~ t_basekv_lv (z_t z) == 0 -> ~ t_basekv_hv (z_t z) == 0 ->
  ~ vn_trafo_lv (z_t z) q == 0 -> ~ vn_trafo_hv (z_t z) q == 0 ->
  let z0 := z0_k sn z q sx in let z1 := z1_of z z0 in let z2 := z2_of z z0 in let z3 := z0_mag sn z q sm in
  let D := Dsum z1 z2 z3 in
  ~ z1 ==c C0 -> ~ z2 ==c C0 -> ~ z3 ==c C0 -> ~ D ==c C0 -> ~ Cadd z2 z3 ==c C0 -> ~ Cadd z1 z3 ==c C0 ->
  let r := zero_row sn bm z q sx sm in let s := branch_vectors r e in let tap := ctap r e in
  ~ tap ==c C0 -> ~ Cconj tap ==c C0 ->
  Cmul (Cmul (Yff s) (Cmul tap (Cconj tap))) (Cadd z1 (Cdiv (Cmul z2 z3) (Cadd z2 z3))) ==c C1 /\
  Cmul (Ytt s) (Cadd z2 (Cdiv (Cmul z1 z3) (Cadd z1 z3))) ==c C1.
Proof.
  intros sn bm z q sx sm e VG INS S BL BH VL VH z0 z1 z2 z3 D N1 N2 N3 ND N23 N13 r s tap NT NTC.
  destruct (C11_zero_seq_YNyn_two_port sn bm z q sx sm e VG INS S BL BH VL VH N1 N2 N3 ND NT NTC) as (H1 & _ & _ & H4).
  fold z0 z1 z2 z3 D r s tap in H1, H4. rewrite H1, H4. unfold D, Dsum in *. clearbody z1 z2 z3.
  split; field; auto.
Qed.
Print Assumptions C11_zero_seq_YNyn_short_circuit.

(* Dyn: the hv side is open for the zero sequence — the only thing the row puts at the hv bus (and between the buses) is
   the series impedance BIG*(1+j), BIG = 1e20*baseMVA, with no shunt; at the lv bus it adds the shunt admittance whose
   impedance is z2 + z1||z3 (lv leakage in series with hv leakage parallel to the magnetising impedance: the delta winding
   short-circuits the zero sequence) *)
Theorem C11_zero_seq_Dyn : forall sn bm z q sx sm e,
  z_vg z = Dyn -> z_ins z = true -> ~ bm == 0 ->
  let z0 := z0_k sn z q sx in let z1 := z1_of z z0 in let z2 := z2_of z z0 in let z3 := z0_mag sn z q sm in
  let D := Dsum z1 z2 z3 in
  ~ z1 ==c C0 -> ~ z2 ==c C0 -> ~ z3 ==c C0 -> ~ D ==c C0 -> ~ Cadd z1 z3 ==c C0 ->
  let r := zero_row sn bm z q sx sm in let s := branch_vectors r e in let tap := ctap r e in
  ~ tap ==c C0 -> ~ Cconj tap ==c C0 ->
  let Zbig := mkC (BIG bm) (BIG bm) in
  Cmul (Cmul (Yff s) (Cmul tap (Cconj tap))) Zbig ==c C1 /\
  Cmul (Cmul (Yft s) (Cconj tap)) Zbig ==c Copp C1 /\
  Cmul (Cmul (Ytf s) tap) Zbig ==c Copp C1 /\
  Cmul (Csub (Ytt s) (Cinv Zbig)) (Cadd z2 (Cdiv (Cmul z1 z3) (Cadd z1 z3))) ==c C1.
Proof.
  intros sn bm z q sx sm e VG INS BM z0 z1 z2 z3 D N1 N2 N3 ND N13 r s tap NT NTC Zbig.
  destruct (t_to_pi_spec z1 z2 z3 N1 N2 N3 ND) as (PC & PAB & PAN & PBN). fold D in PC, PAB, PAN, PBN.
  set (p := t_to_pi z1 z2 z3) in *.
  (* the row of the vector group *)
  assert (E : mkC (zr_r r) (zr_x r) = Zbig /\ zr_ysym r = C0 /\ zr_yasym r = Cq 2 (Cq 1 (Cadd (p_YAB p) (p_YBN p))))
    by (unfold r, zero_row; rewrite VG, INS; repeat split).
  destruct E as (ER & ES & EA).
  destruct (bv_generic r e (zero_row_status sn bm z q sx sm INS) NT NTC) as (H1 & H2 & H3 & H4).
  fold s in H1, H2, H3, H4. fold tap in H1, H2, H3.
  assert (NB : ~ Zbig ==c C0).
  { unfold Zbig, BIG. intros [K _]. unfold C0 in K. cbn [re] in K. rewrite qmul_correct in K.
    apply BM. assert (E : bm == (100000000000000000000 # 1) * bm * (1 # 100000000000000000000)) by ring. rewrite E, K. reflexivity. }
  rewrite H1, H2, H3, H4, ER, ES, EA, PAB, PBN, !Cq_Cq. unfold D, Dsum in *. clearbody Zbig z1 z2 z3.
  assert (Q0 : forall k, Cq k C0 ==c C0) by (intros; unfold Cq; cstrip; ring).
  assert (A0 : forall x, Cadd C0 x ==c x) by (intros; ring).
  rewrite Q0, A0, Cq_Cq, !Cq_mul.
  assert (E1 : CofQ ((1 # 2) * (2 * 1)) ==c C1) by (unfold CofQ; split; cbn [re im C1]; [ring | reflexivity]).
  rewrite E1.
  split; [| split; [| split]]; field; auto.
Qed.
Print Assumptions C11_zero_seq_Dyn.

(* the factor (tap_lv/tap_hv)*TAP^2 in the YNyn hv shunt is 1: it only undoes the division by |tap|^2 of makeYbus *)
Theorem C11_zero_seq_ratio_factor : forall sn z q,
  ~ sn == 0 -> ~ t_basekv_lv (z_t z) == 0 -> ~ t_basekv_hv (z_t z) == 0 ->
  ~ vn_trafo_lv (z_t z) q == 0 -> ~ vn_trafo_hv (z_t z) q == 0 ->
  trafo_ratio (z_t z) q * trafo_ratio (z_t z) q * (ztap_lv sn z q / ztap_hv sn z q) == 1.
Proof. exact ratio_factor. Qed.
Print Assumptions C11_zero_seq_ratio_factor.

Example C11_zero_seq_nonvacuous : forall vg, vg = Dyn \/ vg = YNyn ->
  let z := zero_wit vg in let sn := 1 in let q := 21 in let sx := 1323 # 200000 in let sm := 5 # 4 in let e := mkC (-3 # 5) (4 # 5) in
  G11_zero sn 1 z q sm = true /\ is_sqrt q (tap_sqrt_arg (z_t z)) /\ is_sqrt sx (z0_sqrt_arg sn z q) /\ is_sqrt sm (mag_sqrt_arg z) /\
  cnorm2 e == 1 /\
  let z0 := z0_k sn z q sx in let z1 := z1_of z z0 in let z2 := z2_of z z0 in let z3 := z0_mag sn z q sm in
  ~ z1 ==c C0 /\ ~ z2 ==c C0 /\ ~ z3 ==c C0 /\ ~ Dsum z1 z2 z3 ==c C0 /\ ~ Cadd z2 z3 ==c C0 /\ ~ Cadd z1 z3 ==c C0 /\
  let r := zero_row sn 1 z q sx sm in ~ ctap r e ==c C0 /\ ~ Cconj (ctap r e) ==c C0.
Proof. exact zero_nonvacuous. Qed.
