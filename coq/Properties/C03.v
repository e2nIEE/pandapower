(* C03 — property theorems (the lemmas they share are in C03/Proofs.v), on the shared branch model C02/Model.v *)
From Coq Require Import ZArith QArith List Bool Lqa.
From PPV Require Import Base.QN Base.QC C31.Model C02.Model C02.Proofs C03.Model C03.Proofs.
From PPV Require C01.Model C01.YbusModel C01.BranchModel C03.ComposeModel C03.Compose.     (* composition with C01, imported in Module Composed *)
Import ListNotations.
Open Scope Q_scope.

(* pl_mw = p_from + p_to of a branch whose series resistance and shunt conductances are non-negative is >= 0,
   for every complex tap (phase shifters included), every voltage pair, any reactances / susceptances.
   pl = results_branch.py :115 (lines), :316 (trafo), :551 (impedance); flows = pfsoln; stamps_core = makeYbus *)
Theorem C03_pi_loss_nonneg : forall br e vf vt sn,
  b_stat br = true -> b_ra br == 0 -> b_xa br == 0 ->
  ~ (b_r br) * (b_r br) + (b_x br) * (b_x br) == 0 -> ~ b_tap br == 0 -> re e * re e + im e * im e == 1 ->
  0 <= sn -> 0 <= b_r br -> 0 <= b_g br -> 0 <= b_g br + b_ga br ->
  0 <= re (pl (fst (flows (stamps_core br e) vf vt sn)) (snd (flows (stamps_core br e) vf vt sn))).
Proof. exact pi_loss_nonneg. Qed.
Print Assumptions C03_pi_loss_nonneg.

(* the losses are exactly the dissipation of the series resistance and of the two shunt conductances *)
Theorem C03_pi_loss_identity : forall br e vf vt sn,
  b_stat br = true -> b_ra br == 0 -> b_xa br == 0 ->
  ~ (b_r br) * (b_r br) + (b_x br) * (b_x br) == 0 -> ~ b_tap br == 0 -> re e * re e + im e * im e == 1 ->
  let s := flows (stamps_core br e) vf vt sn in
  let vf' := Cdiv vf (Cscale (b_tap br) e) in
  re (fst s) + re (snd s) ==
  sn * (b_r br / (b_r br * b_r br + b_x br * b_x br) * csq (Csub vf' vt)
        + b_g br / 2 * csq vf' + (b_g br + b_ga br) / 2 * csq vt).
Proof. exact pi_loss_identity. Qed.
Print Assumptions C03_pi_loss_identity.

(* the same statement on the executable functions the correspondence run evaluates (C03/Model.v):
   reported pl_mw = dissipation in the resistance and conductances *)
Theorem C03_loss_is_dissipation : forall br e vf vt sn,
  b_stat br = true -> b_ra br == 0 -> b_xa br == 0 ->
  ~ (b_r br) * (b_r br) + (b_x br) * (b_x br) == 0 -> ~ b_tap br == 0 -> re e * re e + im e * im e == 1 ->
  re (loss_reported br e vf vt sn) == dissipation br e vf vt sn.
Proof. exact loss_is_dissipation. Qed.
Print Assumptions C03_loss_is_dissipation.

(* T-model transformer (two-port level): the pi parameters of _wye_delta draw non-negative active power for all
   terminal voltages when r*rr, r*(1-rr), g (pfe) are non-negative *)
Theorem C03_t_model_loss_nonneg : forall r x g b rr xr vf vt,
  let za := wd_za r x rr xr in let zb := wd_zb r x rr xr in let yc := mkC g b in
  ~ za ==c C0 -> ~ zb ==c C0 -> ~ yc ==c C0 ->
  ~ Cadd (Cadd za zb) (Cmul (Cmul za zb) yc) ==c C0 ->
  0 <= re za -> 0 <= re zb -> 0 <= g ->
  let '(r', x', g', b', ga, ba) := wye_delta_core r x g b rr xr in
  0 <= re (port_power vf vt (pi_circuit_I r' x' g' b' ga ba vf vt)).
Proof. exact t_model_loss_nonneg. Qed.
Print Assumptions C03_t_model_loss_nonneg.

(* global conservation: if every bus balances, sum of injections (generation - consumption) = sum of branch losses;
   any number of buses and branches, parallel branches and self loops included *)
Theorem C03_global_conservation : forall buses brs (inj : nat -> Q),
  NoDup buses -> (forall b, In b brs -> In (bf_f b) buses /\ In (bf_t b) buses) ->
  (forall k, In k buses -> inj k == bus_outflow brs k) ->
  qsum (map inj buses) == qsum (map (fun b => bf_pf b + bf_pt b) brs).
Proof. exact conservation_from_nodal_balance. Qed.
Print Assumptions C03_global_conservation.

(* DC power flow: every branch is lossless *)
Theorem C03_dc_lossless : forall b shift pi vaf vat sn,
  fst (dc_flow b shift pi vaf vat sn) + snd (dc_flow b shift pi vaf vat sn) == 0.
Proof. exact dc_lossless. Qed.
Print Assumptions C03_dc_lossless.

(* non-vacuity: hypotheses of C03_pi_loss_nonneg hold for a concrete phase-shifting branch, and the loss is > 0 *)
Example C03_nonvacuous :
  let br := mkB (1 # 100) (1 # 10) (1 # 1000) (-1 # 50) 0 0 0 0 (21 # 20) 30 true 100 in
  let e := mkC (4 # 5) (3 # 5) in
  0 < re (pl (fst (flows (stamps_core br e) (mkC 1 0) (mkC (9 # 10) (-1 # 10)) 10))
             (snd (flows (stamps_core br e) (mkC 1 0) (mkC (9 # 10) (-1 # 10)) 10))).
Proof. vm_compute. reflexivity. Qed.
Print Assumptions C03_nonvacuous.

(* which element rows meet the hypotheses of the loss theorems *)
Theorem C03_line_row_symmetric : forall sn fhz pi sqrt3 base vnfrom l,
  let br := line_branch sn fhz pi sqrt3 base vnfrom l in
  b_ra br = 0 /\ b_xa br = 0 /\ b_ga br = 0 /\ b_tap br = 1 /\ b_stat br = l_in l.
Proof. intros. unfold br, line_branch. cbn. repeat split; reflexivity. Qed.
Print Assumptions C03_line_row_symmetric.
Theorem C03_line_row_passive : forall sn fhz pi sqrt3 base vnfrom l,
  l_temp l = None -> 0 < sn -> ~ base == 0 -> 0 < l_par l -> 0 <= l_r l -> 0 <= l_len l -> 0 <= l_g l ->
  let br := line_branch sn fhz pi sqrt3 base vnfrom l in 0 <= b_r br /\ 0 <= b_g br /\ 0 <= b_g br + b_ga br.
Proof.
  intros sn fhz pi sqrt3 base vnfrom l Ht Hsn Hb Hp Hr Hl Hg br. unfold br, line_branch. rewrite Ht.
  cbn [b_r b_g b_ga]. unfold qsq.
  assert (Hbb : 0 < base * base) by nra.
  assert (HR : 0 < base * base / sn) by (apply Qlt_shift_div_l; [exact Hsn | rewrite Qmult_0_l; exact Hbb]).
  repeat split.
  - qstrip. apply Qle_shift_div_l; [exact Hp|]. rewrite Qmult_0_l.
    apply Qle_shift_div_l; [exact HR|]. rewrite Qmult_0_l. apply Qmult_le_0_compat; assumption.
  - qstrip. apply Qmult_le_0_compat; [apply Qmult_le_0_compat; [apply Qmult_le_0_compat; [exact Hg | discriminate] | apply Qlt_le_weak; exact HR] | apply Qmult_le_0_compat; [exact Hl | apply Qlt_le_weak; exact Hp]].
  - assert (E : 0 <= qmul (qmul (qmul (l_g l) (1 # 1000000)) (qdiv (qmul base base) sn)) (qmul (l_len l) (l_par l))).
    { qstrip. apply Qmult_le_0_compat; [apply Qmult_le_0_compat; [apply Qmult_le_0_compat; [exact Hg | discriminate] | apply Qlt_le_weak; exact HR] | apply Qmult_le_0_compat; [exact Hl | apply Qlt_le_weak; exact Hp]]. }
    lra.
Qed.
Print Assumptions C03_line_row_passive.
Theorem C03_trafo_row_symmetric : forall sn tm t o vnh vnl shift basehv baselv br,
  trafo_branch sn tm t o vnh vnl shift basehv baselv = Ok br -> b_ra br = 0 /\ b_xa br = 0.
Proof.
  intros sn tm t o vnh vnl shift basehv baselv br H.
  destruct (trafo_branch_shape _ _ _ _ _ _ _ _ _ _ H) as (A & B & _). split; assumption.
Qed.
Print Assumptions C03_trafo_row_symmetric.
Theorem C03_xward_switch_rows_symmetric : forall sn basekv r x is z rx oq_,
  b_ra (xward_branch sn basekv r x is) = 0 /\ b_xa (xward_branch sn basekv r x is) = 0 /\
  b_ra (switch_branch sn basekv z rx oq_) = 0 /\ b_xa (switch_branch sn basekv z rx oq_) = 0.
Proof. intros. unfold xward_branch, switch_branch. cbn. repeat split; reflexivity. Qed.
Print Assumptions C03_xward_switch_rows_symmetric.

(* T-model transformer end to end: a branch row carrying the pi parameters _wye_delta computed from a passive T circuit
   (r*rr, r*(1-rr), pfe >= 0), stamped by makeYbus with any complex tap and evaluated by pfsoln, reports pl_mw >= 0 *)
Theorem C03_t_model_row_loss_nonneg : forall br e vf vt sn r x g b rr xr,
  b_stat br = true -> b_ra br == 0 -> b_xa br == 0 ->
  ~ (b_r br) * (b_r br) + (b_x br) * (b_x br) == 0 -> ~ b_tap br == 0 -> re e * re e + im e * im e == 1 ->
  (b_r br, b_x br, b_g br, b_b br, b_ga br, b_ba br) = wye_delta_core r x g b rr xr ->
  let za := wd_za r x rr xr in let zb := wd_zb r x rr xr in let yc := mkC g b in
  ~ za ==c C0 -> ~ zb ==c C0 -> ~ yc ==c C0 -> ~ Cadd (Cadd za zb) (Cmul (Cmul za zb) yc) ==c C0 ->
  0 <= sn -> 0 <= re za -> 0 <= re zb -> 0 <= g ->
  0 <= re (pl (fst (flows (stamps_core br e) vf vt sn)) (snd (flows (stamps_core br e) vf vt sn))).
Proof.
  intros br e vf vt sn r x g b rr xr Hs Hra Hxa Hz Ht He Hrow za zb yc Ha Hb Hc Hd Hsn Pa Pb Pg.
  pose proof (t_model_row_flows br e vf vt sn r x g b rr xr Hs Hra Hxa Hz Ht He Hrow Ha Hb Hc Hd) as F.
  cbn zeta in F. fold za zb yc in F.
  set (vf' := Cdiv vf (Cscale (b_tap br) e)) in *.
  set (i := t_circuit_I za zb yc vf' vt) in *.
  destruct F as [F1 F2]. cbn [fst snd] in F1, F2.
  rewrite re_pl, F1, F2, !re_scale, re_port_power. apply Qmult_le_0_compat; [exact Hsn|].
  unfold i. apply t_circuit_loss_nonneg; assumption.
Qed.
Print Assumptions C03_t_model_row_loss_nonneg.

(* composition with C01 (coq/C03/Compose.v): the nodal balances are not a hypothesis.
   n : C01.Model.net (result-table side: gen rows after pfsoln, loads with their own ZIP law at the solved |V|, sgens, storages,
   wards, shunts), ps : the in-service ppc branch rows (C01.BranchModel.prow over C02.Model.brow), V : the solved voltages,
   v k = |V_k|, inj_of = V_k conj((Ybus V)_k) of the Ybus assembled from ps and the bus shunts, mism_p = the Newton P mismatch
   in MW (an NR equation at every non-reference bus), G03 = C01's guard G01p (no ZIP-averaging defect) plus the slack power of a
   reference bus being assignable, row_loss = the reported pl_mw = p_from + p_to of the row (C03.Model.loss_reported).
   Zero mismatch and the guards  ==>  total generation - total consumption = sum of the reported branch losses. *)
Module Composed.
Import C01.Model C01.YbusModel C01.BranchModel C03.ComposeModel C03.Compose.
Theorem C03_conservation_composed_with_C01 : forall n ref ps V (v : nat -> Q) buses,
  ~ base n == 0 -> NoDup buses ->
  (forall p, In p ps -> In (pr_f p) buses /\ In (pr_t p) buses) ->
  (forall k, In k buses -> v k * v k == cnorm2 (vat V k)) ->
  (forall k, In k buses -> G03 n ref k = true) ->
  (forall k, In k buses -> (memn k ref && has_gen n k) = false -> mism_p n k (v k) (inj_of n ps V k) == 0) ->
  qsum (map (fun k => gen_p n ref k (v k) (inj_of n ps V k) - cons_p n k (v k)) buses)
  == qsum (map (row_loss V (base n)) ps).
Proof. exact conservation_composed. Qed.
Print Assumptions C03_conservation_composed_with_C01.
(* with C03_pi_loss_nonneg on every row: the generation covers the consumption *)
Theorem C03_generation_covers_consumption : forall n ref ps V (v : nat -> Q) buses,
  ~ base n == 0 -> 0 <= base n -> NoDup buses ->
  (forall p, In p ps -> In (pr_f p) buses /\ In (pr_t p) buses) ->
  (forall k, In k buses -> v k * v k == cnorm2 (vat V k)) ->
  (forall k, In k buses -> G03 n ref k = true) ->
  (forall k, In k buses -> (memn k ref && has_gen n k) = false -> mism_p n k (v k) (inj_of n ps V k) == 0) ->
  (forall p, In p ps -> row_passive (base n) p) ->
  0 <= qsum (map (fun k => gen_p n ref k (v k) (inj_of n ps V k) - cons_p n k (v k)) buses).
Proof.
  intros n ref ps V v buses Hb Hb0 Hnd Hin Hv HG Hm Hp.
  rewrite (conservation_composed n ref ps V v buses Hb Hnd Hin Hv HG Hm).
  apply qsum_nonneg. intros p Hpin. destruct (Hp p Hpin) as (S & Ra & Xa & Z & T & E & R & G & Ga).
  unfold row_loss, C03.Model.loss_reported.
  apply (C03.Proofs.pi_loss_nonneg (pr_row p) (pr_e p) _ _ (base n) S Ra Xa Z T E Hb0 R G Ga).
Qed.
Print Assumptions C03_generation_covers_consumption.
(* non-vacuity: reference bus -- resistive branch -- bus with a 100 % constant-impedance (voltage dependent) load at |V| = 13/20,
   Newton mismatch exactly zero: generation - consumption = losses = 89/404 MW *)
Example C03_composed_nonvacuous :
  vdl ex_net = true /\ G03 ex_net [0%nat] 0 = true /\ G03 ex_net [0%nat] 1 = true /\
  ex_v 1 * ex_v 1 == cnorm2 (vat ex_V 1) /\
  mism_p ex_net 1 (ex_v 1) (inj_of ex_net ex_ps ex_V 1) == 0 /\
  cons_p ex_net 1 (ex_v 1) == 1071 # 404 /\
  qsum (map (fun k => gen_p ex_net [0%nat] k (ex_v k) (inj_of ex_net ex_ps ex_V k) - cons_p ex_net k (ex_v k)) [0; 1]%nat) == 89 # 404 /\
  qsum (map (row_loss ex_V (base ex_net)) ex_ps) == 89 # 404.
Proof. repeat split; vm_compute; reflexivity. Qed.
Print Assumptions C03_composed_nonvacuous.
End Composed.
