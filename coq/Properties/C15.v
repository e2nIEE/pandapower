(* C15 — parallel contingency analysis equals the sequential one (lemmas in C15/Proofs.v, C15/ChunkProofs.v) *)
From Coq Require Import ZArith QArith List Bool Permutation Lia.
From PPV Require Import Base.QN C14.Model C14.Proofs C15.Model C15.Proofs C15.Chunk C15.ChunkProofs.
Import ListNotations.

(* Whatever the number of workers and their completion order, Pool.map hands back the packs in task
   order (contract, validated on the impl by every run); then the parallel aggregation equals the
   sequential one on every field (max, min, cause), for every evaluation function and task list. *)
Theorem C15_par_eq_seq : forall n tasks ev, run_par n (pool_map tasks ev) = run_seq n tasks ev.
Proof. intros n tasks ev. unfold run_par, run_seq. rewrite par_eq_seq_cases. reflexivity. Qed.
Print Assumptions C15_par_eq_seq.

(* Even if the packs were aggregated in a different (completion) order, max and min do not change ... *)
Theorem C15_max_order_independent : forall l l',
  Permutation l l' -> feq (mx (run_col l acc0)) (mx (run_col l' acc0)).
Proof.
  intros l l' P.
  exact (extreme_opt_perm Qle Qle_eq_l Qle_antisym _ _ _ _
           (valid_vals_perm l l' P) (max_is_spec_max l) (max_is_spec_max l')).
Qed.
Print Assumptions C15_max_order_independent.
Theorem C15_min_order_independent : forall l l',
  Permutation l l' -> feq (mn (run_col l acc0)) (mn (run_col l' acc0)).
Proof.
  intros l l' P.
  exact (extreme_opt_perm (fun x y => y <= x)%Q Qle_eq_r (fun x y H1 H2 => Qle_antisym x y H2 H1) _ _ _ _
           (valid_vals_perm l l' P) (min_is_spec_min l) (min_is_spec_min l')).
Qed.
Print Assumptions C15_min_order_independent.
Theorem C15_col_perm : forall j cases cases', Permutation cases cases' -> Permutation (col j cases) (col j cases').
Proof. intros j cases cases' P. unfold col. apply Permutation_flat_map. exact P. Qed.
Print Assumptions C15_col_perm.

(* ... and the cause still names an outage attaining the maximum; only among exact ties may the named
   outage depend on the order, which is why the Pool.map order contract is needed for C15_par_eq_seq. *)
Theorem C15_cause_attains_any_order : forall l l',
  Permutation l l' -> attains l (cause (run_col l' acc0)) (mx (run_col l' acc0)).
Proof.
  intros l l' P. apply (attains_incl l'); [|apply cause_attains_max].
  intros x. apply Permutation_in, Permutation_sym, P.
Qed.
Print Assumptions C15_cause_attains_any_order.
Theorem C15_cause_order_dependent_on_ties_refuted :
  exists l l', Permutation l l' /\ cause (run_col l acc0) <> cause (run_col l' acc0).
Proof.
  (* two cases with the same loading: the first one aggregated is named *)
  pose (tie := [ ((0%nat, 1%Z), {| o_in := true; o_val := Some 50%Q; o_lim := None |});
                 ((0%nat, 2%Z), {| o_in := true; o_val := Some 50%Q; o_lim := None |}) ]).
  exists tie, (rev tie). split; [apply Permutation_rev | vm_compute; discriminate].
Qed.
Print Assumptions C15_cause_order_dependent_on_ties_refuted.

(* Pool.map chunking (C15/Chunk.v): a model of chunking, worker assignment and per-chunk nets *)

(* With the worker as it is (every task on its own copy of the element table) Pool.map returns, for every chunk size
   k >= 1, every assignment of chunks to workers, every start order that covers all chunks, and whether or not a
   worker keeps its net between chunks, exactly: each task evaluated on a fresh copy of the initial net with its own
   outage only, in task order. *)
Theorem C15_chunked_eq_plain : forall ev persist st0 k assign order tasks,
  (1 <= k)%nat -> (forall i, (i < length (chunks k tasks))%nat -> In i order) ->
  pool_map_chunked (work_copy ev) persist st0 k assign order tasks = map (plain_pack ev st0) tasks.
Proof.
  intros ev persist st0 k assign order tasks Hk Hcov.
  (* the worker never writes the net it holds *)
  apply chunked_stable; [intros t _; reflexivity | exact Hk | exact Hcov].
Qed.
Print Assumptions C15_chunked_eq_plain.

Theorem C15_chunked_schedule_independent : forall ev st0 tasks persist k assign order persist' k' assign' order',
  (1 <= k)%nat -> (forall i, (i < length (chunks k tasks))%nat -> In i order) ->
  (1 <= k')%nat -> (forall i, (i < length (chunks k' tasks))%nat -> In i order') ->
  pool_map_chunked (work_copy ev) persist st0 k assign order tasks =
  pool_map_chunked (work_copy ev) persist' st0 k' assign' order' tasks.
Proof. intros. rewrite !C15_chunked_eq_plain by assumption. reflexivity. Qed.
Print Assumptions C15_chunked_schedule_independent.

(* chunking itself: the chunks concatenate to the task list; the default chunk size of Pool.map is >= 1 *)
Theorem C15_chunks_concat : forall k (l : list task), (1 <= k)%nat -> concat (chunks k l) = l.
Proof. exact (@chunks_concat task). Qed.
Print Assumptions C15_chunks_concat.
Theorem C15_pool_chunksize_pos : forall ntasks procs,
  (1 <= ntasks)%nat -> (1 <= procs)%nat -> (1 <= pool_chunksize ntasks procs)%nat.
Proof.
  intros ntasks procs Hn Hp. unfold pool_chunksize. set (d := (4 * procs)%nat).
  assert (Hd : d <> 0%nat) by (unfold d; lia).
  destruct (Nat.eqb (ntasks mod d) 0) eqn:E; [|lia].
  apply Nat.eqb_eq in E. pose proof (Nat.div_mod ntasks d Hd) as H. rewrite E in H.
  destruct (ntasks / d)%nat; lia.
Qed.
Print Assumptions C15_pool_chunksize_pos.

(* the packs of the parallel path are those of the sequential loop on the net itself (outage, evaluation, finally
   back in service), given that tasks are only built for in-service elements (:104-107) ... *)
Theorem C15_chunked_par_eq_seq : forall ev persist st0 k assign order tasks,
  (1 <= k)%nat -> (forall i, (i < length (chunks k tasks))%nat -> In i order) ->
  tasks_in_service st0 tasks = true ->
  pool_map_chunked (work_copy ev) persist st0 k assign order tasks = snd (seq_packs ev st0 tasks).
Proof.
  intros ev persist st0 k assign order tasks Hk Hcov Hs.
  rewrite C15_chunked_eq_plain, seq_packs_plain by assumption. reflexivity.
Qed.
Print Assumptions C15_chunked_par_eq_seq.
(* ... and so is every aggregated field, for the default chunk size of any number of processes *)
Theorem C15_chunked_aggregate_eq_seq : forall n lims ev persist st0 procs assign order tasks,
  (1 <= procs)%nat -> tasks <> [] ->
  (forall i, (i < length (chunks (pool_chunksize (length tasks) procs) tasks))%nat -> In i order) ->
  tasks_in_service st0 tasks = true ->
  run_par n (map (to_pack lims) (pool_map_chunked (work_copy ev) persist st0 (pool_chunksize (length tasks) procs) assign order tasks)) =
  run_par n (map (to_pack lims) (snd (seq_packs ev st0 tasks))).
Proof.
  intros n lims ev persist st0 procs assign order tasks Hp Ht Hcov Hs.
  rewrite C15_chunked_par_eq_seq; try assumption; [reflexivity|].
  apply C15_pool_chunksize_pos; [destruct tasks; [contradiction | cbn; lia] | exact Hp].
Qed.
Print Assumptions C15_chunked_aggregate_eq_seq.
Example C15_chunked_eq_plain_nonvacuous :
  pool_map_chunked (work_copy m2_ev) false m2_st0 2 (fun i => i) [1%nat; 0%nat] m2_tasks =
  pool_map_chunked (work_copy m2_ev) true m2_st0 1 (fun _ => 0%nat) [2%nat; 0%nat; 1%nat; 0%nat] m2_tasks /\
  map (fun p : wpack => match snd p with Some _ => true | None => false end)
      (pool_map_chunked (work_copy m2_ev) false m2_st0 2 (fun i => i) [1%nat; 0%nat] m2_tasks) = [false; true; true] /\
  chunks 2 m2_tasks = [[((0%nat, 10%Z), 0%nat); ((0%nat, 11%Z), 1%nat)]; [((0%nat, 12%Z), 2%nat)]] /\
  pool_chunksize 10 2 = 2%nat /\ pool_chunksize 10 3 = 1%nat /\ pool_chunksize 3 2 = 1%nat.
Proof. exact chunked_eq_plain_nonvacuous. Qed.

(* State shared within a chunk (no per-task deepcopy, the outage toggled on the chunk's
   table and switched back on only on the success path): the statement is REFUTED — the result depends on the chunk
   size and differs from the sequential one as soon as a raising outage is not the last task of its chunk ... *)
Theorem C15_shared_chunksize_dependent_refuted :
  exists ev st0 tasks k k' assign order,
    (1 <= k)%nat /\ (1 <= k')%nat /\
    (forall i, (i < length (chunks k tasks))%nat -> In i order) /\
    (forall i, (i < length (chunks k' tasks))%nat -> In i order) /\
    tasks_in_service st0 tasks = true /\
    pool_map_chunked (work_shared ev) false st0 k assign order tasks <>
    pool_map_chunked (work_shared ev) false st0 k' assign order tasks.
Proof.
  exists m2_ev, m2_st0, m2_tasks, 1%nat, 2%nat, (fun _ => 0%nat), m2_order.
  split; [lia|]. split; [lia|]. split; [apply m2_order_covers|]. split; [apply m2_order_covers|].
  split; [reflexivity|]. vm_compute. discriminate.
Qed.
Print Assumptions C15_shared_chunksize_dependent_refuted.
Theorem C15_shared_not_seq_refuted :
  exists ev st0 tasks k assign order,
    (1 <= k)%nat /\ (forall i, (i < length (chunks k tasks))%nat -> In i order) /\
    tasks_in_service st0 tasks = true /\
    pool_map_chunked (work_shared ev) false st0 k assign order tasks <> snd (seq_packs ev st0 tasks).
Proof.
  exists m2_ev, m2_st0, m2_tasks, 2%nat, (fun _ => 0%nat), m2_order.
  split; [lia|]. split; [apply m2_order_covers|]. split; [reflexivity|]. vm_compute. discriminate.
Qed.
Print Assumptions C15_shared_not_seq_refuted.
(* ... and holds under the boolean guard "no evaluation raises" *)
Theorem C15_shared_partial : forall ev persist st0 k assign order tasks,
  (1 <= k)%nat -> (forall i, (i < length (chunks k tasks))%nat -> In i order) ->
  tasks_in_service st0 tasks = true -> all_succeed ev st0 tasks = true ->
  pool_map_chunked (work_shared ev) persist st0 k assign order tasks = map (plain_pack ev st0) tasks.
Proof.
  intros ev persist st0 k assign order tasks Hk Hcov Hs Ha. apply chunked_stable; [|exact Hk|exact Hcov].
  (* on the success path the shared table is switched back *)
  intros t Ht. unfold tasks_in_service, all_succeed in Hs, Ha. rewrite forallb_forall in Hs, Ha.
  specialize (Hs t Ht). specialize (Ha t Ht). cbv beta in Hs, Ha. unfold work_shared, plain_pack.
  destruct (ev (set_nth st0 (snd t) false)); [|discriminate].
  rewrite (set_nth_restore st0 (snd t) Hs). reflexivity.
Qed.
Print Assumptions C15_shared_partial.
Example C15_shared_partial_nonvacuous :
  tasks_in_service m2_st0 (tl m2_tasks) = true /\ all_succeed m2_ev m2_st0 (tl m2_tasks) = true /\
  all_succeed m2_ev m2_st0 m2_tasks = false.
Proof. exact shared_partial_nonvacuous. Qed.
