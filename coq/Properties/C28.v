(* C28 — grid equivalents: Kron reduction and ward parameters.
   rowdot r v = sum_j r_j*v_j ; a system row of a kept bus is (rb, yie) = (entries at kept buses, entry at the eliminated
   bus), the eliminated bus' row is (re_, yee).  elim_row is the Schur-complement row  rb - yie/yee * re_. *)
From Coq Require Import ZArith QArith List Bool Lia.
From PPV Require Import Base.QN Base.QC C28.Model C28.Proofs C28.Kron C28.Coupling C28.Block.
Import ListNotations.
Open Scope Q_scope.

(* eliminating a bus keeps the nodal equation of every other bus: the same voltages solve the reduced system, with the
   current of the eliminated bus transferred (I_i - yie/yee * I_e).  Entry-wise, for every row and every size. *)
Theorem C28_kron_one_bus_preserves_equation : forall rb yie re_ yee vb ve ii ie,
  ~ re yee * re yee + im yee * im yee == 0 ->
  length rb = length re_ -> length rb = length vb ->
  Cadd (rowdot rb vb) (Cmul yie ve) ==c ii ->
  Cadd (rowdot re_ vb) (Cmul yee ve) ==c ie ->
  rowdot (elim_row rb yie re_ yee) vb ==c Csub ii (Cmul (Cdiv yie yee) ie).
Proof. intros rb yie re_ yee vb ve ii ie Hn. apply kron_one_row. apply nonzero_Cnz. exact Hn. Qed.
Print Assumptions C28_kron_one_bus_preserves_equation.

(* all kept rows at once (one elimination step of the whole system) *)
Theorem C28_kron_step_preserves_system : forall rows re_ yee vb ve Is ie,
  ~ re yee * re yee + im yee * im yee == 0 ->
  (forall r, In r rows -> length (fst r) = length re_) -> length re_ = length vb ->
  Forall2 (fun r i => Cadd (rowdot (fst r) vb) (Cmul (snd r) ve) ==c i) rows Is ->
  Cadd (rowdot re_ vb) (Cmul yee ve) ==c ie ->
  Forall2 (fun r i => rowdot (elim_row (fst r) (snd r) re_ yee) vb ==c Csub i (Cmul (Cdiv (snd r) yee) ie)) rows Is.
Proof.
  intros rows re_ yee vb ve Is ie Hn HL Lv HF He. apply nonzero_Cnz in Hn. induction HF as [|r i rows Is Hri HF IH]; constructor.
  - apply (kron_one_row _ _ _ _ _ ve); try assumption.
    + apply HL. left. reflexivity.
    + rewrite (HL r (or_introl eq_refl)). exact Lv.
  - apply IH. intros r' Hr'. apply HL. right. exact Hr'.
Qed.
Print Assumptions C28_kron_step_preserves_system.

Example C28_kron_nonvacuous :
  let yee := mkC 4 (-2) in let rb := [mkC 3 (-1)] in let re_ := [mkC (-1) 1] in
  let vb := [mkC 1 0] in let ve := mkC 1 (1 # 2) in
  ~ re yee * re yee + im yee * im yee == 0 /\ length rb = length re_ /\
  rowdot (elim_row rb (mkC (-1) 1) re_ yee) vb ==c
    Csub (Cadd (rowdot rb vb) (Cmul (mkC (-1) 1) ve)) (Cmul (Cdiv (mkC (-1) 1) yee) (Cadd (rowdot re_ vb) (Cmul yee ve))).
Proof. vm_compute. repeat split; try (intro H; discriminate H). Qed.

(* composition of the single steps (induction over the elimination order).
   square n Y : n rows of length n ; system Y v I : Y*v == I row by row ; kron_exact k Y : the last k buses eliminated one
   after the other (Model.elim_last each time) ; pivots_ok k Y : the k diagonal entries met on the way are non-zero ;
   kron_cur k Y I : the currents with the eliminated buses' currents transferred (I_i - y_ie/y_ee * I_e at each step). *)

(* general form: every solution (v, I) of the full system gives a solution of the reduced system on the kept buses *)
Theorem C28_kron_sequence_preserves_system : forall k m Y v I,
  square (m + k) Y -> length v = (m + k)%nat -> pivots_ok k Y ->
  system Y v I -> system (kron_exact k Y) (firstn m v) (kron_cur k Y I).
Proof.
  induction k as [|k IH]; intros m Y v I HY Lv Hp HS.
  - cbn [kron_exact kron_cur]. rewrite Nat.add_0_r in Lv. rewrite <- Lv, firstn_all. exact HS.
  - cbn [kron_exact kron_cur]. destruct Hp as [Hp Hps].
    replace (m + S k)%nat with (S (m + k)) in * by lia.
    rewrite <- (firstn_removelast (n:=m) v) by lia.
    apply IH.
    + apply elim_last_square. exact HY.
    + rewrite removelast_len. lia.
    + exact Hps.
    + apply (elim_last_sound (m + k)); assumption.
Qed.
Print Assumptions C28_kron_sequence_preserves_system.

(* the defining equations of the Schur complement Ykk - Yke*inv(Yee)*Yek: for EVERY voltage vector whose k external
   equations are homogeneous (no current at the eliminated buses), the reduced matrix applied to the kept (internal and
   boundary) voltages gives exactly the original currents of the kept buses *)
Theorem C28_kron_sequence_is_schur_complement : forall k m Y v I,
  square (m + k) Y -> length v = (m + k)%nat -> pivots_ok k Y ->
  system Y v I -> tail_zero k I ->
  system (kron_exact k Y) (firstn m v) (firstn m I).
Proof.
  induction k as [|k IH]; intros m Y v I HY Lv Hp HS Hz.
  - cbn [kron_exact]. pose proof (system_length _ _ _ HS) as LI. destruct HY as [LY _].
    rewrite Nat.add_0_r in *.
    assert (Ev : firstn m v = v) by (rewrite <- Lv; apply firstn_all).
    assert (EI : firstn m I = I) by (rewrite <- LY, LI; apply firstn_all).
    rewrite Ev, EI. exact HS.
  - cbn [kron_exact]. destruct Hp as [Hp Hps]. destruct Hz as [Hz Hzs].
    pose proof (system_length _ _ _ HS) as LI. pose proof HY as [LY _].
    replace (m + S k)%nat with (S (m + k)) in * by lia.
    rewrite <- (firstn_removelast (n:=m) v) by lia.
    rewrite <- (firstn_removelast (n:=m) I) by lia.
    apply IH.
    + apply elim_last_square. exact HY.
    + rewrite removelast_len. lia.
    + exact Hps.
    + apply (system_proper_I _ _ (elim_cur Y I)).
      * apply (elim_last_sound (m + k)); assumption.
      * apply elim_cur_zero; [rewrite !removelast_len; lia | exact Hz].
    + exact Hzs.
Qed.
Print Assumptions C28_kron_sequence_is_schur_complement.

(* the boolean pivot test evaluated by the correspondence run implies the hypothesis *)
Theorem C28_pivot_test_sound : forall k Y, pivots_okb k Y = true -> pivots_ok k Y.
Proof. exact pivots_okb_ok. Qed.
Print Assumptions C28_pivot_test_sound.

(* non-vacuity: a 4-bus ring with two buses eliminated: square, pivots non-zero, and a voltage vector with zero external
   currents exists (v = 1 at every bus of a ring without shunts gives I = 0) *)
Example C28_kron_sequence_nonvacuous :
  square (2 + 2) ex_Y /\ pivots_ok 2 ex_Y /\
  system ex_Y [C1; C1; C1; C1] [C0; C0; C0; C0] /\ tail_zero 2 [C0; C0; C0; C0] /\
  kron_exact 2 ex_Y <> [].
Proof.
  split; [exact ex_Y_square | split; [exact ex_Y_pivots | split; [| split]]].
  - repeat constructor; vm_compute; split; reflexivity.
  - repeat split; reflexivity.
  - vm_compute. discriminate.
Qed.

(* the block formula itself.  mvec A v = A*v ; vzip f a b = entry-wise f ; Veq = entry-wise ==c.
   The boundary block  Ybb - Ybe*Z*Yeb  computed by _calculate_equivalent_Ybus (Model.equivalent_Ybus_true builds exactly
   msub Ybb (mmul (mmul Ybe Z ne) Yeb nb) from the blocks of Ybus_sorted) satisfies the defining equations of the Schur
   complement whenever the oracle Z inverts Yee on the external voltages: for every (vb, ve) with Yeb*vb + Yee*ve == 0 it
   maps vb to Ybb*vb + Ybe*ve - the same equations that the bus-by-bus elimination satisfies
   (C28_kron_sequence_is_schur_complement). *)
Theorem C28_block_formula_is_schur_complement : forall (Ybb Ybe Yeb Yee Z : M) nb ne vb ve,
  (forall r, In r Yeb -> length r = nb) -> length vb = nb ->
  length Yeb = ne -> (forall r, In r Z -> length r = ne) ->
  length Ybe = length Ybb -> (forall r, In r Ybb -> length r = nb) ->
  Veq (mvec Z (mvec Yee ve)) ve ->
  Veq (mvec Yeb vb) (map Copp (mvec Yee ve)) ->
  Veq (mvec (msub Ybb (mmul (mmul Ybe Z ne) Yeb nb)) vb) (vzip Cadd (mvec Ybb vb) (mvec Ybe ve)).
Proof.
  intros Ybb Ybe Yeb Yee Z nb ne vb ve HYeb Lvb LYeb HZs LYbe HYbb HZ He.
  set (W := mmul (mmul Ybe Z ne) Yeb nb).
  assert (HW : Veq (mvec W vb) (map Copp (mvec Ybe ve))).
  { assert (Le : length (mvec Yeb vb) = ne) by (unfold mvec; rewrite map_length; exact LYeb).
    (* W*vb = Ybe*(Z*(Yeb*vb)) = Ybe*(Z*(-(Yee*ve))) = Ybe*(-(Z*(Yee*ve))) = Ybe*(-ve) *)
    unfold W. rewrite !mmul_vec by assumption.
    rewrite He, mvec_opp, HZ. apply mvec_opp. }
  rewrite mvec_msub; [apply vzip_sub_opp; exact HW|].
  (* shapes of Ybb and W agree *)
  apply (same_shape nb).
  - unfold W. rewrite !mmul_rows. symmetry. exact LYbe.
  - exact HYbb.
  - intros r I. unfold W in I. apply (mmul_cols _ _ _ _ I).
Qed.
Print Assumptions C28_block_formula_is_schur_complement.

(* matrix product of the model is associative with the matrix-vector product *)
Theorem C28_mmul_vec : forall A B n v, (forall r, In r B -> length r = n) -> length v = n ->
  Veq (mvec (mmul A B n) v) (mvec A (mvec B v)).
Proof. exact mmul_vec. Qed.
Print Assumptions C28_mmul_vec.

Example C28_block_formula_nonvacuous :
  let Ybb := [[mkC 2 (-1)]] in let Ybe := [[mkC (-1) 1]] in let Yeb := [[mkC (-1) 1]] in let Yee := [[mkC 4 (-2)]] in
  let Z := [[Cinv (mkC 4 (-2))]] in let vb := [mkC 1 0] in let ve := [Cmul (Cinv (mkC 4 (-2))) (mkC 1 (-1))] in
  Veq (mvec Z (mvec Yee ve)) ve /\ Veq (mvec Yeb vb) (map Copp (mvec Yee ve)).
Proof. exact block_formula_nonvacuous. Qed.

(* the implementation's block formula and the coupling block *)
(* under the guard G28 (Ybus_be equals the transpose of Ybus_eb, entry by entry) the implementation's formula
   (rei_generation.py: Ybus_be = Ybus_eb.T) equals the block formula with the true coupling block, for every oracle
   inverse Z; Meq = entry-wise ==c *)
Theorem C28_equivalent_Ybus_partial : forall Ys ni nb ne Z, G28 Ys ni nb ne = true ->
  Meq (equivalent_Ybus Ys ni nb ne Z) (equivalent_Ybus_true Ys ni nb ne Z).
Proof.
  intros Ys ni nb ne Z G. unfold G28 in G. apply Meqb_ok in G.
  unfold equivalent_Ybus, equivalent_Ybus_true. cbv zeta.
  apply Forall2_app; [reflexivity|].
  apply assemble_proper, msub_proper_r, mmul_proper_l, mmul_proper_l.
  symmetry. exact G.
Qed.
Print Assumptions C28_equivalent_Ybus_partial.

Theorem C28_equivalent_Ybus_refuted :
  G28 wit_Ys 0 1 1 = false /\
  ~ Meq (equivalent_Ybus wit_Ys 0 1 1 [[mkC (1 # 4) 0]]) (equivalent_Ybus_true wit_Ys 0 1 1 [[mkC (1 # 4) 0]]).
Proof.
  split; [vm_compute; reflexivity|]. vm_compute. intro H.
  inversion H as [|? ? ? ? H1 _]; subst. inversion H1 as [|? ? ? ? H2 _]; subst. destruct H2 as [A _]. vm_compute in A. discriminate A.
Qed.
Print Assumptions C28_equivalent_Ybus_refuted.

Example C28_equivalent_Ybus_nonvacuous : G28 sym_Ys 0 1 1 = true.
Proof. vm_compute. reflexivity. Qed.

(* the implementation builds the coupling block as the TRANSPOSE of Ybus_eb (rei_generation.py: Ybus_be = Ybus_eb.T).
   Its one-bus instance is the Schur row with y_ei in place of y_ie: equal when the coupling is symmetric ... *)
Theorem C28_impl_coupling_partial : forall rb y_ie y_ei re_ yee, y_ei ==c y_ie ->
  Forall2 Ceq (elim_row rb y_ei re_ yee) (elim_row rb y_ie re_ yee).
Proof.
  intros rb y_ie y_ei re_ yee H. unfold elim_row. revert re_. induction rb as [|a rb IH]; intros re_; [constructor|].
  destruct re_ as [|b re_]; [constructor|]. cbn [combine map fst snd]. constructor; [|apply IH].
  rewrite H. reflexivity.
Qed.
Print Assumptions C28_impl_coupling_partial.
(* ... and different for an unsymmetric admittance matrix (phase-shifting transformer between boundary and external area) *)
Theorem C28_impl_coupling_refuted : exists Y, ~ Forall2 (Forall2 Ceq) (elim_last_impl Y) (elim_last Y).
Proof.
  exists wit_Ys. vm_compute. intro H. inversion H as [|? ? ? ? H1 _]; subst. inversion H1 as [|? ? ? ? H2 _]; subst.
  destruct H2 as [A _]. vm_compute in A. discriminate A.
Qed.
Print Assumptions C28_impl_coupling_refuted.

(* ward/impedance parameters stamp exactly the reduced matrix: off-diagonal entry from z = -1/Y_ij, diagonal from the
   row-sum shunt *)
Theorem C28_ward_impedance_reproduces_entry : forall y, ~ re y * re y + im y * im y == 0 ->
  Copp (Cinv (z_of_y y)) ==c y.
Proof.
  intros y H. unfold z_of_y. cstrip; field; exact H.
Qed.
Print Assumptions C28_ward_impedance_reproduces_entry.

Theorem C28_ward_shunt_reproduces_diagonal : forall a x b,
  Csub (row_sum (a ++ x :: b)) (Csum (a ++ b)) ==c x.
Proof.
  intros a x b. unfold row_sum. rewrite !Csum_app, Csum_cons. ring.
Qed.
Print Assumptions C28_ward_shunt_reproduces_diagonal.
