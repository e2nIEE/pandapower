(* C06 — property theorems (lemmas in C06/Proofs.v, C06/PfsolnProofs.v, C06/ShiftProofs.v).  Model: C06/Model.v (BIBC
   index bookkeeping of pf/run_bfswpf.py _make_bibc_bcbv, algorithm dispatch).  Agreement of the iterative solvers themselves is searched
   differentially by harness/props/c06.py, not proved. *)
From Coq Require Import String ZArith List Bool Arith Lia.
From PPV Require Import C06.Model C06.Proofs.
Import ListNotations.
Local Open Scope Z_scope.

(* under G06 (reference buses are the first rows; at most one island is meshed) no column passed to csr_matrix is
   negative — _make_bibc_bcbv does not fail with "negative axis 1 index" ... *)
Theorem C06_bibc_guarded_not_negative : forall nobus isls, G06 isls = true -> (length isls <= nobus)%nat ->
  forall nobranch, bibc nobus nobranch isls <> BNeg.
Proof.
  intros nobus isls G Hn nobranch. unfold bibc. cbv zeta.
  destruct (existsb (fun e : entry => Z.ltb (snd (fst e)) 0) (all_entries nobus isls)) eqn:E.
  - apply existsb_exists in E. destruct E as [e [I L]]. cbv beta in L. apply Z.ltb_lt in L.
    pose proof (guarded_cols_nonneg nobus isls e G Hn I). lia.
  - intros H. destruct (existsb _ _) in H; discriminate H.
Qed.
Print Assumptions C06_bibc_guarded_not_negative.
(* ... and distinct loops get distinct columns of BIBC *)
Theorem C06_bibc_guarded_loop_cols_distinct : forall nobus isls, G06 isls = true -> (length isls <= nobus)%nat ->
  NoDup (loop_cols nobus isls).
Proof.
  intros nobus isls G _. unfold loop_cols. apply loop_cols_nodup_aux. unfold G06 in G. apply andb_prop in G. destruct G as [_ G2].
  now apply Nat.leb_le in G2.
Qed.
Print Assumptions C06_bibc_guarded_loop_cols_distinct.

(* without the guard: a radial feeder whose reference bus is not row 0 makes csr_matrix raise (the "internal error") *)
Theorem C06_bibc_ref_not_first_refuted : exists nobus nobranch isls, bibc nobus nobranch isls = BNeg.
Proof. exists 3%nat, 2%nat, w_ref_last. reflexivity. Qed.
Print Assumptions C06_bibc_ref_not_first_refuted.
(* and two meshed islands give two different loops the same column without any error *)
Theorem C06_bibc_multi_island_refuted :
  exists nobus nobranch isls, (exists es, bibc nobus nobranch isls = BOk es) /\ ~ NoDup (loop_cols nobus isls).
Proof.
  exists 6%nat, 6%nat, w_two_meshed. split; [eexists; reflexivity|].
  vm_compute. intros H. inversion H as [|x l N _]; subst. apply N. now left.
Qed.
Print Assumptions C06_bibc_multi_island_refuted.

Example C06_bibc_nonvacuous :
  let isls := [{| i_tree := [(0%nat, [1%nat; 2%nat; 3%nat]); (1%nat, [2%nat]); (2%nat, [3%nat])];
                  i_loops := [[(1%nat, 1); (3%nat, 1); (2%nat, -1)]] |}] in
  G06 isls = true /\ exists es, bibc 4 4 isls = BOk es /\ length es = 8%nat.
Proof. exact bibc_nonvacuous. Qed.
Print Assumptions C06_bibc_nonvacuous.

(* every documented AC algorithm name selects a solver (no AlgorithmUnknown) *)
Theorem C06_dispatch_total : forall alg, In alg ["nr"; "iwamoto_nr"; "bfsw"; "gs"; "fdbx"; "fdxb"]%string ->
  forall o d f, dispatch true alg o d f <> SRaise.
Proof.
  intros alg H o d f. simpl in H.
  repeat (destruct H as [<-|H]; [unfold dispatch; destruct (o && negb d && negb f); simpl; discriminate|]). contradiction.
Qed.
Print Assumptions C06_dispatch_total.

(* iwamoto_nr after "fix: iwamoto_nr works on networks without PQ buses": the root that is used always exists ... *)
Theorem C06_iwamoto_pick_in_range : forall (g3 g2 g1 g0 : QArith_base.Q) k,
  iwamoto_pick g3 g2 g1 g0 = Some k -> (k < n_roots [g3; g2; g1; g0])%nat.
Proof.
  intros g3 g2 g1 g0 k. unfold iwamoto_pick. destruct (n_roots [g3; g2; g1; g0]); intros H; inversion H; subst. apply Nat.lt_succ_diag_r.
Qed.
Print Assumptions C06_iwamoto_pick_in_range.
(* ... and is the former one (index 2) for a genuine cubic *)
Theorem C06_iwamoto_pick_cubic : forall g3 g2 g1 g0 : QArith_base.Q, ~ (QArith_base.Qeq g3 (QArith_base.Qmake 0 1)) ->
  iwamoto_pick g3 g2 g1 g0 = Some 2%nat.
Proof.
  intros g3 g2 g1 g0 H. unfold iwamoto_pick, n_roots. simpl.
  destruct (QArith_base.Qeq_bool g3 _) eqn:E; [apply QArith_base.Qeq_bool_iff in E; contradiction|reflexivity].
Qed.
Print Assumptions C06_iwamoto_pick_cubic.
(* regression witness: before the repair roots(...)[2] did not exist for a net without PQ buses (IndexError) *)
Theorem C06_iwamoto_index_old_refuted : exists g1 g0, ~ (QArith_base.Qeq g1 (QArith_base.Qmake 0 1)) /\
  iwamoto_index_ok_old (QArith_base.Qmake 0 1) (QArith_base.Qmake 0 1) g1 g0 = false.
Proof. exists (QArith_base.Qmake 1 1), (QArith_base.Qmake (-1) 1). split; [discriminate|reflexivity]. Qed.
Print Assumptions C06_iwamoto_index_old_refuted.

(* result extraction after Newton-Raphson: pypower pfsoln / numba pfsoln / pf_solution_single_slack
   (model: C06/Pfsoln.v, proofs: C06/PfsolnProofs.v) *)
From Coq Require Import QArith Lqa.
From PPV Require Import Base.Lists Base.QN Base.QC C06.Pfsoln C06.PfsolnProofs C06.Shift C06.ShiftProofs.
Local Open Scope Q_scope.

(* all three variants write the same branch flows PF QF PT QT (matrix product vs. the numba CSR loop) *)
Theorem C06_pfsoln_flows_equal : forall p v w, flows_eq (flows_of v p) (flows_of w p).
Proof.
  intros p v w. rewrite (flows_loop_form p v), (flows_loop_form p w). reflexivity.
Qed.
Print Assumptions C06_pfsoln_flows_equal.

(* complex power balance of the net: sum of the bus injections = sum of the branch flows + power of the bus shunts *)
Theorem C06_power_balance : forall p, wf p = true -> ~ p_base p == 0 ->
  Csum (map (fun k => Cscale (p_base p) (sbus p k)) (seq 0 (nb p))) ==c Cadd (Sbr p) (shunt_c p).
Proof. exact power_balance. Qed.
Print Assumptions C06_power_balance.

(* quantitative: slack P (Q) of pf_solution_single_slack minus that of pfsoln = total P (Q) mismatch of the non-slack
   buses minus the P (Q) of the bus shunts sum_k |V_k|^2 (GS_k - j BS_k); for any V, solved or not *)
Theorem C06_single_vs_std : forall p, wf p = true -> ~ p_base p == 0 ->
  fst (slack_single p) - fst (slack_std p false) == re (rest_mis p) - re (shunt_c p) /\
  snd (slack_single p) - snd (slack_std p false) == im (rest_mis p) - im (shunt_c p).
Proof.
  (* real and imaginary part of  single = std + (rest_mis - shunt_c) *)
  intros p W B. pose proof (single_vs_std_c p W B) as H. rewrite <- (single_is p), <- (std_is p) in H.
  revert H. generalize (slack_single p) (slack_std p false) (rest_mis p) (shunt_c p). intros a b r s [H1 H2].
  cbn [re im Cadd Csub] in H1, H2.
  qstrip_in H1. qstrip_in H2. split; lra.
Qed.
Print Assumptions C06_single_vs_std.

(* under exactly the guard of _get_numba_functions (one generator row, no ZIP loads, no distributed slack, no GS/BS) and
   for a solved net the fast variant returns the slack P and Q of the general one *)
Theorem C06_single_eq_std_guarded : forall p ngen dist, wf p = true -> ~ p_base p == 0 -> solved p ->
  G06s ngen false dist (p_bus p) = true -> slack_eq (slack_single p) (slack_std p false).
Proof.
  intros p ngen dist W B S G. unfold G06s in G. apply andb_prop in G. destruct G as [_ G].
  destruct (C06_single_vs_std p W B) as [H1 H2]. pose proof (rest_mis_0 p S) as [R1 R2]. pose proof (shunt_c_0 p G) as [S1 S2].
  cbn [re im C0] in *. split; lra.
Qed.
Print Assumptions C06_single_eq_std_guarded.

(* the selection picks pf_solution_single_slack exactly under that guard (and numba on) *)
Theorem C06_select_single_iff : forall numba ngen vdl dist buses,
  select numba ngen vdl dist buses = VSingle <-> numba = true /\ G06s ngen vdl dist buses = true.
Proof.
  intros numba ngen vdl dist buses. unfold select, G06s. rewrite forallb_andb, negb_orb, !existsb_negb_forallb.
  destruct numba; [|split; [discriminate|intros [H _]; discriminate]].
  rewrite (andb_comm (forallb (fun r => qeqb (bs r) 0) buses)).
  destruct (Nat.eqb ngen 1 && negb vdl && negb dist && (forallb (fun r => qeqb (gs r) 0) buses && forallb (fun r => qeqb (bs r) 0) buses));
    split; intros H; try discriminate; auto; destruct H; discriminate.
Qed.
Print Assumptions C06_select_single_iff.

(* numba on/off and every option combination: the selected variant gives the slack P/Q of the numba-off pfsoln *)
Theorem C06_selected_agrees : forall numba vdl dist p, wf p = true -> ~ p_base p == 0 -> solved p ->
  slack_eq (slack_of (select numba 1 vdl dist (p_bus p)) p vdl) (slack_of VPypower p vdl).
Proof.
  intros numba vdl dist p W B S. destruct (select numba 1 vdl dist (p_bus p)) eqn:E; try (split; reflexivity).
  apply C06_select_single_iff in E. destruct E as [_ G]. assert (vdl = false).
  { unfold G06s in G. destruct vdl; [|reflexivity]. rewrite andb_false_r in G. discriminate. }
  subst vdl. exact (C06_single_eq_std_guarded p 1%nat dist W B S G).
Qed.
Print Assumptions C06_selected_agrees.

(* the shunt conjunct of the guard is necessary: with a bus conductance the fast variant is wrong on a solved net *)
Theorem C06_single_with_conductance_refuted : exists p, wf p = true /\ ~ p_base p == 0 /\ solved p /\
  ~ slack_eq (slack_single p) (slack_std p false).
Proof.
  exists w_gs. split; [reflexivity|]. split; [discriminate|]. split; [exact w_gs_solved|].
  intros [H _]. vm_compute in H. discriminate.
Qed.
Print Assumptions C06_single_with_conductance_refuted.
(* so is the voltage-dependent-load conjunct *)
Theorem C06_single_with_zip_refuted : exists p, wf p = true /\ ~ p_base p == 0 /\ solved p /\
  forallb (fun r => qeqb (gs r) 0 && qeqb (bs r) 0) (p_bus p) = true /\ ~ slack_eq (slack_single p) (slack_std p true).
Proof.
  exists w_vdl. split; [reflexivity|]. split; [discriminate|]. split.
  - intros k Hk Hs. unfold nb in Hk. simpl in Hk. destruct k; [now elim Hs|lia].
  - split; [reflexivity|]. intros [H _]. vm_compute in H. discriminate.
Qed.
Print Assumptions C06_single_with_zip_refuted.

Example C06_pfsoln_guarded_nonvacuous : wf w_ok = true /\ solved w_ok /\ G06s 1 false false (p_bus w_ok) = true /\
  select true 1 false false (p_bus w_ok) = VSingle /\ fst (slack_single w_ok) == 1#10 /\ snd (slack_single w_ok) == 1#5.
Proof. exact guarded_nonvacuous. Qed.
Print Assumptions C06_pfsoln_guarded_nonvacuous.

(* bfsw: phase-shift post-rotation (model: C06/Shift.v, proofs: C06/ShiftProofs.v) *)
(* after "fix: bfsw applies the phase shift of a loop-closing transformer only once": for every BFS tree and every set of
   phase-shifting branches (tree branches or loop-closing ones) the angle that _run_bfswpf adds to a bus is the cumulative
   shift along the tree path from the root *)
Theorem C06_bfsw_rotation_is_path_shift : forall root es trafos b, tree_ok root es = true ->
  rot_impl root es trafos b == path_shift es trafos b.
Proof. exact rot_eq_path. Qed.
Print Assumptions C06_bfsw_rotation_is_path_shift.

(* the path shift is the sum over the tree branches whose sub-tree contains the bus (for any branch weights) *)
Theorem C06_path_shift_as_subtree_sum : forall w root r, ok_rev root r = true -> forall b,
  path_rev w r b == qsum (map (fun e : edge => if memb b (desc (rev r) (snd e)) then w (fst e) (snd e) else 0) r).
Proof. exact path_as_sum. Qed.
Print Assumptions C06_path_shift_as_subtree_sum.

(* the code before the repair was right only when every phase-shifting branch is a branch of the spanning tree (G06t) ... *)
Theorem C06_bfsw_rotation_old_guarded : forall root es trafos b, tree_ok root es = true -> G06t es trafos = true ->
  exists r, rot_impl_old root es trafos b = Some r /\ r == path_shift es trafos b.
Proof.
  intros root es trafos b T G. unfold G06t in G. rewrite forallb_forall in G. unfold rot_impl_old. cbv zeta.
  (* the ends of a tree branch are in the BFS order, so the test for ends outside the island passes *)
  assert (Inord : forall x y, In (x, y) es -> In x (order root es) /\ In y (order root es)).
  { intros x y I. split.
    - pose proof (ok_parents root _ T (x, y) (proj1 (in_rev _ _) I)) as P. simpl in P. unfold order. simpl.
      destruct P as [P|P]; auto. right. rewrite map_rev in P. now apply in_rev in P.
    - unfold order. simpl. right. change y with (snd (x, y)). now apply in_map. }
  assert (F : forallb (fun tr : trafo => memb (fst (fst tr)) (order root es) && memb (snd (fst tr)) (order root es)) (dict_of trafos) = true).
  { apply forallb_forall. intros [[f t] s] I. specialize (G _ I). unfold is_tree in G. cbn [fst snd] in *. apply orb_prop in G.
    destruct G as [G|G]; apply edge_in_In, Inord in G; destruct G as [G1 G2]; apply andb_true_intro; split; now apply memb_In. }
  rewrite F. eexists. split; [reflexivity|].
  rewrite <- (rot_eq_path root es trafos b T). unfold rot_impl. apply qsum_map_ext. intros tr I. now rewrite (G _ I).
Qed.
Print Assumptions C06_bfsw_rotation_old_guarded.
(* ... regression witness: a phase-shifting transformer that closes a loop rotated a sub-tree a second time (-60 instead of
   -30 degrees) *)
Theorem C06_bfsw_rotation_old_refuted : exists root es trafos b r, tree_ok root es = true /\
  rot_impl_old root es trafos b = Some r /\ ~ r == path_shift es trafos b.
Proof.
  (* buses 0 (root), 1, 2, 3; tree 0-1, 0-2, 2-3; 30-degree transformers 0 -> 2 (tree branch) and 1 -> 2 (closes the loop 0-1-2) *)
  exists 0%nat, [(0, 1); (0, 2); (2, 3)]%nat, [(0%nat, 2%nat, 30); (1%nat, 2%nat, 30)], 3%nat, (-60).
  split; [reflexivity|]. split; [reflexivity|]. vm_compute. discriminate.
Qed.
Print Assumptions C06_bfsw_rotation_old_refuted.

Example C06_bfsw_rotation_nonvacuous :
  let es := [(0, 1); (0, 2); (2, 3)]%nat in let trafos := [(0%nat, 2%nat, 30); (1%nat, 2%nat, 30); (1%nat, 2%nat, 30)] in
  tree_ok 0 es = true /\ G06t es trafos = false /\ rot_impl 0 es trafos 3 == -30 /\ rot_impl 0 es trafos 1 == 0 /\
  path_shift es trafos 3 == -30.
Proof. exact rot_nonvacuous. Qed.
Print Assumptions C06_bfsw_rotation_nonvacuous.
