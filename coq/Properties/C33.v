(* C33 — DER controller setpoints stay within the declared capability (lemmas in C33/Proofs.v, C33/Area4130.v) *)
From Coq Require Import ZArith QArith List Bool Lqa.
From PPV Require Import Base.QN C33.Model C33.Proofs C33.Area4130.
From PPV Require C32.Model C32.Proofs.
Import ListNotations.
Open Scope Q_scope.

(* after _saturate_sn_mva_step, for both priorities, p^2 + q^2 <= s^2, for every value rt the sqrt oracle may return
   (rt*rt equal to the argument handed to np.sqrt; the sign of rt is irrelevant) *)
Theorem C33_saturate_sn_disc : forall s q_prio rt p q,
  0 <= s -> rt * rt == sqrt_arg s q_prio p q ->
  in_disc s (fst (saturate_sn (Some s) q_prio rt p q)) (snd (saturate_sn (Some s) q_prio rt p q)).
Proof. exact saturate_sn_disc. Qed.
Print Assumptions C33_saturate_sn_disc.

(* the oracle hypothesis is satisfiable: the argument of np.sqrt is never negative *)
Theorem C33_sqrt_arg_nonneg : forall s q_prio p q, 0 <= s -> 0 <= sqrt_arg s q_prio p q.
Proof.
  intros s q_prio p q Hs. unfold sqrt_arg. destruct q_prio; qstrip.
  - pose proof (qopp_correct s) as Eo. set (ns := qopp s) in *.
    assert (H : ns <= s) by lra. destruct (clamp_in q ns s H) as [A B].
    set (c := clamp q ns s) in *. nra.
  - destruct (clamp_in p 0 s Hs) as [A B]. set (c := clamp p 0 s) in *. nra.
Qed.
Print Assumptions C33_sqrt_arg_nonneg.

Theorem C33_clamp_in_area : forall x lo hi, lo <= hi -> lo <= clamp x lo hi <= hi.
Proof. exact clamp_in. Qed.
Print Assumptions C33_clamp_in_area.

(* PQArea4120: in_area implies membership in the interval reported by q_flexibility (consistent object constants) *)
Theorem C33_pq4120_in_area_sound : forall a p q,
  lf_ind a <= 0 ->
  a_min_q a <= k_ind a + (p1 a - p0 a) * lf_ind a ->
  k_cap a + (p1 a - p0 a) * lf_cap a <= a_max_q a ->
  pq4120_in a p q = true -> within (pq4120_flex a p) q = true.
Proof. exact pq4120_in_sound. Qed.
Print Assumptions C33_pq4120_in_area_sound.

(* merged PQ / QV flexibility: a returned interval is non-empty and equals the intersection when that is non-empty *)
Theorem C33_pqv_merge_interval : forall r pq qv lo hi,
  merge r pq qv = Some (lo, hi) ->
  lo <= hi /\
  (qmax (fst pq) (fst qv) <= qmin (snd pq) (snd qv) -> lo = qmax (fst pq) (fst qv) /\ hi = qmin (snd pq) (snd qv)).
Proof. exact merge_spec. Qed.
Print Assumptions C33_pqv_merge_interval.

(* only a PQV area applies: whenever _saturate returns, q lies within the area's q_flexibility at the element's p and vm
   (VDE 4120 variants and STATCOM fully modelled; polygon areas under the stated contract of the shapely oracle) *)
Theorem C33_area_result_in_flex : forall ar q_prio rt p q vm p' q',
  ar <> ANone -> area_ok ar q ->
  saturate ar None q_prio rt p q vm = Res p' q' ->
  p' = p /\ exists lo hi, area_flex ar p vm = Some (lo, hi) /\ lo <= q' /\ q' <= hi.
Proof. exact area_result_in_flex. Qed.
Print Assumptions C33_area_result_in_flex.

(* VDE AR-N-4130 (PQVArea4130V1-V3) inside the model: the two QV limits are numpy.interp over their tables, i.e. piecewise linear:
   they return the tabulated q at every tabulated voltage, stay between the neighbouring tabulated values on every segment, are
   constant beyond the ends, and never leave the range of the table *)
Theorem C33_qv4130_limit_piecewise_linear : forall l,
  C32.Model.sorted l ->
  (forall p, In p l -> interp1 (fst p) l == snd p) /\
  (forall p q x, C32.Model.consec p q l -> fst p <= x -> x <= fst q ->
     (snd p <= interp1 x l /\ interp1 x l <= snd q) \/ (snd q <= interp1 x l /\ interp1 x l <= snd p)) /\
  (forall a t x, l = a :: t -> x <= fst a -> interp1 x l = snd a) /\
  (forall a t x, l = a :: t -> (forall q, In q l -> fst q <= x) -> interp1 x l == snd (last t a)).
Proof.
  intros l Hs. unfold interp1, C32.Model.pt in *. repeat split.
  - intros p Hp. destruct (C32.Proofs.interp_through_points l p Hs Hp) as (v & -> & V). exact V.
  - intros p q x Hc X1 X2. destruct (C32.Proofs.interp_within_neighbours l p q x Hs Hc X1 X2) as (v & -> & B). exact B.
  - intros a t x -> H. rewrite (C32.Proofs.interp_left_clamp t a x H). reflexivity.
  - intros a t x -> H. destruct (C32.Proofs.interp_right_clamp t a x H Hs) as (v & -> & V). exact V.
Qed.
Print Assumptions C33_qv4130_limit_piecewise_linear.
Theorem C33_qv4130_limit_in_table_range : forall m M a l x, C32.Model.sorted (a :: l) ->
  (forall r, In r (a :: l) -> m <= snd r /\ snd r <= M) -> m <= interp1 x (a :: l) /\ interp1 x (a :: l) <= M.
Proof. exact interp1_bounds. Qed.
Print Assumptions C33_qv4130_limit_in_table_range.

(* clamp-in-area for the 4130 variants (only the area applies): p is unchanged and the returned q lies in the merged flexibility;
   when the PQ interval and the two interpolated limits overlap, q lies in the PQ interval and between the two limit curves at
   the element's voltage (consistent PQArea4130 constants, checked on the real objects by the harness) *)
Theorem C33_area4130_clamp_in_area : forall a lo_pts hi_pts r q_prio rt p q vm p' q',
  lf_ind a <= 0 /\ a_min_q a <= k_ind a + (p1 a - p0 a) * lf_ind a /\ k_cap a + (p1 a - p0 a) * lf_cap a <= a_max_q a ->
  saturate (A4130 a lo_pts hi_pts r) None q_prio rt p q vm = Res p' q' ->
  p' = p /\
  exists lo hi, merge r (pq4120_flex a p) (qv4130_flex lo_pts hi_pts vm) = Some (lo, hi) /\ lo <= q' /\ q' <= hi /\
    (qmax (fst (pq4120_flex a p)) (interp1 vm lo_pts) <= qmin (snd (pq4120_flex a p)) (interp1 vm hi_pts) ->
     fst (pq4120_flex a p) <= q' /\ q' <= snd (pq4120_flex a p) /\ interp1 vm lo_pts <= q' /\ q' <= interp1 vm hi_pts).
Proof. intros a. fold (pq_consts_ok a). apply area4130_clamp_in_area. Qed.
Print Assumptions C33_area4130_clamp_in_area.
Example C33_area4130_nonvacuous :
  let a := {| p0 := 1 # 20; p1 := 1 # 5; a_min_q := -(1 # 4); a_max_q := 1 # 2; q_under := 1 # 20; lf_ind := -(1); lf_cap := 8 # 3;
              k_low := -(1 # 20); k_ind := -(1 # 10); k_cap := 1 # 10 |} in
  let lo_pts := [(9 # 10, 1 # 2); (1, 0); (21 # 20, -(1 # 4))] in
  let hi_pts := [(11 # 10, 1 # 2); (23 # 20, -(1 # 4))] in
  (lf_ind a <= 0 /\ a_min_q a <= k_ind a + (p1 a - p0 a) * lf_ind a /\ k_cap a + (p1 a - p0 a) * lf_cap a <= a_max_q a) /\
  saturate (A4130 a lo_pts hi_pts true) None true 0 1 (3 # 4) 1 = Res 1 (1 # 2) /\
  saturate (A4130 a lo_pts hi_pts true) None true 0 1 (-(1 # 4)) (39 # 40) = Res 1 (1 # 8) /\
  qv4130_flex lo_pts hi_pts (39 # 40) = (1 # 8, 1 # 2).
Proof. cbv zeta. split; [split; [|split]; vm_compute; discriminate|]. repeat split; vm_compute; reflexivity. Qed.

(* with damping >= 1 and the previous point inside, the damped update keeps the disc / the interval (convexity) *)
Theorem C33_damped_step_in_disc_partial : forall d s pc qc pt qt,
  1 <= d -> in_disc s pc qc -> in_disc s pt qt -> in_disc s (damp d pc pt) (damp d qc qt).
Proof. exact damped_step_in_disc. Qed.
Print Assumptions C33_damped_step_in_disc_partial.

Theorem C33_damped_step_in_interval_partial : forall d lo hi cur tgt,
  1 <= d -> in_iv lo hi cur -> in_iv lo hi tgt -> in_iv lo hi (damp d cur tgt).
Proof.
  intros d lo hi cur tgt Hd [A1 A2] [B1 B2]. destruct (inv_range d Hd) as [L0 L1].
  assert (Hn : ~ d == 0) by lra. unfold in_iv. rewrite (damp_eq d cur tgt Hn).
  set (l := 1 / d) in *. split; nra.
Qed.
Print Assumptions C33_damped_step_in_interval_partial.

(* refuted without the guard: previous point outside the disc (damping 2), or damping < 1 from inside *)
Theorem C33_damped_step_refuted :
  exists d s pc qc pt qt, 1 <= d /\ in_disc s pt qt /\ ~ in_disc s (damp d pc pt) (damp d qc qt).
Proof.
  exists 2, 1, 3, 0, 1, 0. split; [vm_compute; discriminate|]. split; [vm_compute; discriminate|].
  vm_compute. intros H. apply H. reflexivity.
Qed.
Print Assumptions C33_damped_step_refuted.

Theorem C33_small_damping_refuted :
  exists d s pc qc pt qt, 0 < d /\ in_disc s pc qc /\ in_disc s pt qt /\ ~ in_disc s (damp d pc pt) (damp d qc qt).
Proof.
  exists (1 # 2), 1, (-(1)), 0, 1, 0. split; [reflexivity|]. split; [vm_compute; discriminate|].
  split; [vm_compute; discriminate|]. vm_compute. intros H. apply H. reflexivity.
Qed.
Print Assumptions C33_small_damping_refuted.

(* one whole controller step (_determine_target_powers + control_step), any area, any Q model value, any voltage:
   with saturation active, damping >= 1 and the sgen inside the disc before the step, it is inside after the step *)
Theorem C33_step_keeps_apparent_power_partial : forall ar m q_prio rt d sn alias pc qc ps qraw vm p' q',
  0 < sn -> 0 <= m -> 1 <= d ->
  in_disc m pc qc ->
  (forall q1, area_step ar (fst (pu_point sn ps qc qraw)) (snd (pu_point sn ps qc qraw)) vm = Some q1 ->
              rt * rt == sqrt_arg (qdiv m sn) q_prio (fst (pu_point sn ps qc qraw)) q1) ->
  target ar (Some m) q_prio rt d sn alias pc qc ps qraw vm = Res p' q' ->
  in_disc m p' q'.
Proof.
  intros ar m q_prio rt d sn alias pc qc ps qraw vm p' q' Hsn Hm Hd Hc Hrt. unfold target.
  apply (cur_p_disc m alias) in Hc.
  destruct (pu_point sn ps qc qraw) as [pp qq]. cbn [fst snd] in Hrt. unfold saturate.
  destruct (area_step ar pp qq vm) as [q1|]; [|discriminate].
  assert (Hs : 0 <= qdiv m sn) by (qstrip; apply Qle_shift_div_l; lra).
  pose proof (saturate_sn_disc (qdiv m sn) q_prio rt pp q1 Hs (Hrt q1 eq_refl)) as D. clear Hrt.
  destruct (saturate_sn (Some (qdiv m sn)) q_prio rt pp q1) as [p2 q2]. cbn [fst snd] in D.
  intros H. injection H as <- <-.
  apply (damped_step_in_disc d m (cur_p alias pc) qc (qmul p2 sn) (qmul q2 sn) Hd Hc).
  (* back from per unit: the disc of radius m / sn scaled by sn *)
  apply (scale_disc (qdiv m sn) sn p2 q2) in D.
  unfold in_disc in *. revert D. qstrip.
  assert (E : m / sn * sn == m) by (field; lra). rewrite E. exact (fun D => D).
Qed.
Print Assumptions C33_step_keeps_apparent_power_partial.

(* non-vacuity: a saturating step with q priority and a STATCOM area *)
Example C33_nonvacuous :
  target (AStatcom (-(3#5)) (3#5)) (Some 1) true (4#5) 2 1 false (1#2) 0 1 (Some (4#5)) 1 = Res (13 # 20) (3 # 10)
  /\ (4#5) * (4#5) == sqrt_arg (qdiv 1 1) true 1 (3#5).
Proof. split; vm_compute; reflexivity. Qed.
