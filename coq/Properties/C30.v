(* C30 — Diagnostic instances are stateless with respect to each other and to earlier calls.
   exec step (init d0 f0) ops : the heap model of diagnostic.py run over an arbitrary history of
   Diagnostic(...) / register_function / diagnose_network operations on any number of instances, starting from the
   module-level defaults d0 (default_argument_values) and f0 (default_diagnostic_functions).
   spec_event d0 f0 flag regs kw : what diagnose_network(net, **kw) has to call for an instance created with
   add_default_functions=flag on which exactly the functions regs were registered - no heap, no history. *)
From Coq Require Import ZArith List Bool Lia.
From PPV Require Import C30.Model C30.Proofs C30.ModelRestore C30.ProofsRestore.
Import ListNotations.

(* FULL: after ANY history, what instance i calls (names, function objects, kwargs each receives, ValueError exit)
   is determined by the module defaults at process start, i's own constructor flag, the functions registered on i,
   and the kwargs of this very call *)
Theorem C30_instance_noninterference : forall d0 f0 ops i kw flag,
  nth_error (flags_of ops) i = Some flag ->
  snd (step (fst (exec step (init d0 f0) ops)) (Diagnose i kw))
  = spec_event d0 f0 flag (regs_of i 0%nat ops) kw.
Proof. exact diagnose_noninterference. Qed.
Print Assumptions C30_instance_noninterference.

(* the same as a statement about two histories: other instances, their registrations and every earlier call
   (with whatever kwargs) are irrelevant *)
Theorem C30_history_independent : forall d0 f0 ops ops' (i i' : nat) kw flag,
  nth_error (flags_of ops) i = Some flag -> nth_error (flags_of ops') i' = Some flag ->
  regs_of i 0%nat ops = regs_of i' 0%nat ops' ->
  snd (step (fst (exec step (init d0 f0) ops)) (Diagnose i kw))
  = snd (step (fst (exec step (init d0 f0) ops')) (Diagnose i' kw)).
Proof. exact history_independent. Qed.
Print Assumptions C30_history_independent.

(* ... and so are the result and error dicts, for every behaviour of the diagnostic function objects *)
Theorem C30_results_history_independent : forall d0 f0 beh ops ops' (i i' : nat) kw flag,
  nth_error (flags_of ops) i = Some flag -> nth_error (flags_of ops') i' = Some flag ->
  regs_of i 0%nat ops = regs_of i' 0%nat ops' ->
  event_results beh (snd (step (fst (exec step (init d0 f0) ops)) (Diagnose i kw)))
  = event_results beh (snd (step (fst (exec step (init d0 f0) ops')) (Diagnose i' kw))).
Proof.
  intros d0 f0 beh ops ops' i i' kw flag.
  intros. f_equal. eapply C30_history_independent; eauto.
Qed.
Print Assumptions C30_results_history_independent.

(* the module-level defaults are never modified *)
Theorem C30_defaults_preserved : forall d0 f0 ops,
  get_dict (hp (fst (exec step (init d0 f0) ops))) L_DEFAULT_KW = d0 /\
  get_list (hp (fst (exec step (init d0 f0) ops))) L_DEFAULT_FN = f0.
Proof.
  intros d0 f0 ops.
  destruct (ginv_reachable d0 f0 ops). auto.
Qed.
Print Assumptions C30_defaults_preserved.

(* an instance owns its kwargs dict and function list (distinct from the module-level objects); kwargs keep the
   value __init__ gave them (no call leaves options behind), the function list is defaults ++ own registrations *)
Theorem C30_instance_state : forall d0 f0 ops i flag,
  nth_error (flags_of ops) i = Some flag ->
  exists it, nth_error (insts (fst (exec step (init d0 f0) ops))) i = Some it /\
    i_kw it <> L_DEFAULT_KW /\ i_fn it <> L_DEFAULT_FN /\
    get_dict (hp (fst (exec step (init d0 f0) ops))) (i_kw it) = base_kw d0 flag /\
    get_list (hp (fst (exec step (init d0 f0) ops))) (i_fn it) = base_fn f0 flag ++ regs_of i 0%nat ops.
Proof.
  intros d0 f0 ops i flag H. destruct (ginv_reachable d0 f0 ops) as [Gn Gh Gd Gf Gi Gk Gfn Gfr].
  assert (Hi : (i < length (flags_of ops))%nat) by (eapply nth_error_lt; eauto).
  eexists. split; [apply Gi; exact Hi|]. cbn [i_kw i_fn].
  repeat split; eauto; unfold kw_loc, fn_loc, L_DEFAULT_KW, L_DEFAULT_FN; lia.
Qed.
Print Assumptions C30_instance_state.

(* step_old (instances hold references to the module-level defaults instead of copies, and diagnose_network updates
   self.kwargs) violates the statement:
   a function registered on instance 0 is called by instance 1 ... *)
Theorem C30_old_register_leaks_refuted :
  snd (step_old (fst (exec step_old (init [] []) ops_w1)) (Diagnose 1%nat []))
  <> spec_event [] [] true (regs_of 1%nat 0%nat ops_w1) [].
Proof.
  vm_compute. discriminate.
Qed.
Print Assumptions C30_old_register_leaks_refuted.

(* ... and an option passed to one call is still in force in the next call *)
Theorem C30_old_kwargs_persist_refuted :
  snd (step_old (fst (exec step_old (init [] [fA]) ops_w2)) (Diagnose 0%nat []))
  <> spec_event [] [fA] true (regs_of 0%nat 0%nat ops_w2) [].
Proof.
  vm_compute. discriminate.
Qed.
Print Assumptions C30_old_kwargs_persist_refuted.

Example C30_nonvacuous :
  nth_error (flags_of ops_nv) 2%nat = Some true /\
  regs_of 0%nat 0%nat ops_nv = [fA] /\ regs_of 1%nat 0%nat ops_nv = [fB] /\ regs_of 2%nat 0%nat ops_nv = [] /\
  snd (step (fst (exec step (init [(1, 10)] [fB]) ops_nv)) (Diagnose 2%nat [(5, 3)]))
  = ECalls [(101, 8, [(5, 3)])] false.
Proof.
  vm_compute. repeat split.
Qed.
Print Assumptions C30_nonvacuous.

(* "running the diagnostic tool leaves the network unchanged": the diagnostic functions that modify the network
   temporarily, as stage machines (C30/ModelRestore.v).  o i = outcome of the function's i-th power flow: Conv, Exp
   (one of expected_exceptions) or Unexp (anything else - the crash); fst (f ... o n) = the net after the call.
   overload / line_cap / switch_conf restore the network in a finally clause; the *_old variants have the restore lines
   after the inner try statement. *)

(* the impedance experiment restores its nine tables on EVERY path: every verdict, expected and unexpected exceptions of
   both power flows, a crash after any number of the table writes of the replacement *)
Theorem C30_impedance_preserved : forall w k crash_at o n, fst (impedance w k crash_at o n) = n.
Proof.
  intros w k c o [l g s cp sw im]. unfold impedance.
  destruct c as [i|]; [destruct (Nat.ltb i k)|]; flow_outcomes o; reflexivity.
Qed.
Print Assumptions C30_impedance_preserved.

(* FULL: the overload, line capacitance and switch configuration experiments leave the net unchanged for every verdict
   and every crash point *)
Theorem C30_overload_preserved : forall F o n, fst (overload F o n) = n.
Proof.
  intros F o [l g s cp sw im]. unfold overload. flow_outcomes o; reflexivity.
Qed.
Print Assumptions C30_overload_preserved.
Theorem C30_line_cap_preserved : forall C' o n, fst (line_cap C' o n) = n.
Proof.
  intros F o [l g s cp sw im]. unfold line_cap. flow_outcomes o; reflexivity.
Qed.
Print Assumptions C30_line_cap_preserved.
Theorem C30_switch_conf_preserved : forall ALL o n, fst (switch_conf ALL o n) = n.
Proof.
  intros F o [l g s cp sw im]. unfold switch_conf. flow_outcomes o; reflexivity.
Qed.
Print Assumptions C30_switch_conf_preserved.

(* where the restore lines stand changes no verdict and no raised error *)
Theorem C30_repair_same_result : forall F o n,
  snd (overload F o n) = snd (overload_old F o n) /\ snd (line_cap F o n) = snd (line_cap_old F o n) /\
  snd (switch_conf F o n) = snd (switch_conf_old F o n).
Proof.
  intros F o n. unfold overload, overload_old, line_cap, line_cap_old, switch_conf, switch_conf_old.
  flow_outcomes o; repeat split.
Qed.
Print Assumptions C30_repair_same_result.


Theorem C30_overload_old_refuted : exists F o n, fst (overload_old F o n) <> n.
Proof.
  exists 100%Z, o_crash1, net0. vm_compute. discriminate.
Qed.
Print Assumptions C30_overload_old_refuted.
Theorem C30_line_cap_old_refuted : exists C' o n, fst (line_cap_old C' o n) <> n.
Proof.
  exists 100%Z, o_crash1, net0. vm_compute. discriminate.
Qed.
Print Assumptions C30_line_cap_old_refuted.
Theorem C30_switch_conf_old_refuted : exists ALL o n, fst (switch_conf_old ALL o n) <> n.
Proof.
  exists 100%Z, o_crash1, net0. vm_compute. discriminate.
Qed.
Print Assumptions C30_switch_conf_old_refuted.
(* it restored the net exactly when no power flow of the experiment (run #1..#3) raised an unexpected exception *)
Theorem C30_overload_old_partial : forall F o n, no_unexp o = true -> fst (overload_old F o n) = n.
Proof.
  intros F o [l g s cp sw im] G. destruct (no_unexp_spec _ G) as (H1 & H2 & H3).
  unfold overload_old. flow_outcomes o; try congruence; reflexivity.
Qed.
Print Assumptions C30_overload_old_partial.
Theorem C30_line_cap_old_partial : forall C' o n, no_unexp o = true -> fst (line_cap_old C' o n) = n.
Proof.
  intros C' o [l g s cp sw im] G. destruct (no_unexp_spec _ G) as (H1 & H2 & H3).
  unfold line_cap_old. flow_outcomes o; try congruence; reflexivity.
Qed.
Print Assumptions C30_line_cap_old_partial.
Theorem C30_switch_conf_old_partial : forall ALL o n, no_unexp o = true -> fst (switch_conf_old ALL o n) = n.
Proof.
  intros A o [l g s cp sw im] G. destruct (no_unexp_spec _ G) as (H1 & H2 & H3).
  unfold switch_conf_old. flow_outcomes o; try congruence; reflexivity.
Qed.
Print Assumptions C30_switch_conf_old_partial.
Theorem C30_overload_old_crash_leaves : forall F n,
  fst (overload_old F (fun i => match i with 0%nat => Exp | _ => Unexp end) n) = set_load F n /\
  fst (overload_old F (fun i => match i with 2%nat => Unexp | _ => Exp end) n) = set_sgen F (set_gen F n) /\
  fst (overload_old F (fun i => match i with 3%nat => Unexp | _ => Exp end) n) = set_sgen F (set_gen F (set_load F n)).
Proof.
  intros F [l g s cp sw im]. repeat split.
Qed.
Print Assumptions C30_overload_old_crash_leaves.

Example C30_restore_nonvacuous :
  overload 100 (fun _ => Exp) net0 = (net0, Ret 0) /\
  overload 100 (fun i => match i with 3%nat => Conv | _ => Exp end) net0 = (net0, Ret 3) /\
  overload 100 o_crash1 net0 = (net0, Raised) /\ line_cap 101 o_crash1 net0 = (net0, Raised) /\
  switch_conf 102 o_crash1 net0 = (net0, Raised) /\
  impedance (fun i => 200 + Z.of_nat i) 5 (Some 2%nat) (fun _ => Exp) net0 = (net0, Raised) /\
  impedance (fun i => 200 + Z.of_nat i) 5 None (fun i => match i with O => Exp | _ => Unexp end) net0 = (net0, Raised).
Proof. exact restore_nonvacuous. Qed.
Print Assumptions C30_restore_nonvacuous.
