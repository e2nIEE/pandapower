(* C16 — OPF results are feasible operating points (lemmas in C16/*.v) *)
From Coq Require Import ZArith QArith Qabs List Bool Lia Lqa.
From PPV Require Import Base.QN Base.QC C16.Model C16.Proofs C16.Balance C16.VmLimits.
Import ListNotations.
Open Scope Q_scope.

(* for every element kind that is an OPF variable (gen, ext_grid, controllable sgen / load / storage) the ppc box
   [PMIN, PMAX], read back through the sign with which results are written (res p = rsign * PG), is exactly the
   declared interval [min_p_mw, max_p_mw] widened by delta *)
Theorem C16_box_roundtrip_p : forall k e delta plim x mn mx,
  e_min_p e = Some mn -> e_max_p e = Some mx -> fixed_gen k e = false ->
  (PMIN (gen_row k e delta plim) <= x /\ x <= PMAX (gen_row k e delta plim))
  <-> (mn - delta <= rsign k * x /\ rsign k * x <= mx + delta).
Proof.
  intros k e delta plim x mn mx Hmn Hmx Hf. destruct (gen_row_p k e delta plim Hf) as [-> ->].
  rewrite lim_box, Hmn, Hmx. reflexivity.
Qed.
Print Assumptions C16_box_roundtrip_p.

Theorem C16_box_roundtrip_q : forall k e delta plim x mn mx,
  e_min_q e = Some mn -> e_max_q e = Some mx ->
  (QMIN (gen_row k e delta plim) <= x /\ x <= QMAX (gen_row k e delta plim))
  <-> (mn - delta <= rsign k * x /\ rsign k * x <= mx + delta).
Proof.
  intros k e delta plim x mn mx Hmn Hmx. destruct (gen_row_q k e delta plim) as [-> ->].
  rewrite lim_box, Hmn, Hmx. reflexivity.
Qed.
Print Assumptions C16_box_roundtrip_q.

Theorem C16_box_default_p : forall k e delta plim x,
  e_min_p e = None -> e_max_p e = None -> fixed_gen k e = false ->
  (PMIN (gen_row k e delta plim) <= x /\ x <= PMAX (gen_row k e delta plim))
  <-> (- plim <= rsign k * x /\ rsign k * x <= plim).
Proof.
  intros k e delta plim x Hmn Hmx Hf. destruct (gen_row_p k e delta plim Hf) as [-> ->].
  rewrite lim_box, Hmn, Hmx. reflexivity.
Qed.
Print Assumptions C16_box_default_p.

(* the OPF start value of gen / controllable sgen / load / storage is the scaled setpoint *)
Theorem C16_start_is_scaled_setpoint : forall k e delta plim,
  k <> KExt -> rsign k * PG (gen_row k e delta plim) == e_p e * e_scaling e.
Proof.
  intros k e delta plim Hk. unfold gen_row, rsign. destruct k; try congruence; cbn [inverted PG]; qstrip; ring.
Qed.
Print Assumptions C16_start_is_scaled_setpoint.

(* a non-controllable generator is pinned (within delta) to its setpoint p_mw * scaling *)
Theorem C16_fixed_gen_pinned : forall e delta plim x,
  e_ctrl e = Some false ->
  PMIN (gen_row KGen e delta plim) <= x /\ x <= PMAX (gen_row KGen e delta plim) ->
  e_p e * e_scaling e - delta <= x /\ x <= e_p e * e_scaling e + delta.
Proof.
  intros e delta plim x Hc. unfold gen_row. rewrite Hc. cbn [PMIN PMAX]. qstrip. intros [H1 H2]. split; lra.
Qed.
Print Assumptions C16_fixed_gen_pinned.

(* regression: fixed_box_old (the box around the unscaled p_mw) pins the setpoint only under G16gen_old *)
Theorem C16_fixed_gen_old_refuted :
  exists e delta x, e_ctrl e = Some false /\ 0 <= delta /\
    (fst (fixed_box_old e delta) <= x /\ x <= snd (fixed_box_old e delta)) /\
    ~ (e_p e * e_scaling e - delta <= x /\ x <= e_p e * e_scaling e + delta).
Proof.
  exists {| e_p := 1; e_q := 0; e_scaling := 1 # 2; e_min_p := Some 0; e_max_p := Some 2; e_min_q := None; e_max_q := None;
            e_ctrl := Some false |}, 0, 1.
  split; [reflexivity|]. split; [lra|]. split.
  - vm_compute. split; discriminate.
  - intros [_ H]. vm_compute in H. apply H. reflexivity.
Qed.
Print Assumptions C16_fixed_gen_old_refuted.
Theorem C16_fixed_gen_old_partial : forall e delta x,
  G16gen_old e = true -> e_ctrl e = Some false ->
  fst (fixed_box_old e delta) <= x /\ x <= snd (fixed_box_old e delta) ->
  e_p e * e_scaling e - delta <= x /\ x <= e_p e * e_scaling e + delta.
Proof.
  intros e delta x HG Hc. unfold G16gen_old in HG. rewrite Hc in HG. unfold fixed_box_old. cbn [fst snd]. qstrip.
  apply orb_true_iff in HG. destruct HG as [H|H]; apply qeqb_eq in H; intros [H1 H2].
  - rewrite H. split; lra.
  - rewrite H in *. split; lra.
Qed.
Print Assumptions C16_fixed_gen_old_partial.

(* dcline: the generator pair of the power-flow model (_add_dcline_gens) satisfies the linear constraint the OPF
   adds (_add_dcline_constraints) — for every dcline, any loss_percent / loss_mw, both flow directions *)
Theorem C16_dcline_opf_eq_pf : forall d,
  opf_lhs d (g_to (pf_dcline d)) (g_from (pf_dcline d)) == opf_rhs d.
Proof.
  intros d. unfold opf_lhs, opf_rhs, pf_dcline. destruct (qltb 0 (d_p d)) eqn:E; cbn [g_to g_from]; qstrip.
  - apply qltb_lt in E. rewrite (qabs'_pos _ E). field.
  - field.
Qed.
Print Assumptions C16_dcline_opf_eq_pf.

(* and the OPF constraint determines the receiving-end power from the sending-end power: an OPF result is a valid
   power-flow operating point of the dcline *)
Theorem C16_dcline_opf_determines_receiving : forall d pg_to pg_from,
  opf_lhs d pg_to pg_from == opf_rhs d ->
  (0 < d_p d -> pg_from == g_from (pf_dcline d) -> pg_to == g_to (pf_dcline d)) /\
  (d_p d <= 0 -> pg_to == g_to (pf_dcline d) -> pg_from == g_from (pf_dcline d)).
Proof.
  intros d pg_to pg_from H. pose proof (C16_dcline_opf_eq_pf d) as Hpf. revert H Hpf. unfold opf_lhs, opf_rhs.
  destruct (qltb 0 (d_p d)) eqn:E; qstrip; intros H Hpf; split; intros Hd Heq.
  - rewrite Heq in H. lra.
  - apply qltb_lt in E. lra.
  - apply qltb_ge in E. lra.
  - rewrite Heq in H. lra.
Qed.
Print Assumptions C16_dcline_opf_determines_receiving.

(* regression: opf_lhs_old (the constraint (1 + l) Pg_to + Pg_from = -loss_mw) *)
Theorem C16_dcline_old_refuted :
  exists d, d_in d = true /\ 0 < d_p d /\
    ~ opf_lhs_old d (g_to (pf_dcline d)) (g_from (pf_dcline d)) == opf_rhs d.
Proof.
  exists {| d_p := 1; d_loss_pct := 5; d_loss_mw := 0; d_max_p := 2; d_in := true |}.
  split; [reflexivity|]. split; [reflexivity|]. vm_compute. discriminate.
Qed.
Print Assumptions C16_dcline_old_refuted.
Theorem C16_dcline_old_partial : forall d, G16dc_old d = true -> 0 < d_p d ->
  opf_lhs_old d (g_to (pf_dcline d)) (g_from (pf_dcline d)) == opf_rhs d.
Proof.
  intros d H Hp. unfold G16dc_old in H. apply qeqb_eq in H.
  pose proof (dcline_old_deviation d Hp) as D. rewrite H in D.
  assert (E : - (0 / 100) * (d_p d * (0 / 100) + d_loss_mw d) == 0) by field. rewrite E in D. lra.
Qed.
Print Assumptions C16_dcline_old_partial.
Theorem C16_dcline_old_deviation : forall d, 0 < d_p d ->
  opf_lhs_old d (g_to (pf_dcline d)) (g_from (pf_dcline d)) - opf_rhs d
  == - (d_loss_pct d / 100) * (d_p d * (d_loss_pct d / 100) + d_loss_mw d).
Proof. exact dcline_old_deviation. Qed.
Print Assumptions C16_dcline_old_deviation.

(* constraint matrix: one row per in-service dcline, stating that dcline's own constraint (any in/out-of-service mix) *)
Theorem C16_dcline_rows_spec : forall ds,
  exists rows, dcline_rows ds = Some rows /\ List.length rows = List.length (filter d_in ds) /\
    forall k d, nth_error (filter d_in ds) k = Some d ->
      exists r, nth_error rows k = Some r /\
        forall pg_to pg_from, fst (fst r) * pg_to + snd (fst r) * pg_from == opf_lhs d pg_to pg_from /\ snd r == opf_rhs d.
Proof.
  intros ds. exists (map dc_row (filter d_in ds)). split; [reflexivity|]. split; [apply map_length|].
  intros k d Hk. exists (dc_row d). split; [now apply map_nth_error|].
  intros a b. unfold dc_row, opf_lhs, opf_rhs. destruct (qltb 0 (d_p d)); cbn [fst snd]; qstrip; split; try ring; reflexivity.
Qed.
Print Assumptions C16_dcline_rows_spec.

(* regression: dcline_rows_old cannot set up a mixture of in-service and out-of-service dclines *)
Theorem C16_dcline_rows_old_mixed : forall ds,
  existsb d_in ds = true -> forallb d_in ds = false -> dcline_rows_old ds = None.
Proof.
  intros ds He Hf. unfold dcline_rows_old.
  destruct (Nat.eqb (List.length (filter d_in ds)) 0) eqn:E0.
  - apply Nat.eqb_eq in E0. apply existsb_exists in He. destruct He as (d & Hin & Hd).
    assert (In d (filter d_in ds)) by (apply filter_In; auto).
    destruct (filter d_in ds); [contradiction | discriminate].
  - destruct (Nat.eqb (List.length (filter d_in ds)) (List.length ds)) eqn:E1; [|reflexivity].
    apply Nat.eqb_eq in E1. apply filter_length_all in E1. congruence.
Qed.
Print Assumptions C16_dcline_rows_old_mixed.

(* branch limit: the current limit the OPF enforces (|I| * baseMVA <= RATE_A) is the declared max_loading_percent
   on the loading the result table reports; s3 stands for sqrt 3 (any positive value cancels) *)
Theorem C16_rate_a_is_loading_limit : forall max_load max_i_ka df par vn s3 i_ka,
  0 < max_i_ka * df * par -> 0 < vn -> 0 < s3 ->
  (i_ka * vn * s3 <= rate_a max_load max_i_ka df par vn s3
   <-> i_ka / (max_i_ka * df * par) * 100 <= max_load).
Proof.
  intros max_load max_i_ka df par vn s3 i_ka Hm Hv Hs. unfold rate_a. qstrip.
  rewrite <- (loading_iff max_load (max_i_ka * df * par) (vn * s3) i_ka Hm (Qmult_lt_0_compat _ _ Hv Hs)).
  assert (E1 : i_ka * vn * s3 == i_ka * (vn * s3)) by ring.
  assert (E2 : max_load / 100 * max_i_ka * df * par * (vn * s3) == max_load / 100 * (max_i_ka * df * par) * (vn * s3)) by ring.
  rewrite E1, E2. reflexivity.
Qed.
Print Assumptions C16_rate_a_is_loading_limit.

(* transformer limit: apparent power within RATE_A <-> reported loading within max_loading_percent *)
Theorem C16_rate_a_trafo_is_loading_limit : forall max_load sn df par s,
  0 < sn * df * par ->
  (s <= rate_a_trafo max_load sn df par <-> s / (sn * df * par) * 100 <= max_load).
Proof.
  intros max_load sn df par s Hm. unfold rate_a_trafo. qstrip.
  rewrite <- (loading_iff max_load (sn * df * par) 1 s Hm eq_refl).
  assert (E1 : s == s * 1) by ring.
  assert (E2 : max_load / 100 * sn * df * par == max_load / 100 * (sn * df * par) * 1) by ring.
  rewrite E1 at 1. rewrite E2. reflexivity.
Qed.
Print Assumptions C16_rate_a_trafo_is_loading_limit.

(* bus voltage limits: untouched buses keep the bus table limits, the last fixed-voltage element pins vm +- delta *)
Theorem C16_vm_untouched : forall lims ws delta b,
  (forall w, In w ws -> fst w <> b) -> nth_error (vm_writes lims ws delta) b = nth_error lims b.
Proof.
  intros lims ws delta b. unfold vm_writes. revert lims. induction ws as [|w ws IH]; intros lims H; cbn; [reflexivity|].
  rewrite IH by (intros w' Hw'; apply H; now right).
  apply set_nth_other. apply H. now left.
Qed.
Print Assumptions C16_vm_untouched.

Theorem C16_vm_pinned : forall lims ws delta b v ws',
  (b < List.length lims)%nat -> (forall w, In w ws' -> fst w <> b) ->
  nth_error (vm_writes lims (ws ++ (b, v) :: ws') delta) b = Some (qsub v delta, qadd v delta).
Proof.
  intros lims ws delta b v ws' Hb Hn. unfold vm_writes. rewrite fold_left_app. cbn [fold_left fst snd].
  fold (vm_writes lims ws delta).
  change (fold_left _ ws' ?l) with (vm_writes l ws' delta).
  rewrite C16_vm_untouched by exact Hn.
  apply set_nth_same. rewrite vm_writes_length. exact Hb.
Qed.
Print Assumptions C16_vm_pinned.

Example C16_nonvacuous :
  G16gen_old {| e_p := 1; e_q := 0; e_scaling := 1; e_min_p := None; e_max_p := None; e_min_q := None; e_max_q := None;
                e_ctrl := Some false |} = true
  /\ G16dc_old {| d_p := 1; d_loss_pct := 0; d_loss_mw := 1 # 16; d_max_p := 2; d_in := true |} = true
  /\ fixed_gen KLoad {| e_p := 1; e_q := 0; e_scaling := 1; e_min_p := Some 0; e_max_p := Some 2; e_min_q := None;
                        e_max_q := None; e_ctrl := None |} = false.
Proof. repeat split. Qed.

(* "the reported results are a valid power flow"
   opf_g: the OPF's power-balance constraints [Re mis; Im mis] at every bus (opf_consfcn), pf_F: the equations of the power
   flow [Re mis[pv]; Re mis[pq]; Im mis[pq]] (newtonpf), both  V conj(Ybus V) - Sbus  with Sbus = makeSbus of the respective ppc:
   sb_opf — controllable sgens / loads / storages are generator rows with PG = rsign * p, fixed ones are bus demand;
   sb_pf  — the ppc of the power flow that takes the dispatch as setpoints: gens keep p, every sgen / load / storage is bus
   demand with its result power, the Q of gens / ext_grids and the P of ext_grids are whatever the power flow holds (l_xp, l_xq).
   If the OPF's final V satisfies every balance constraint within eps, the SAME V satisfies every equation of that power flow
   within eps: any network, any element mix, any number of elements per bus, in / out of service. *)
Theorem C16_opf_point_is_pf_point : forall base nb Y V els pv pq eps,
  (forall i, In i pv \/ In i pq -> (i < nb)%nat /\ no_ext_at els i) ->
  (forall i, In i pq -> no_vctrl_at els i) ->
  Forall (fun x => Qabs x <= eps) (opf_g nb Y V (sb_opf base els)) ->
  Forall (fun x => Qabs x <= eps) (pf_F Y V (sb_pf base els) pv pq).
Proof. exact opf_point_is_pf_point. Qed.
Print Assumptions C16_opf_point_is_pf_point.

(* hence the power flow's own convergence test (norm(F, inf) < tol) accepts the OPF's V *)
Theorem C16_opf_point_passes_pf_test : forall base nb Y V els pv pq eps tol,
  (forall i, In i pv \/ In i pq -> (i < nb)%nat /\ no_ext_at els i) ->
  (forall i, In i pq -> no_vctrl_at els i) ->
  Forall (fun x => Qabs x <= eps) (opf_g nb Y V (sb_opf base els)) -> 0 <= eps -> eps < tol ->
  pf_converged (pf_F Y V (sb_pf base els) pv pq) tol = true.
Proof.
  intros base nb Y V els pv pq eps tol H1 H2 H3 He Ht.
  pose proof (opf_point_is_pf_point base nb Y V els pv pq eps H1 H2 H3) as HF.
  unfold pf_converged. destruct (pf_F Y V (sb_pf base els) pv pq) as [|x F] eqn:E.
  - apply qltb_lt. lra.
  - apply forallb_forall. intros y Hy. rewrite Forall_forall in HF. specialize (HF y Hy). apply qltb_lt. lra.
Qed.
Print Assumptions C16_opf_point_passes_pf_test.

(* the Sbus of the two calculations: equal active part at every bus without an ext_grid, equal reactive part at every bus
   without a gen / ext_grid *)
Theorem C16_sbus_same_function : forall base els i,
  (no_ext_at els i -> re (sb_pf base els i) == re (sb_opf base els i)) /\
  (no_vctrl_at els i -> im (sb_pf base els i) == im (sb_opf base els i)).
Proof. exact (fun base els i => conj (sbus_re_eq base els i) (sbus_im_eq base els i)). Qed.
Print Assumptions C16_sbus_same_function.

(* what the power flow reports for the voltage-controlling elements of a bus (computed injection plus demand, pfsoln) differs
   from their OPF dispatch by exactly baseMVA times the OPF's mismatch at that bus: slack P and generator Q are reproduced
   within baseMVA * eps *)
Theorem C16_pf_reports_opf_infeed : forall base Y V els i, ~ base == 0 ->
  let reported := Cadd (Cscale base (calc_inj Y V i)) (dem_sum_pf els i) in
  Csub reported (gen_sum els i) ==c Cscale base (mis_at Y V (sb_opf base els) i).
Proof.
  intros base Y V els i Hb. cbv zeta. unfold mis_at. fold (calc_inj Y V i).
  pose proof (inj_opf_split els i) as Hs. revert Hs.
  unfold sb_opf, sbus_at, Cdivq. fold (inj_opf els i).
  generalize (calc_inj Y V i) (inj_opf els i) (gen_sum els i) (dem_sum_pf els i).
  intros c io g d [S1 S2]. revert S1 S2. cunfold. qstrip. intros S1 S2. split; field_simplify_eq; try exact Hb; lra.
Qed.
Print Assumptions C16_pf_reports_opf_infeed.

Example C16_balance_nonvacuous :
  (forall i, In i [] \/ In i [1%nat] -> (i < 2)%nat /\ no_ext_at ex_els i) /\
  (forall i, In i [1%nat] -> no_vctrl_at ex_els i) /\
  sb_opf 1 ex_els 1 ==c mkC (-1) (- (1 # 4)) /\ sb_pf 1 ex_els 1 ==c mkC (-1) (- (1 # 4)) /\
  ~ sb_pf 1 ex_els 0 ==c sb_opf 1 ex_els 0.
Proof. exact balance_nonvacuous. Qed.

(* voltage limits of controllable ext_grids and of gens
   ext_grid.controllable: every fixed (in service, not controllable) ext_grid pins its bus to its OWN vm_pu, controllable and
   out-of-service ones write nothing — for any index labels *)
Theorem C16_eg_writes_own : forall egs, eg_writes egs = Some (eg_writes_spec egs).
Proof. reflexivity. Qed.
Print Assumptions C16_eg_writes_own.
(* regression: eg_writes_old (vm_pu.values[index label]) agrees only when the labels are the positions; otherwise it reads
   the voltage of another ext_grid or raises *)
Theorem C16_eg_writes_old_partial : forall egs, G16eg_old egs = true -> eg_writes_old egs = Some (eg_writes_spec egs).
Proof. intros egs H. apply (eg_go_spec egs egs []); [reflexivity | exact H]. Qed.
Print Assumptions C16_eg_writes_old_partial.
Theorem C16_eg_writes_old_refuted :
  eg_writes_old eg_swapped = Some [(0%nat, 51 # 50); (2%nat, 1)] /\ eg_writes_spec eg_swapped = [(0%nat, 1); (2%nat, 51 # 50)] /\
  eg_writes_old [ {| x_label := 3; x_bus := 0; x_vm := 1; x_on := true; x_ctrl := Some false |} ] = None.
Proof. repeat split. Qed.
Print Assumptions C16_eg_writes_old_refuted.

(* gen.max_vm_pu: the upper limit handed to the OPF at a bus respects the bus limit and the max_vm_pu of EVERY in-service gen
   at that bus (none of them NaN), any number of gens per bus, any order *)
Theorem C16_gen_vmax_all : forall lims gens b lo0 hi0,
  nth_error lims b = Some (lo0, Some hi0) ->
  (forall g, In g gens -> fst (fst g) = b -> exists m, snd (fst g) = Some m) ->
  exists v, nth b (fold_left (gen_vmax_step lims) gens lims) (None, None) = (lo0, Some v) /\ v <= hi0 /\
    forall g m, In g gens -> fst (fst g) = b -> snd (fst g) = Some m -> v <= m.
Proof.
  intros lims gens b lo0 hi0 Hb Hsome.
  assert (Hn0 : nth b lims (None, None) = (lo0, Some hi0)) by (apply nth_error_nth; exact Hb).
  assert (Hlen : (b < List.length lims)%nat) by (apply nth_error_Some; congruence).
  apply (vmax_fold_inv lims b lo0 hi0); [unfold olim in *; rewrite Hn0; reflexivity | exact Hn0 | lra | exact Hlen | exact Hsome].
Qed.
Print Assumptions C16_gen_vmax_all.
(* regression: gen_vmax_step_old (plain assignment, last gen wins) satisfies this only with one in-service gen per bus *)
Theorem C16_gen_vmax_old_partial : forall lims gens b mx mn hi0 lo0,
  G16vm_old gens = true -> In (b, Some mx, mn) gens -> nth_error lims b = Some (lo0, Some hi0) ->
  exists v, nth b (fold_left (gen_vmax_step_old lims) gens lims) (None, None) = (lo0, Some v) /\ v <= hi0 /\ v <= mx /\
            (v == hi0 \/ v == mx).
Proof.
  intros lims gens b mx mn hi0 lo0 HG Hin Hb. apply in_split in Hin. destruct Hin as (g1 & g2 & ->).
  unfold G16vm_old in HG. rewrite map_app in HG. cbn [map fst] in HG. apply nodup_nat_app_inv in HG. destruct HG as [N1 N2].
  assert (U1 : forall g, In g g1 -> fst (fst g) <> b).
  { intros g Hg E. apply N1. apply in_map_iff. exists g. split; [exact E | exact Hg]. }
  assert (U2 : forall g, In g g2 -> fst (fst g) <> b).
  { intros g Hg E. apply N2. apply in_map_iff. exists g. split; [exact E | exact Hg]. }
  rewrite fold_left_app. cbn [fold_left]. rewrite vmax_fold_untouched_old by exact U2.
  assert (Hn0 : nth b lims (None, None) = (lo0, Some hi0)) by (apply nth_error_nth; exact Hb).
  assert (Hlen : (b < List.length lims)%nat) by (apply nth_error_Some; congruence).
  unfold gen_vmax_step_old at 1. cbv zeta. cbn [fst snd]. unfold olim in *. rewrite Hn0. cbn [snd ltb_nan].
  destruct (qltb hi0 mx) eqn:E.
  - apply qltb_lt in E. rewrite vmax_fold_untouched_old by exact U1. unfold olim in *. rewrite Hn0.
    exists hi0. repeat split; try lra; try (now left).
  - apply qltb_ge in E. rewrite set_nth_nth by (rewrite vmax_fold_length_old; exact Hlen).
    rewrite vmax_fold_untouched_old by exact U1. unfold olim in *. rewrite Hn0. cbn [fst].
    exists mx. repeat split; try lra; try (now right).
Qed.
Print Assumptions C16_gen_vmax_old_partial.
Theorem C16_gen_vmax_old_refuted :
  exists lims gens b mx mn, In (b, Some mx, mn) gens /\
    exists v, nth b (gen_vm_limits_old lims gens true false) (None, None) = (Some (19 # 20), Some v) /\ mx < v.
Proof.
  exists [(Some (19 # 20), Some (11 # 10)); (Some (19 # 20), Some (11 # 10))],
         [(1%nat, Some (103 # 100), None); (1%nat, Some (105 # 100), None)], 1%nat, (103 # 100), None.
  split; [now left|]. exists (105 # 100). split; [vm_compute; reflexivity | reflexivity].
Qed.
Print Assumptions C16_gen_vmax_old_refuted.
Theorem C16_gen_vmax_witness_repaired :
  nth 1%nat (gen_vm_limits [(Some (19 # 20), Some (11 # 10)); (Some (19 # 20), Some (11 # 10))]
                           [(1%nat, Some (103 # 100), None); (1%nat, Some (105 # 100), None)] true false) (None, None)
  = (Some (19 # 20), Some (103 # 100)).
Proof. vm_compute. reflexivity. Qed.
Example C16_vm_limits_nonvacuous :
  G16vm_old [(1%nat, Some (103 # 100), None); (2%nat, Some (105 # 100), None)] = true /\
  G16eg_old [ {| x_label := 0; x_bus := 0; x_vm := 1; x_on := true; x_ctrl := Some false |};
              {| x_label := 1; x_bus := 2; x_vm := 51 # 50; x_on := true; x_ctrl := Some true |} ] = true.
Proof. exact vm_limits_nonvacuous. Qed.
