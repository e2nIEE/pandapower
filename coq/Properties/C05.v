(* C05 — property theorems (lemmas in C07/UnionFind.v, C05/Proofs.v and C05/BranchProofs.v).
   Model-level metamorphic theorems about the bookkeeping that a re-representation touches; the end-to-end invariance
   of runpp results is searched differentially by harness/props/c05.py. *)
From Coq Require Import QArith List Bool Arith Permutation Lqa.
From PPV Require Import Base.QN Base.QC Base.C07Graph C07.Model C07.UnionFind C05.Model C05.Proofs.
From PPV Require C31.Model C02.Model C02.Proofs C05.BranchProofs.
Import ListNotations.

(* fuse_lookup: two buses share a ppc row iff connected by closed zero-impedance bus-bus switches between in-service buses *)
Theorem C05_fuse_lookup : forall n a b, rep n a = rep n b <-> upath (fuse_edges n) a b.
Proof. exact rep_iff_fused. Qed.
Print Assumptions C05_fuse_lookup.

(* ... whatever the order of the rows of net.switch *)
Theorem C05_fuse_partition_switch_perm : forall n n' a b,
  buses n' = buses n -> Permutation (switches n) (switches n') -> (rep n a = rep n b <-> rep n' a = rep n' b).
Proof.
  intros n n' a b B P. rewrite !rep_iff_fused.
  assert (F : forall s, fuses n' s = fuses n s). { intros s. unfold fuses, bus_is. now rewrite B. }
  assert (I : forall e, In e (fuse_edges n) <-> In e (fuse_edges n')).
  { intros e. unfold fuse_edges, fuse_edges_of. rewrite !in_flat_map. split; intros [s [Is H]]; exists s.
    - split; [eapply Permutation_in; eauto|now rewrite F].
    - split; [eapply Permutation_in; [apply Permutation_sym|]; eauto|now rewrite <- F]. }
  split; apply upath_mono; intros e; apply I.
Qed.
Print Assumptions C05_fuse_partition_switch_perm.

(* per-bus aggregation: every value reported by _sum_by_group is the sum over the rows of that bus ... *)
Theorem C05_sum_by_group_is_group_sum : forall rows b v, In (b, v) (sum_by_group rows) -> v == gsum b rows.
Proof.
  unfold sum_by_group. intros rows b v H. rewrite (group_out_value _ (sort_sorted rows) _ _ _ _ H).
  rewrite (gsum_perm b _ _ (sort_perm rows)). destruct (head_is b (sort_rows rows)); ring.
Qed.
Print Assumptions C05_sum_by_group_is_group_sum.
(* ... hence invariant under any permutation of the element rows, *)
Theorem C05_row_perm_invariance : forall rows rows' b v v', Permutation rows rows' ->
  In (b, v) (sum_by_group rows) -> In (b, v') (sum_by_group rows') -> v == v'.
Proof.
  intros rows rows' b v v' P H H'.
  rewrite (C05_sum_by_group_is_group_sum _ _ _ H), (C05_sum_by_group_is_group_sum _ _ _ H'). now apply gsum_perm.
Qed.
Print Assumptions C05_row_perm_invariance.
(* under splitting one element into two at the same bus, *)
Theorem C05_split_pq : forall l1 l2 bx p p1 p2 b v v', p == p1 + p2 ->
  In (b, v) (sum_by_group (l1 ++ (bx, p) :: l2)) -> In (b, v') (sum_by_group (l1 ++ (bx, p1) :: (bx, p2) :: l2)) -> v == v'.
Proof.
  intros l1 l2 bx p p1 p2 b v v' E H H'.
  rewrite (C05_sum_by_group_is_group_sum _ _ _ H), (C05_sum_by_group_is_group_sum _ _ _ H'), !gsum_app. simpl.
  destruct (Nat.eqb bx b); rewrite ?E; ring.
Qed.
Print Assumptions C05_split_pq.
(* and under adding a zero-power row (an out-of-service element contributes no row at all) *)
Theorem C05_inert_elements : forall l1 l2 bx b v v',
  In (b, v) (sum_by_group (l1 ++ l2)) -> In (b, v') (sum_by_group (l1 ++ (bx, 0) :: l2)) -> v == v'.
Proof.
  intros l1 l2 bx b v v' H H'.
  rewrite (C05_sum_by_group_is_group_sum _ _ _ H), (C05_sum_by_group_is_group_sum _ _ _ H'), !gsum_app. simpl.
  destruct (Nat.eqb bx b); ring.
Qed.
Print Assumptions C05_inert_elements.

(* the consecutive bus lookup commutes with any injective relabelling of the bus indices *)
Theorem C05_relabel_invariance : forall f idx b, (forall x y, f x = f y -> x = y) ->
  consec_lookup (map f idx) (f b) = consec_lookup idx b.
Proof. intros. now apply pos_of_map. Qed.
Print Assumptions C05_relabel_invariance.

(* the physical series impedance / shunt admittance encoded by the per-unit line row do not depend on sn_mva *)
Theorem C05_sn_mva_invariance_line : forall k vn l, ~ vn == 0 -> ~ par l == 0 -> forall sn, ~ sn == 0 ->
  br_r (line_param k vn sn l) * (vn * vn / sn) == r_km l * len l / par l /\
  br_x (line_param k vn sn l) * (vn * vn / sn) == x_km l * len l / par l /\
  br_b (line_param k vn sn l) / (vn * vn / sn) == k * c_nf l * len l * par l /\
  br_g (line_param k vn sn l) / (vn * vn / sn) == g_us l * (1 # 1000000) * len l * par l.
Proof.
  intros k vn l Hvn Hpar sn Hs. unfold line_param, baseR. cbn [br_r br_x br_b br_g]. qstrip. repeat split; field; auto.
Qed.
Print Assumptions C05_sn_mva_invariance_line.

(* parallel = n is n single lines: series impedance / n, shunt admittance * n *)
Theorem C05_parallel_n_lines : forall k vn l, ~ vn == 0 -> ~ par l == 0 -> forall sn, ~ sn == 0 ->
  let p1 := line_param k vn sn {| r_km := r_km l; x_km := x_km l; c_nf := c_nf l; g_us := g_us l; len := len l; par := 1 |} in
  let pn := line_param k vn sn l in
  br_r pn * par l == br_r p1 /\ br_x pn * par l == br_x p1 /\ br_b pn == par l * br_b p1 /\ br_g pn == par l * br_g p1.
Proof.
  intros k vn l Hvn Hpar sn Hs. unfold line_param, baseR. cbn [br_r br_x br_b br_g r_km x_km c_nf g_us len par]. qstrip.
  repeat split; field; auto.
Qed.
Print Assumptions C05_parallel_n_lines.

(* swapping the ends of a line swaps its two terminal flows *)
Theorem C05_swap_line_ends : forall p vf vt, s_from p vt vf ==c s_to p vf vt /\ s_to p vt vf ==c s_from p vf vt.
Proof.
  (* the two stamps of a line are symmetric: only the order of the two summands differs *)
  intros p vf vt. unfold s_from, s_to. split; apply Cmul_proper; try reflexivity; apply Cconj_proper, Cadd_comm.
Qed.
Print Assumptions C05_swap_line_ends.

(* sn_mva invariance of transformer / impedance rows
   (rows, Ybus stamps and pfsoln flows: the model C02/Model.v of build_branch.py, makeYbus.py, pfsoln.py) *)
Module Br.
Import C31.Model C02.Model C02.Proofs C05.BranchProofs.
(* two branch rows that are the same element on two system bases (impedances * k, admittances / k, k = sn2/sn1, same
   tap / shift / status) yield the same MW / Mvar terminal powers from the same per-unit voltages *)
Theorem C05_sn_mva_invariance_rows : forall b1 b2 e vf vt sn1 sn2,
  ~ sn1 == 0 -> ~ sn2 == 0 -> row_scaled (sn2 / sn1) b1 b2 -> b_stat b1 = true ->
  ~ (b_r b1) * (b_r b1) + (b_x b1) * (b_x b1) == 0 ->
  ~ (b_r b1 + b_ra b1) * (b_r b1 + b_ra b1) + (b_x b1 + b_xa b1) * (b_x b1 + b_xa b1) == 0 ->
  ~ b_tap b1 == 0 -> re e * re e + im e * im e == 1 ->
  Ceq2 (flows (stamps_core b1 e) vf vt sn1) (flows (stamps_core b2 e) vf vt sn2).
Proof. exact flows_sn_scale. Qed.
Print Assumptions C05_sn_mva_invariance_rows.

(* impedance element: the row built by _calc_impedance_parameters_from_dataframe on base sn2 is the rescaled row of
   base sn1, and its terminal powers do not depend on net.sn_mva *)
Theorem C05_impedance_row_scaled : forall sn1 sn2 i, ~ sn1 == 0 -> ~ sn2 == 0 -> ~ i_sn i == 0 ->
  row_scaled (sn2 / sn1) (impedance_branch sn1 i) (impedance_branch sn2 i).
Proof.
  intros sn1 sn2 i H1 H2 Hi. destruct i as [rft xft rtf xtf gf bf gt bt isn ins].
  unfold row_scaled, impedance_branch. cbn [i_rft i_xft i_rtf i_xtf i_gf i_bf i_gt i_bt i_sn i_in] in *. brow_cbn.
  repeat split; try reflexivity; qstrip; field; repeat split; assumption.
Qed.
Print Assumptions C05_impedance_row_scaled.
Theorem C05_sn_mva_invariance_impedance : forall sn1 sn2 i vf vt,
  i_in i = true -> ~ sn1 == 0 -> ~ sn2 == 0 -> ~ i_sn i == 0 ->
  ~ i_rft i * i_rft i + i_xft i * i_xft i == 0 -> ~ i_rtf i * i_rtf i + i_xtf i * i_xtf i == 0 ->
  Ceq2 (flows (stamps_core (impedance_branch sn1 i) C1) vf vt sn1)
       (flows (stamps_core (impedance_branch sn2 i) C1) vf vt sn2).
Proof.
  (* both runs give the flows of the element in its own per-unit system *)
  intros sn1 sn2 i vf vt Hin H1 H2 Hi Hf Ht.
  etransitivity; [|symmetry];
    (etransitivity; [apply impedance_pu_eq_documented | apply imp_doc_flows_own_base]; assumption).
Qed.
Print Assumptions C05_sn_mva_invariance_impedance.
(* swapping the ends of an impedance element (z_ft <-> z_tf, y_f <-> y_t, voltages exchanged) swaps its terminal flows *)
Theorem C05_swap_impedance_ends : forall sn i vf vt,
  i_in i = true -> ~ sn == 0 -> ~ i_sn i == 0 ->
  ~ i_rft i * i_rft i + i_xft i * i_xft i == 0 -> ~ i_rtf i * i_rtf i + i_xtf i * i_xtf i == 0 ->
  let s := flows (stamps_core (impedance_branch sn i) C1) vf vt sn in
  Ceq2 (flows (stamps_core (impedance_branch sn (imp_swap i)) C1) vt vf sn) (snd s, fst s).
Proof.
  (* the documented circuit is symmetric in (z_ft, y_f, v_f) <-> (z_tf, y_t, v_t) *)
  intros sn i vf vt Hin H1 Hi Hf Ht s. subst s.
  pose proof (impedance_pu_eq_documented sn i vf vt Hin H1 Hi) as [A1 A2].
  pose proof (impedance_pu_eq_documented sn (imp_swap i) vt vf Hin H1 Hi) as [B1 B2].
  split; cbn [fst snd]; [rewrite B1, A2 | rewrite B2, A1]; reflexivity.
Qed.
Print Assumptions C05_swap_impedance_ends.

(* transformer (trafo_model = "pi"): with the sqrt oracles of the two runs satisfying their defining equations, the row
   on base sn2 is the rescaled row of base sn1 (r, x * k; g, b / k; same ratio and shift), hence the hv / lv powers in
   MW / Mvar do not depend on net.sn_mva *)
Theorem C05_trafo_row_scaled : forall sn1 sn2 t o1 o2 vnh vnl shift basehv baselv,
  0 < sn1 -> 0 < sn2 -> ~ t_sn t == 0 -> ~ t_par t == 0 -> ~ baselv == 0 -> ~ vnl == 0 -> ~ t_vnl0 t == 0 ->
  o_x o1 * o_x o1 == fst (trafo_zr sn1 t vnl baselv) * fst (trafo_zr sn1 t vnl baselv)
                     - snd (trafo_zr sn1 t vnl baselv) * snd (trafo_zr sn1 t vnl baselv) ->
  o_x o2 * o_x o2 == fst (trafo_zr sn2 t vnl baselv) * fst (trafo_zr sn2 t vnl baselv)
                     - snd (trafo_zr sn2 t vnl baselv) * snd (trafo_zr sn2 t vnl baselv) ->
  0 <= o_x o1 -> 0 <= o_x o2 -> o_bm o1 * o_bm o1 == o_bm o2 * o_bm o2 -> 0 <= o_bm o1 -> 0 <= o_bm o2 ->
  forall b1 b2,
  trafo_branch sn1 false t o1 vnh vnl shift basehv baselv = Ok b1 ->
  trafo_branch sn2 false t o2 vnh vnl shift basehv baselv = Ok b2 ->
  row_scaled (sn2 / sn1) b1 b2.
Proof. exact trafo_pi_row_scaled. Qed.
Print Assumptions C05_trafo_row_scaled.
Theorem C05_sn_mva_invariance_trafo : forall sn1 sn2 t o1 o2 vnh vnl shift basehv baselv,
  0 < sn1 -> 0 < sn2 -> ~ t_sn t == 0 -> ~ t_par t == 0 -> ~ baselv == 0 -> ~ vnl == 0 -> ~ t_vnl0 t == 0 ->
  o_x o1 * o_x o1 == fst (trafo_zr sn1 t vnl baselv) * fst (trafo_zr sn1 t vnl baselv)
                     - snd (trafo_zr sn1 t vnl baselv) * snd (trafo_zr sn1 t vnl baselv) ->
  o_x o2 * o_x o2 == fst (trafo_zr sn2 t vnl baselv) * fst (trafo_zr sn2 t vnl baselv)
                     - snd (trafo_zr sn2 t vnl baselv) * snd (trafo_zr sn2 t vnl baselv) ->
  0 <= o_x o1 -> 0 <= o_x o2 -> o_bm o1 * o_bm o1 == o_bm o2 * o_bm o2 -> 0 <= o_bm o1 -> 0 <= o_bm o2 ->
  forall b1 b2 e vf vt,
  trafo_branch sn1 false t o1 vnh vnl shift basehv baselv = Ok b1 ->
  trafo_branch sn2 false t o2 vnh vnl shift basehv baselv = Ok b2 ->
  b_stat b1 = true -> ~ (b_r b1) * (b_r b1) + (b_x b1) * (b_x b1) == 0 -> ~ b_tap b1 == 0 ->
  re e * re e + im e * im e == 1 ->
  Ceq2 (flows (stamps_core b1 e) vf vt sn1) (flows (stamps_core b2 e) vf vt sn2).
Proof. exact trafo_pi_sn_invariant. Qed.
Print Assumptions C05_sn_mva_invariance_trafo.

(* relabelling: the ppc row of a transformer (bus positions, per-unit parameters) commutes with an injective
   relabelling of the buses when the lookup tables are relabelled with it *)
Theorem C05_trafo_row_relabel : forall f idx bkv bkv' hv lv sn m t o vnh vnl shift,
  (forall x y, f x = f y -> x = y) -> (forall b, bkv' (f b) = bkv b) ->
  trafo_ppc_row (map f idx) bkv' (f hv) (f lv) sn m t o vnh vnl shift = trafo_ppc_row idx bkv hv lv sn m t o vnh vnl shift.
Proof.
  intros f idx bkv bkv' hv lv sn m t o vnh vnl shift Inj B. unfold trafo_ppc_row, consec_lookup. rewrite !B.
  rewrite !(pos_of_map f _ idx 0%nat Inj). reflexivity.
Qed.
Print Assumptions C05_trafo_row_relabel.
Example C05_trafo_sn_nonvacuous :
  (o_x w_o1 * o_x w_o1 == fst (trafo_zr 1 w_trafo 1 1) * fst (trafo_zr 1 w_trafo 1 1)
                          - snd (trafo_zr 1 w_trafo 1 1) * snd (trafo_zr 1 w_trafo 1 1)) /\
  (o_x w_o2 * o_x w_o2 == fst (trafo_zr 4 w_trafo 1 1) * fst (trafo_zr 4 w_trafo 1 1)
                          - snd (trafo_zr 4 w_trafo 1 1) * snd (trafo_zr 4 w_trafo 1 1)) /\
  exists b1 b2, trafo_branch 1 false w_trafo w_o1 1 1 0 1 1 = Ok b1 /\ trafo_branch 4 false w_trafo w_o2 1 1 0 1 1 = Ok b2 /\
    b_stat b1 = true /\ b_r b1 == 3 # 100 /\ b_x b1 == 4 # 100 /\ b_r b2 == 12 # 100 /\ b_x b2 == 16 # 100 /\ b_tap b1 == 1.
Proof. exact trafo_sn_nonvacuous. Qed.
Print Assumptions C05_trafo_sn_nonvacuous.
End Br.

(* the Newton convergence test compares the per-unit mismatch with tolerance_mva: on base 1 MVA it is the documented
   test; on another base a mismatch 50 times the tolerance passes (the sn_mva sentence holds only up to sn_mva*tolerance) *)
Theorem C05_tolerance_partial : forall tol mis, nr_converged tol 1 mis = true <-> mis < tol.
Proof.
  intros tol mis. unfold nr_converged. rewrite qltb_lt, qdiv_correct.
  assert (E : mis / 1 == mis) by field. rewrite E. reflexivity.
Qed.
Print Assumptions C05_tolerance_partial.
Theorem C05_tolerance_refuted : exists tol sn mis, nr_converged tol sn mis = true /\ tol * 50 <= mis.
Proof. exists (1 # 100000000), 100, (1 # 2000000). split; [vm_compute; reflexivity|vm_compute; discriminate]. Qed.
Print Assumptions C05_tolerance_refuted.

Example C05_nonvacuous :
  sum_by_group [(3%nat, 1 # 2); (1%nat, 2); (3%nat, 1 # 4); (1%nat, -1)] = [(1%nat, 1); (3%nat, 3 # 4)].
Proof. vm_compute. reflexivity. Qed.
Print Assumptions C05_nonvacuous.
