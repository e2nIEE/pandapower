(* C08 — calculations never corrupt the user's element tables, even when they fail
   (the invariants and the general lemmas are in C08/Proofs.v and C08/ProofsX.v).
   exec (pl_of c n) k conv n : the stage machine of calculation c (power flow AC/DC, OPF AC/DC, short circuit 2ph/3ph,
   short circuit 1ph, three-phase power flow) on net n at the granularity of single table writes (tracking an index and
   writing the row are separate steps), with an injected fault before the k-th executed operation (k = None: no
   fault) and the solver verdict conv (false = not converged / matrix inversion failed).
   user_tables = (gen, vsc, trafo, dcline, b2b_vsc) rows with all cell contents; clean = nothing is tracked as
   auxiliary (the state between calculations). *)
From Coq Require Import ZArith List Bool.
From PPV Require Import C08.Model C08.Proofs C08.ProofsX.
Import ListNotations.
Open Scope Z_scope.

(* FULL: every calculation, every crash point, every solver verdict: the element tables are what they were, and
   nothing stays tracked *)
Theorem C08_tables_preserved : forall n c k conv,
  clean n = true ->
  user_tables (fst (fst (exec (pl_of c n) k conv n))) = user_tables n /\
  clean (fst (fst (exec (pl_of c n) k conv n))) = true.
Proof. intros n c k conv C. exact (calc_restores n c k conv C). Qed.
Print Assumptions C08_tables_preserved.

(* any number of calculations in a row on the same object, each crashing wherever it likes *)
Theorem C08_session_preserved : forall cs n,
  clean n = true ->
  user_tables (session cs n) = user_tables n /\ clean (session cs n) = true.
Proof.
  induction cs as [|[[c k] conv] cs IH]; intros n0 C; cbn [session]; [split; auto|].
  destruct (calc_restores n0 c k conv C) as [U1 C1]. unfold ex_st in U1, C1.
  destruct (IH _ C1) as [U2 C2].
  split; [congruence | exact C2].
Qed.
Print Assumptions C08_session_preserved.

(* _clean_up removes exactly the auxiliary rows from any intermediate state of a pipeline (Inv: user rows ++ extra rows
   whose indices are tracked, tracked indices above all user indices), and calling it again changes nothing *)
Theorem C08_cleanup_removes_exactly_aux : forall n0 n r,
  Inv n0 n ->
  user_tables (apply (ACleanup r) n) = user_tables n0 /\ clean (apply (ACleanup r) n) = true.
Proof. intros n0 n r I. exact (cleanup_restores n0 n r I). Qed.
Print Assumptions C08_cleanup_removes_exactly_aux.

Theorem C08_cleanup_idempotent : forall n r r',
  apply (ACleanup r') (apply (ACleanup r) n) = apply (ACleanup r) n.
Proof. intros n r r'. apply cleanup_clean, cleanup_spec. Qed.
Print Assumptions C08_cleanup_idempotent.

(* the pipelines before the repairs violate the statement (regression witnesses).
   Mid = index tracked only after create_gen returned, b2b vsc's cleaned up by name: *)
Theorem C08_mid_window_refuted :
  exists n k conv, clean n = true /\
    user_tables (fst (fst (exec (pl_powerflow_mid n) k conv n))) <> user_tables n.
Proof.
  (* a fault between the row write of create_gen and the tracking of its index leaves the row behind *)
  exists net_w, (Some 2%nat), true. split; [reflexivity|]. vm_compute. discriminate.
Qed.
Print Assumptions C08_mid_window_refuted.

Theorem C08_mid_vsc_name_refuted :
  exists n k conv, clean n = true /\ snd (fst (exec (pl_powerflow_mid n) k conv n)) = Done /\
    user_tables (fst (fst (exec (pl_powerflow_mid n) k conv n))) <> user_tables n.
Proof.
  (* a user vsc that carries the name of an auxiliary b2b vsc is deleted by a successful run *)
  exists net_v, None, true. repeat split. vm_compute. discriminate.
Qed.
Print Assumptions C08_mid_vsc_name_refuted.

(* Old = no tracking, no try statement, trailing-rows cleanup, tap table written into net.trafo: *)
Theorem C08_old_crash_leaks_refuted :
  exists n k conv, user_tables (fst (fst (exec (pl_powerflow_old n) k conv n))) <> user_tables n.
Proof. exists net_w, (Some 3%nat), true. vm_compute. discriminate. Qed.
Print Assumptions C08_old_crash_leaks_refuted.

Theorem C08_old_opf_not_converged_leaks_refuted :
  exists n, user_tables (fst (fst (exec (pl_opf_old n) None false n))) <> user_tables n.
Proof. exists net_w. vm_compute. discriminate. Qed.
Print Assumptions C08_old_opf_not_converged_leaks_refuted.

Theorem C08_old_tap_table_overwrites_refuted :
  exists n, snd (fst (exec (pl_powerflow_old n) None true n)) = Done /\
            user_tables (fst (fst (exec (pl_powerflow_old n) None true n))) <> user_tables n.
Proof.
  exists {| gen := []; res_gen := []; vsc := []; trafo := [{| t_id := 0; t_vk := 12; t_tab := Some 13 |}];
            dcline := []; b2b := []; tracked := None; tracked_v := None |}.
  split; vm_compute; [reflexivity | discriminate].
Qed.
Print Assumptions C08_old_tap_table_overwrites_refuted.

Theorem C08_old_cleanup_without_add_refuted :
  exists n, user_tables (apply (ACleanupOld true) n) <> user_tables n.
Proof.
  (* the old cleanup rule deletes user generators when nothing was added (runpp_3ph, recycled power flow) *)
  exists {| gen := [g 0 7; g 1 8]; res_gen := [0; 1]; vsc := []; trafo := []; dcline := [50]; b2b := [];
            tracked := None; tracked_v := None |}.
  vm_compute. discriminate.
Qed.
Print Assumptions C08_old_cleanup_without_add_refuted.

Example C08_nonvacuous :
  clean net_nv = true /\
  (exists tr, snd (run (add_aux net_nv) None true net_nv) = tr /\
              map (fun n => (ids (gen n), olist_ (tracked n), map v_id (vsc n))) tr =
              [ ([2;5], [], [4]); ([2;5], [6], [4]); ([2;5;6], [6], [4]); ([2;5;6], [6;7], [4]); ([2;5;6;7], [6;7], [4]);
                ([2;5;6;7], [6;7;8], [4]); ([2;5;6;7;8], [6;7;8], [4]); ([2;5;6;7;8], [6;7;8;9], [4]);
                ([2;5;6;7;8;9], [6;7;8;9], [4]); ([2;5;6;7;8;9], [6;7;8;9], [4]); ([2;5;6;7;8;9], [6;7;8;9], [4]);
                ([2;5;6;7;8;9], [6;7;8;9], [4;5]); ([2;5;6;7;8;9], [6;7;8;9], [4;5]); ([2;5;6;7;8;9], [6;7;8;9], [4;5;6]) ]) /\
  user_tables (fst (fst (exec (pl_sc_1ph net_nv) (Some 7%nat) true net_nv))) = user_tables net_nv /\
  snd (fst (exec (pl_sc_1ph net_nv) (Some 7%nat) true net_nv)) = Raised.
Proof.
  (* `exact nonvacuous` alone would compare ex_st with fst (fst _) by running the pipeline inside the conversion *)
  rewrite <- ex_st_eq. exact nonvacuous.
Qed.
Print Assumptions C08_nonvacuous.

(* state estimation and contingency analysis (stage machines of StateEstimation.estimate and run_contingency).
   xnet = element tables of the pipelines + the switch impedance column(s) + all in_service cells.
   xtables_eq s0 s : gen/vsc/trafo/dcline/b2b_vsc rows, z_ohm, presence of z_ohm_ori, every in_service cell and the
   row sets of s are those of s0, and nothing is tracked as auxiliary.
   k counts atomic operations INCLUDING those of the nested power flows (every _get_bus_ppc_mapping of the bb-switch
   substitution and every outage case runs a complete power flow with its own auxiliary elements and try statement);
   exn = the injected fault is an Exception (false: BaseException only, e.g. KeyboardInterrupt). *)

(* FULL: estimate with any fuse_buses_with_bb_switch argument (bb: substitution active; badarg: invalid string), any
   sequence of impedance writes, any verdict of the nested power flows and of the solver, any crash point, any kind of
   fault: try/finally gives the switch impedances back and nothing else is touched *)
Theorem C08_estimate_preserved : forall exn bb badarg rounds conv_pf success k s,
  clean (x_net s) = true -> sw_ori s = None ->
  xtables_eq s (fst (fst (run_estimate exn bb badarg rounds conv_pf success k s))).
Proof. exact estimate_restores. Qed.
Print Assumptions C08_estimate_preserved.

(* the guard is needed: a user column called z_ohm_ori is overwritten and dropped (helper-column name collision) *)
Theorem C08_estimate_user_ori_column_refuted :
  exists s, clean (x_net s) = true /\
    sw_ori (fst (fst (run_estimate true true false [] true true None s))) <> sw_ori s.
Proof.
  exists {| x_net := net0; sw_z := Some [0]; sw_ori := Some [7]; serv := fun _ _ => true; has := fun _ _ => true |}.
  split; [reflexivity|]. vm_compute. discriminate.
Qed.
Print Assumptions C08_estimate_user_ori_column_refuted.

(* the code before the repair (reset only on normal completion) violates the statement *)
Theorem C08_estimate_old_refuted :
  exists s k, clean (x_net s) = true /\ sw_ori s = None /\
    sw_z (fst (fst (run_estimate_old true true false [([true], None)] true true k s))) <> sw_z s.
Proof.
  exists {| x_net := net0; sw_z := Some [0]; sw_ori := None; serv := fun _ _ => true; has := fun _ _ => true |}, (Some 10%nat).
  repeat split. vm_compute. discriminate.
Qed.
Print Assumptions C08_estimate_old_refuted.

(* FULL for the code as it is (outage assignment inside the try statement, CONTINGENCY_OUTAGE_INSIDE_TRY = true): every
   outage list (absent indices, elements already out of service, repeated elements), every evaluation function among the
   modelled calculations, every verdict per case, raise_errors on/off, every crash point - also directly behind the outage
   assignment (window) -, Exception or BaseException: all in_service cells and all tables are given back *)
Theorem C08_contingency_preserved : forall exn window raise_errors c cs conv0 k s,
  clean (x_net s) = true ->
  xtables_eq s (fst (fst (run_contingency exn window CONTINGENCY_OUTAGE_INSIDE_TRY raise_errors c cs conv0 k s))).
Proof. intros. apply contingency_restores; auto. Qed.
Print Assumptions C08_contingency_preserved.

(* the layout before the repair (assignment in front of the try statement): only the crash points at which a statement
   raises are safe ... *)
Theorem C08_contingency_old_preserved_partial : forall exn raise_errors c cs conv0 k s,
  clean (x_net s) = true ->
  xtables_eq s (fst (fst (run_contingency_old exn false raise_errors c cs conv0 k s))).
Proof. intros. apply contingency_restores; auto. Qed.
Print Assumptions C08_contingency_old_preserved_partial.

(* ... a fault between the assignment and the try statement left the element out of service (regression witness) *)
Theorem C08_contingency_old_window_refuted :
  exists s cs k, clean (x_net s) = true /\
    serv (fst (fst (run_contingency_old false true false CPf cs true k s))) 0%nat 1 <> serv s 0%nat 1.
Proof. exists s_line, [(0%nat, 0, true); (0%nat, 1, true)], (Some 9%nat). split; [reflexivity|]. vm_compute. discriminate. Qed.
Print Assumptions C08_contingency_old_window_refuted.

Example C08_nonvacuous_estimate_contingency :
  (let r := run_estimate false true false [([true; false], Some [true; false]); ([false; true], None)] true true (Some 30%nat)
              {| x_net := net_nv; sw_z := Some [0; 0]; sw_ori := None; serv := fun _ _ => true; has := fun _ _ => true |} in
   oc3 r = XRaised false /\ sw_z (st3 r) = Some [0; 0] /\ sw_ori (st3 r) = None /\ user_tables (x_net (st3 r)) = user_tables net_nv) /\
  sw_z (st3 (xrun_ops true (est_body true false false [([true; false], None)] true true) None
              {| x_net := net0; sw_z := Some [0; 0]; sw_ori := None; serv := fun _ _ => true; has := fun _ _ => true |}))
    = Some [Z_IMP; 0] /\
  (let r := run_contingency false false false false CPf [(0%nat, 0, true); (0%nat, 1, false); (0%nat, 2, true)] true (Some 12%nat) s_line in
   oc3 r = XRaised false /\ forall i, In i [0; 1; 2] -> serv (st3 r) 0%nat i = true) /\
  oc3 (run_contingency true false false false CPf [(0%nat, 0, true); (0%nat, 1, false); (0%nat, 2, true)] true (Some 12%nat) s_line) = XDone.
Proof. exact nonvacuous_x. Qed.
Print Assumptions C08_nonvacuous_estimate_contingency.
