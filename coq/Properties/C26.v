(* C26 — property theorems (supporting lemmas in Base/C07Graph.v, Base/C26Dist.v, C26/Proofs.v, C26/Stages.v).
   Model: C26/Model.v (create_nxgraph under all options, connected_components, calc_distance_to_bus). *)
From Coq Require Import String.
From Coq Require Import List Bool Arith QArith Relations.
From PPV Require Import Base.Lists Base.C07Graph Base.C26Dist C07.Model C26.Model C26.Proofs C26.Stages.
Import ListNotations.
Local Open Scope nat_scope.

(* which elements become edges: a line iff it counts as in service (in_service or include_out_of_service) and, when
   switches are respected, no open switch sits at it; key ("line", index), weight length_km *)
Theorem C26_line_edges_exact : forall o n rows e,
  In e (line_edges o n rows) <->
  exists l w, In (l, w) rows /\ counted o (r_is l) /\ (o_respect o = true -> open_sw n ETl (r_id l) = false)
              /\ e = (r_f l, r_t l, (0, r_id l), w).
Proof.
  intros o n rows e. unfold line_edges. cbv zeta. rewrite in_flat_map_if. split.
  - intros [[l w] [I [C <-]]]. apply edge_cond in C. exists l, w. tauto.
  - intros [l [w [I [C [S ->]]]]]. exists (l, w). split; [exact I|]. split; [now apply edge_cond|reflexivity].
Qed.
Print Assumptions C26_line_edges_exact.

Theorem C26_trafo_edges_exact : forall o n rows e,
  In e (trafo_edges o n rows) <->
  exists t, In t rows /\ counted o (r_is t) /\ (o_respect o = true -> open_sw n ETt (r_id t) = false)
            /\ e = (r_f t, r_t t, (3, r_id t), qopt (o_trafo_len o)).
Proof.
  intros o n rows e. unfold trafo_edges. rewrite in_flat_map_if. split.
  - intros [t [I [C <-]]]. apply edge_cond in C. exists t. tauto.
  - intros [t [I [C [S ->]]]]. exists t. split; [exact I|]. split; [now apply edge_cond|reflexivity].
Qed.
Print Assumptions C26_trafo_edges_exact.

(* a pair of trafo3w terminals iff the trafo3w counts as in service and, when switches are respected, neither of the
   two terminals carries an open switch of this trafo3w *)
Theorem C26_trafo3w_edges_exact : forall o n rows e,
  In e (t3_edges o n rows) <->
  exists t f t', In t rows /\ In (f, t') [(0, 1); (0, 2); (1, 2)] /\ counted o (t_is t) /\
     (o_respect o = true -> open_t3 n (t_id t) (t3_bus t f) = false /\ open_t3 n (t_id t) (t3_bus t t') = false)
     /\ e = (t3_bus t f, t3_bus t t', (4, t_id t), qopt (o_trafo_len o)).
Proof.
  intros o n rows e. unfold t3_edges. rewrite in_flat_map. split.
  - intros [[f t'] [P H]]. apply in_flat_map_if in H. destruct H as [t [I [C <-]]].
    apply edge_cond in C. rewrite orb_false_iff in C. exists t, f, t'. tauto.
  - intros [t [f [t' [I [P [C [S ->]]]]]]]. exists (f, t'). split; [exact P|]. apply in_flat_map_if. exists t.
    split; [exact I|]. split; [|reflexivity]. apply edge_cond. now rewrite orb_false_iff.
Qed.
Print Assumptions C26_trafo3w_edges_exact.

(* a bus-bus switch iff include_switches and (closed or switches are not respected) *)
Theorem C26_switch_edges_exact : forall o n e,
  In e (switch_edges o n) <->
  o_switches o = true /\ exists p s, In (p, s) (enum (switches n)) /\ s_et s = ETb /\
     (s_closed s = true \/ o_respect o = false) /\ e = (s_bus s, s_el s, (5, p), qopt (o_switch_len o)).
Proof.
  intros o n e. unfold switch_edges. destruct (o_switches o); [|split; [intros []|intros [H _]; discriminate]].
  rewrite in_flat_map. split.
  - intros [[p s] [I H]]. destruct (swet_eqb (s_et s) ETb && (s_closed s || negb (o_respect o))) eqn:E; [|contradiction].
    destruct H as [<-|[]]. apply andb_prop in E. destruct E as [E1 E2]. split; auto. exists p, s. repeat split; auto.
    + destruct (s_et s); simpl in E1; auto; discriminate.
    + apply orb_prop in E2. destruct E2 as [E2|E2]; auto. right. now apply negb_true_iff in E2.
  - intros [_ [p [s [I [T [C ->]]]]]]. exists (p, s). split; auto. rewrite T.
    assert (X : s_closed s || negb (o_respect o) = true).
    { destruct C as [->| ->]; auto. apply orb_true_r. }
    rewrite X. now left.
Qed.
Print Assumptions C26_switch_edges_exact.

(* connected_components (no notravbuses) on an undirected graph: cover, classes of the connectivity relation made
   of nodes only, pairwise disjoint — a partition of the node set *)
Theorem C26_cc_partition : forall g, sym_arcs g = true ->
  (forall x, In x (g_nodes g) -> exists c, In c (connected_components g []) /\ In x c) /\
  (forall c, In c (connected_components g []) ->
     (exists x, In x (g_nodes g) /\ forall y, In y c <-> path (uarcs g) x y) /\ incl c (g_nodes g)) /\
  pairwise_disjoint (connected_components g []).
Proof. exact cc_partition. Qed.
Print Assumptions C26_cc_partition.

(* with notravbuses the components overlap in the notravbuses (by design of the search): not a partition *)
Theorem C26_cc_partition_notrav_refuted : exists g nt, ~ pairwise_disjoint (connected_components g nt).
Proof.
  exists w_notrav, [1]. intros H. vm_compute in H.
  inversion H as [|c l D P]; subst. apply (D [1; 2] (or_introl eq_refl) 1); simpl; auto.
Qed.
Print Assumptions C26_cc_partition_notrav_refuted.

(* distances: every listed value is the weight of a walk from the source and no walk is shorter; every node that
   has a walk is listed (reference for calc_distance_to_bus / dijkstra) *)
Theorem C26_distances_shortest : forall g src l, distances g src = Ok l ->
  forall x q, In (x, q) l ->
    (exists W, walk (warcs g) src x W /\ W == q) /\ (forall W, walk (warcs g) src x W -> (q <= W)%Q).
Proof.
  intros g src l H x q I. destruct (distances_ok _ _ _ H) as [d [E L]]. apply L in I.
  destruct (sssp_correct nat Nat.eq_dec _ _ _ _ E) as [A _]. apply (A _ _ (proj2 I)).
Qed.
Print Assumptions C26_distances_shortest.
Theorem C26_distances_complete : forall g src l, distances g src = Ok l ->
  forall x W, walk (warcs g) src x W -> exists q, In (x, q) l.
Proof.
  intros g src l H x W Wk. destruct (distances_ok _ _ _ H) as [d [E L]].
  destruct (sssp_correct nat Nat.eq_dec _ _ _ _ E) as [_ B].
  destruct (dget Nat.eq_dec d x) as [q|] eqn:Dq; [|exfalso; eapply B; eauto].
  exists q. apply L. split; [|exact Dq].
  inversion Wk; subst; [now left|]. right.
  unfold warcs in H1. apply in_map_iff in H1. destruct H1 as [a [Ea Ia]]. inversion Ea; subst.
  apply in_map_iff. exists a. auto.
Qed.
Print Assumptions C26_distances_complete.

(* create_nxgraph_old removes the notravbuses edges before the out-of-service buses: it raises KeyError (out-of-service
   bus next to a notravbus) or leaves a dangling adjacency entry (out-of-service notravbus); create_nxgraph, which
   removes the out-of-service buses first, returns graphs whose arcs all end at nodes *)
Theorem C26_notrav_oos_old_refuted :
  create_nxgraph_old (o_default [1]) w_chain [1; 1; 1]%Q = Raise "KeyError"%string /\
  (exists g, create_nxgraph_old (o_default [2]) w_chain [1; 1; 1]%Q = Ok g /\ no_dangling g = false) /\
  (exists g, create_nxgraph (o_default [1]) w_chain [1; 1; 1]%Q = Ok g /\ no_dangling g = true) /\
  (exists g, create_nxgraph (o_default [2]) w_chain [1; 1; 1]%Q = Ok g /\ no_dangling g = true).
Proof. repeat split; try (eexists; split; vm_compute; reflexivity). Qed.
Print Assumptions C26_notrav_oos_old_refuted.

(* build stage, on the edge list: an arc is an edge of the list (or its mirror image) that no later edge between the
   same pair of nodes (MultiGraph: with the same key) has overwritten; the nodes are the edge ends and all buses *)
Theorem C26_build_arcs_exact : forall o n es a,
  In a (g_arcs (build_graph o n es)) <->
  exists es1 e es2, es = es1 ++ e :: es2 /\ (a = e \/ a = mirror e) /\
                    forall e', In e' es2 -> clash (o_multi o) a e' = false.
Proof.
  intros o n es a.
  unfold build_graph. simpl. rewrite fold_add_exact. split; [intros [[[] _]|H]; exact H|intros H; now right].
Qed.
Print Assumptions C26_build_arcs_exact.
Theorem C26_build_nodes_exact : forall o n es x,
  In x (g_nodes (build_graph o n es)) <->
  (exists e, In e es /\ (x = e_u e \/ x = e_v e)) \/ exists r, In r (buses n) /\ b_id r = x.
Proof. exact build_nodes. Qed.
Print Assumptions C26_build_nodes_exact.
(* every edge of the list is represented by an arc between the same ordered pair (MultiGraph: with the same key) *)
Theorem C26_build_arcs_complete : forall m es e, In e es ->
  exists a, In a (fold_left (add_edge m) es []) /\ e_u a = e_u e /\ e_v a = e_v e /\ (m = true -> e_k a = e_k e).
Proof. intros m es e. intros I. apply (fold_add_complete m es [] e). now left. Qed.
Print Assumptions C26_build_arcs_complete.

(* the returned graph = the build-stage graph restricted to the buses that are not gone (gone = nogobus, or out of
   service unless include_out_of_service), minus the arcs that leave a notravbus; no arc dangles *)
Theorem C26_stages_exact : forall o n lens g, create_nxgraph o n lens = Ok g ->
  exists es, raw_edges o n lens = Ok es /\
    (forall x, In x (g_nodes g) <-> In x (g_nodes (build_graph o n es)) /\ ~ gone o n x) /\
    (forall a, In a (g_arcs g) <->
       In a (g_arcs (build_graph o n es)) /\ ~ gone o n (e_u a) /\ ~ gone o n (e_v a) /\ ~ In (e_u a) (notrav_list o)) /\
    no_dangling g = true.
Proof. exact create_nxgraph_stages. Qed.
Print Assumptions C26_stages_exact.

(* once the edge tables are found, create_nxgraph raises only for a nogobus that is no node of the graph (or is listed
   twice): networkx' remove_node never fails on the out-of-service buses, the notravbuses deletion never fails *)
Theorem C26_valid_options_never_raise : forall o n lens es, raw_edges o n lens = Ok es ->
  NoDup (nogo_list o) -> (forall b, In b (nogo_list o) -> In b (g_nodes (build_graph o n es))) ->
  exists g, create_nxgraph o n lens = Ok g.
Proof.
  intros o n lens es R N I. unfold create_nxgraph. rewrite R. simpl. rewrite stage_nogo_eq.
  destruct (nogo_fold_total _ _ N I) as [g1 S1]. rewrite S1. simpl.
  destruct (nogo_fold_ok _ _ _ (build_good o n es) S1) as [G1 _].
  destruct (stage_oos_spec o n g1 G1) as [g2 [S2 [G2 _]]]. rewrite S2. simpl.
  rewrite stage_notrav_eq. destruct (notrav_fold (notrav_list o) g2 (proj2 G2)) as [g3 [S3 _]]. eauto.
Qed.
Print Assumptions C26_valid_options_never_raise.

(* without notravbuses the returned adjacency is symmetric and closed, so C26_cc_partition applies to every returned graph *)
Theorem C26_created_graph_symmetric : forall o n lens g,
  create_nxgraph o n lens = Ok g -> notrav_list o = [] -> sym_arcs g = true.
Proof.
  intros o n lens g H NT. destruct (create_nxgraph_stages o n lens g H) as [es [R [N [A D]]]].
  unfold sym_arcs. apply andb_true_iff. split; [|exact D].
  apply forallb_forall. intros a I. apply existsb_exists. exists (mirror a). split.
  - apply A. apply A in I. destruct I as [I [Gu [Gv _]]]. rewrite NT.
    split; [now apply (proj1 (build_good o n es))|]. split; [exact Gv|split; [exact Gu|intros []]].
  - now rewrite !Nat.eqb_refl.
Qed.
Print Assumptions C26_created_graph_symmetric.
Theorem C26_cc_partition_created : forall o n lens g, create_nxgraph o n lens = Ok g -> notrav_list o = [] ->
  (forall x, In x (g_nodes g) -> exists c, In c (connected_components g []) /\ In x c) /\
  (forall c, In c (connected_components g []) ->
     (exists x, In x (g_nodes g) /\ forall y, In y c <-> path (uarcs g) x y) /\ incl c (g_nodes g)) /\
  pairwise_disjoint (connected_components g []).
Proof. intros o n lens g H NT. apply cc_partition. exact (C26_created_graph_symmetric o n lens g H NT). Qed.
Print Assumptions C26_cc_partition_created.

(* nogobuses / notravbuses semantics on walks (walk_to E x l y: l = the nodes visited after x, ending in y; equivalent
   to Base/C07Graph.path): on every walk of the returned graph all nodes but the last are no notravbuses (a notravbus is
   reached, never traversed), and a walk with at least one arc visits only nodes of the graph, none of them gone *)
Theorem C26_path_is_walk : forall E x y, path E x y <-> exists l, walk_to E x l y.
Proof. exact path_walk. Qed.
Print Assumptions C26_path_is_walk.
Theorem C26_walk_avoids : forall o n lens g, create_nxgraph o n lens = Ok g ->
  forall l x y, walk_to (uarcs g) x l y ->
    (forall b, In b (removelast (x :: l)) -> ~ In b (notrav_list o)) /\
    (l <> [] -> forall b, In b (x :: l) -> In b (g_nodes g) /\ ~ gone o n b).
Proof.
  intros o n lens g H. destruct (create_nxgraph_stages o n lens g H) as [es [R [N [A D]]]].
  induction l as [|z t IH]; intros x y W.
  - split; [intros b []|congruence].
  - destruct W as [I W]. apply uarcs_In in I. destruct I as [a [I [Eu Ev]]].
    pose proof (proj1 (A a) I) as [_ [Gu [Gv NT]]]. rewrite Eu in Gu, NT. rewrite Ev in Gv.
    apply no_dangling_iff in D. destruct (D a I) as [Du Dv]. rewrite Eu in Du. rewrite Ev in Dv.
    destruct (IH z y W) as [IH1 IH2]. split.
    + intros b Hb. change (removelast (x :: z :: t)) with (x :: removelast (z :: t)) in Hb.
      destruct Hb as [<-|Hb]; auto.
    + intros _ b [<-|Hb]; auto. destruct t as [|z' t'].
      * destruct Hb as [<-|[]]. auto.
      * apply IH2; auto. discriminate.
Qed.
Print Assumptions C26_walk_avoids.
(* and exactly those: compared with the same call without notravbuses, the walks of the graph are the walks of that
   graph on which no notravbus is left again; the node lists are equal *)
Theorem C26_notrav_walks_exact : forall o n lens g g0,
  create_nxgraph o n lens = Ok g -> create_nxgraph (without_notrav o) n lens = Ok g0 ->
  g_nodes g = g_nodes g0 /\
  forall l x y, walk_to (uarcs g) x l y <->
                walk_to (uarcs g0) x l y /\ forall b, In b (removelast (x :: l)) -> ~ In b (notrav_list o).
Proof.
  intros o n lens g g0 H H0. rewrite create_nxgraph_notrav, H0 in H. simpl in H. rewrite stage_notrav_eq in H.
  destruct (create_nxgraph_stages _ _ _ _ H0) as [_ [_ [_ [_ D0]]]]. apply no_dangling_iff in D0.
  destruct (notrav_fold (notrav_list o) g0 D0) as [g' [F [_ [N AA]]]]. rewrite F in H. inversion H; subst g'. clear H F.
  split; [exact N|].
  induction l as [|z t IH]; intros x y.
  - intuition.
  - change (removelast (x :: z :: t)) with (x :: removelast (z :: t)). simpl walk_to. rewrite IH. split.
    + intros [I [W NT]]. apply uarcs_In in I. destruct I as [a [I [Eu Ev]]]. apply AA in I. destruct I as [I Na].
      repeat split; auto.
      * apply uarcs_In. exists a. auto.
      * intros b [<-|Hb]; [now rewrite <- Eu|now apply NT].
    + intros [[I W] NT]. apply uarcs_In in I. destruct I as [a [I [Eu Ev]]]. repeat split; auto.
      * apply uarcs_In. exists a. repeat split; auto. apply AA. split; auto. rewrite Eu. apply NT. now left.
      * intros b Hb. apply NT. now right.
Qed.
Print Assumptions C26_notrav_walks_exact.
(* graph_searches.connected_component called with the notravbuses the graph was built with = reachability in the graph *)
Theorem C26_cc_built_notrav : forall o n lens g x y, create_nxgraph o n lens = Ok g ->
  In y (connected_component g (notrav_list o) x) <-> path (uarcs g) x y.
Proof.
  intros o n lens g x y H. destruct (create_nxgraph_stages _ _ _ _ H) as [es [R [N [A D]]]].
  unfold connected_component, cc_arcs. rewrite filter_all; [apply reach_single|].
  intros a I. apply A in I. destruct I as [_ [_ [_ NT]]]. apply (mem_nIn nat Nat.eq_dec) in NT. now rewrite NT.
Qed.
Print Assumptions C26_cc_built_notrav.

Example C26_stages_nonvacuous :
  exists g, create_nxgraph (o_default [1]) w_chain [1; 1; 1]%Q = Ok g /\
    g_nodes g = [0; 1; 3] /\ g_arcs g = [(0, 1, (0, 0), 1%Q)] /\ walk_to (uarcs g) 0 [1] 1.
Proof. exact stages_nonvacuous. Qed.
Print Assumptions C26_stages_nonvacuous.

Example C26_nonvacuous :
  let g := {| g_nodes := [0; 1; 2; 3]; g_arcs := [(0, 1, (0, 0), 2%Q); (1, 0, (0, 0), 2%Q); (1, 2, (0, 1), 1%Q); (2, 1, (0, 1), 1%Q);
                                                (0, 2, (0, 2), 4%Q); (2, 0, (0, 2), 4%Q)] |} in
  sym_arcs g = true /\ connected_components g [] = [[2; 1; 0]; [3]] /\
  distances g 0 = Ok [(1, 2%Q); (2, 3%Q); (0, 0%Q)].
Proof. vm_compute. repeat split. Qed.
Print Assumptions C26_nonvacuous.
