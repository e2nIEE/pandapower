(* C25 — standard types are applied completely and consistently (lemmas in C25/Proofs.v, C25/Proofs2.v) *)
From Coq Require Import ZArith QArith List Bool String.
From PPV Require Import Base.QN C24.Model C24.Proofs C25.Model C25.Proofs C25.Proofs2.
Import ListNotations.
Open Scope string_scope.

(* the type library behaves as a finite map under every sequence of create / delete / rename / copy calls
   (raising calls included): lookups in the implementation's dict = lookups in the abstract map *)
Theorem C25_library_refines_finite_map : forall req ops l x,
  lget (run_ops req l ops) x = fold_left (spec_step req) ops (lget l) x.
Proof.
  intros req. induction ops as [|o ops IH]; intros l x; simpl; [reflexivity|].
  rewrite IH. apply fold_spec_step_ext. intros y. apply step_refines.
Qed.
Print Assumptions C25_library_refines_finite_map.

(* created / renamed / copied types are returned unchanged by load_std_type; other names are untouched *)
Theorem C25_created_is_loaded : forall req l d n ck l',
  create_std req l d n true ck = Ok l' ->
  load_std l' n = Ok d /\ (forall m, String.eqb n m = false -> load_std l' m = load_std l m).
Proof.
  unfold create_std. intros req l d n ck l'. destruct (ck && negb (forallb (has d) req)); [discriminate|].
  intros H. inversion H. subst l'. unfold load_std. split; [|intros m Hm]; rewrite lget_lset; unfold fupd.
  - rewrite String.eqb_refl. reflexivity.
  - rewrite Hm. reflexivity.
Qed.
Print Assumptions C25_created_is_loaded.
Theorem C25_renamed_is_loaded : forall l a b l', rename_std l a b = Ok l' ->
  exists d, load_std l a = Ok d /\ load_std l' b = Ok d /\ load_std l' a = Err "UserWarning" /\
            (forall m, String.eqb a m = false -> String.eqb b m = false -> load_std l' m = load_std l m).
Proof.
  intros l a b l' R. destruct (rename_lget l a b l' R) as (d & A & B & L). exists d.
  assert (Hba : String.eqb b a = false).
  { destruct (String.eqb b a) eqn:E; [|reflexivity]. apply String.eqb_eq in E. congruence. }
  unfold load_std. rewrite A, !L. unfold fupd. rewrite !String.eqb_refl, Hba. repeat split.
  intros m Ha Hb. rewrite L. unfold fupd. rewrite Ha, Hb. reflexivity.
Qed.
Print Assumptions C25_renamed_is_loaded.
Theorem C25_copied_is_loaded : forall req src dst,
  NoDup (map fst src) -> (forall n d, In (n, d) src -> forallb (has d) req = true) ->
  let dst' := fst (copy_std req dst src true) in
  snd (copy_std req dst src true) = false /\
  (forall n d, In (n, d) src -> load_std dst' n = Ok d) /\
  (forall m, ~ In m (map fst src) -> load_std dst' m = load_std dst m).
Proof.
  intros req. induction src as [|[n d] src IH]; intros dst Hnd Hv; simpl.
  - split; [reflexivity|]. split; [intros ? ? []| reflexivity].
  - unfold create_std. simpl andb. rewrite (Hv n d (or_introl eq_refl)). simpl.
    inversion Hnd as [|? ? Hn Hnd']. subst.
    destruct (IH (lset dst n d) Hnd' (fun n0 d0 H => Hv n0 d0 (or_intror H))) as [I1 [I2 I3]].
    split; [exact I1|]. split.
    + intros n0 d0 [H|H]; [|apply I2; exact H].
      inversion H. subst. rewrite (I3 n0 Hn). unfold load_std. rewrite lget_lset. unfold fupd. rewrite String.eqb_refl. reflexivity.
    + intros m Hm. rewrite I3 by (intros X; apply Hm; right; exact X).
      unfold load_std. rewrite lget_lset. unfold fupd.
      destruct (String.eqb n m) eqn:E; [|reflexivity]. apply String.eqb_eq in E. subst. exfalso. apply Hm. left. reflexivity.
Qed.
Print Assumptions C25_copied_is_loaded.
Theorem C25_deleted_is_gone : forall l n l', delete_std l n = Ok l' ->
  load_std l' n = Err "UserWarning" /\ forall m, String.eqb n m = false -> load_std l' m = load_std l m.
Proof.
  unfold delete_std. intros l n l'. destruct (lhas l n); [|discriminate]. intros H. inversion H. subst l'.
  unfold load_std. split; [|intros m Hm]; rewrite lget_ldel; unfold fupd.
  - rewrite String.eqb_refl. reflexivity.
  - rewrite Hm. reflexivity.
Qed.
Print Assumptions C25_deleted_is_gone.

(* change_std_type: FULL statement "every parameter defined by the type ends up in the row" is refuted
   (a parameter without a column is skipped); partial under the guard G25_col (the column exists) *)
Theorem C25_change_sets_all_refuted : exists cols l name r r' ty p v,
  change_std cols l name r = Ok r' /\ lget l name = Some ty /\ lookup ty p = Some v /\ rowget r' p <> v.
Proof.
  exists ["r_ohm_per_km"], [("T", [("r_ohm_per_km", q 1 8); ("alpha", q 1 256)])], "T", [("r_ohm_per_km", q 1 2)],
         [("std_type", VS "T"); ("r_ohm_per_km", q 1 8); ("r_ohm_per_km", q 1 2)],
         [("r_ohm_per_km", q 1 8); ("alpha", q 1 256)], "alpha", (q 1 256).
  repeat split; try reflexivity. vm_compute. discriminate.
Qed.
Print Assumptions C25_change_sets_all_refuted.
Theorem C25_change_sets_all_partial : forall cols l name r r' ty p v,
  change_std cols l name r = Ok r' -> lget l name = Some ty ->
  G25_col cols p = true -> String.eqb "std_type" p = false -> lookup ty p = Some v -> rowget r' p = v.
Proof.
  intros cols l name r r' ty p v H Hl Hc Hs Hv. rewrite (change_written_exactly cols l name r r' ty H Hl), Hs, Hc.
  unfold has. rewrite Hv. reflexivity.
Qed.
Print Assumptions C25_change_sets_all_partial.
Example C25_change_partial_nonvacuous :
  change_std ["r_ohm_per_km"] [("T", [("r_ohm_per_km", q 1 8)])] "T" [("r_ohm_per_km", q 1 2)] =
  Ok [("std_type", VS "T"); ("r_ohm_per_km", q 1 8); ("r_ohm_per_km", q 1 2)].
Proof. reflexivity. Qed.

(* a changed element equals a freshly created one on the type's columns: refuted (stale parameters of the
   previous type survive); partial under G25_fresh (the new type redefines everything the row holds) *)
Theorem C25_changed_eq_fresh_refuted : exists cols l name r r' ty c,
  change_std cols l name r = Ok r' /\ lget l name = Some ty /\ G25_col cols c = true /\ rowget r' c <> valof (lookup ty c).
Proof.
  exists ["sn_mva"; "tap_step_percent"], [("B", [("sn_mva", q 25 1)])], "B", [("sn_mva", q 40 1); ("tap_step_percent", q 3 2)],
         [("std_type", VS "B"); ("sn_mva", q 25 1); ("sn_mva", q 40 1); ("tap_step_percent", q 3 2)], [("sn_mva", q 25 1)],
         "tap_step_percent".
  repeat split; try reflexivity. vm_compute. discriminate.
Qed.
Print Assumptions C25_changed_eq_fresh_refuted.
Theorem C25_changed_eq_fresh_partial : forall cols l name r r' ty stdcols,
  change_std cols l name r = Ok r' -> lget l name = Some ty -> G25_fresh stdcols ty r = true ->
  forall c, In c stdcols -> G25_col cols c = true -> String.eqb "std_type" c = false ->
  rowget r' c = valof (lookup ty c).
Proof.
  intros cols l name r r' ty stdcols H Hl Hg c Hc Hcol Hs. unfold G25_fresh in Hg. rewrite forallb_forall in Hg. specialize (Hg c Hc).
  rewrite (change_written_exactly cols l name r r' ty H Hl), Hs, Hcol. unfold has in *.
  destruct (lookup ty c); [reflexivity|]. apply isnanc_eq, Hg.
Qed.
Print Assumptions C25_changed_eq_fresh_partial.

(* created from a type == created from explicit parameters carrying the type's values, for every column c
   that both functions handle alike (ce_ok, decided by computation) *)
Theorem C25_created_eq_explicit_partial : forall ds de c, ce_ok ds de c = true ->
  forall std a ex ex', has a c = false ->
  single_val (spec_of ds c) ex std a = single_val (spec_of de c) ex' [] (a ++ std)%list.
Proof. exact created_eq_explicit. Qed.
Print Assumptions C25_created_eq_explicit_partial.
(* ... which holds for every parameter of a transformer type, for the power-flow and zero-sequence parameters of a
   line type and for the parameters create_transformer3w copies *)
Theorem C25_created_eq_explicit_kinds :
  forallb (ce_ok d_trafo_s d_trafo_par) trafo_type_params = true /\
  forallb (ce_ok d_line_s d_line_par) (line_type_params_copied ++ ["r0_ohm_per_km"; "x0_ohm_per_km"; "c0_nf_per_km"])%list = true /\
  forallb (ce_ok d_t3_s d_t3_par) t3_type_params_copied = true.
Proof. exact (conj ce_trafo (conj ce_line_copied ce_t3_copied)). Qed.
Print Assumptions C25_created_eq_explicit_kinds.
(* ... and fails for alpha / endtemp_degree of line types and the zero-sequence data / vector group of 3W types *)
Theorem C25_created_line_refuted : exists std a c,
  has a c = false /\ single_val (spec_of d_line_s c) false std a <> single_val (spec_of d_line_par c) false [] (a ++ std)%list.
Proof.
  exists [("r_ohm_per_km", q 1 8); ("endtemp_degree", q 70 1)], [("length_km", q 1 1)], "endtemp_degree".
  split; [reflexivity|]. vm_compute. discriminate.
Qed.
Print Assumptions C25_created_line_refuted.
Theorem C25_created_trafo3w_refuted : exists std a c,
  has a c = false /\ single_val (spec_of d_t3_s c) false std a <> single_val (spec_of d_t3_par c) false [] (a ++ std)%list.
Proof.
  exists [("vk0_hv_percent", q 1 1)], [("hv_bus", q 0 1)], "vk0_hv_percent".
  split; [reflexivity|]. vm_compute. discriminate.
Qed.
Print Assumptions C25_created_trafo3w_refuted.
Theorem C25_not_copied_params :
  filter (fun c => negb (ce_ok d_line_s d_line_par c)) line_type_params = ["alpha"; "endtemp_degree"] /\
  filter (fun c => negb (ce_ok d_t3_s d_t3_par c)) t3_type_params =
  ["vk0_hv_percent"; "vk0_mv_percent"; "vk0_lv_percent"; "vkr0_hv_percent"; "vkr0_mv_percent"; "vkr0_lv_percent"; "vector_group"].
Proof. exact (conj ce_line_not ce_t3_not). Qed.
Print Assumptions C25_not_copied_params.

(* rename_std_type incl. the element table:
   rename_net l (Some t) a b = (library, table, exception) after rename_std_type on a kind with element table t;
   resolve l r = the type data the row's std_type names in library l.  load_std_type o rename: every row keeps its other
   cells, refers to the same type data as before (rows of the renamed type now carry the new name and load_std_type of
   it returns the old data unchanged), and no row names the old type any more. *)
Theorem C25_rename_follows_in_table : forall l t a b l', rename_std l a b = Ok l' ->
  exists t', rename_net l (Some t) a b = (l', Some t', None) /\ List.length t' = List.length t /\
    forall i r, nth_error t i = Some r -> exists r', nth_error t' i = Some r' /\
      (forall c, String.eqb "std_type" c = false -> rowget r' c = rowget r c) /\
      (row_type r <> VS b -> resolve l' r' = resolve l r) /\
      (row_type r = VS a -> exists d, load_std l a = Ok d /\ row_type r' = VS b /\ load_std l' b = Ok d) /\
      row_type r' <> VS a.
Proof.
  intros l t a b l' R. exists (map (rename_row a b) t). unfold rename_net, rename_net_gen. rewrite R.
  split; [reflexivity|]. split; [apply map_length|].
  intros i r H. exists (rename_row a b r). split; [rewrite nth_error_map, H; reflexivity|].
  split; [intros c Hc; apply rename_row_other; exact Hc|]. split; [apply (rename_resolve l a b l' r R)|].
  split; [|apply (rename_no_old l a b l' r R)].
  intros Ht. destruct (rename_lget l a b l' R) as (d & A & B & L). exists d. unfold load_std. rewrite A.
  split; [reflexivity|]. rewrite rename_row_type, Ht, String.eqb_refl. split; [reflexivity|].
  rewrite L. unfold fupd. rewrite String.eqb_refl. reflexivity.
Qed.
Print Assumptions C25_rename_follows_in_table.
Example C25_rename_follows_nonvacuous :
  rename_net [("A", [("r_ohm_per_km", q 1 8)])] (Some [[("std_type", VS "A"); ("length_km", N 2)]; [("std_type", VNaN)]]) "A" "B" =
  ([("B", [("r_ohm_per_km", q 1 8)])], Some [[("std_type", VS "B"); ("std_type", VS "A"); ("length_km", N 2)]; [("std_type", VNaN)]], None).
Proof. exact rename_follows_nonvacuous. Qed.
(* if every std_type cell of the table named a type of the library (or none), the same holds afterwards *)
Theorem C25_rename_keeps_references : forall l t a b l' t',
  rename_net l (Some t) a b = (l', Some t', None) ->
  (forall r, In r t -> resolve l r <> None \/ (forall s, row_type r <> VS s)) ->
  (forall r', In r' t' -> resolve l' r' <> None \/ (forall s, row_type r' <> VS s)).
Proof.
  intros l t a b l' t'. unfold rename_net, rename_net_gen. destruct (rename_std l a b) as [l1|e] eqn:R; [|intros H; inversion H].
  intros H; inversion H; subst l1 t'; clear H. intros Ht r' Hr. apply in_map_iff in Hr. destruct Hr as [r [<- Hr]].
  destruct (rename_lget l a b l' R) as (d & A & B & L).
  destruct (Ht r Hr) as [Hres|Hn].
  - left. assert (NB : row_type r <> VS b) by (intros E; apply Hres; unfold resolve; rewrite E; exact B).
    rewrite (rename_resolve l a b l' r R NB). exact Hres.
  - right. intros s. rewrite rename_row_type. destruct (row_type r) as [| | |s0] eqn:E; try discriminate.
    exfalso. apply (Hn s0). reflexivity.
Qed.
Print Assumptions C25_rename_keeps_references.
(* the call is all-or-nothing for every kind, with an element table or without (fuse library) *)
Theorem C25_rename_atomic : forall l tab a b,
  let '(l', tab', e) := rename_net l tab a b in
  (e = None <-> exists l1, rename_std l a b = Ok l1) /\ (e <> None -> l' = l /\ tab' = tab).
Proof. intros l tab a b. apply (rename_atomic_gen false). left. reflexivity. Qed.
Print Assumptions C25_rename_atomic.
(* rename_net_gen true, the rule that raises KeyError for a library without an element table: all-or-nothing only for
   kinds with a table (G25r); for the fuse library it renames the type and then raises *)
Theorem C25_rename_atomic_old_partial : forall raises l tab a b, G25r tab = true ->
  let '(l', tab', e) := rename_net_gen raises l tab a b in
  (e = None <-> exists l1, rename_std l a b = Ok l1) /\ (e <> None -> l' = l /\ tab' = tab).
Proof. intros raises l tab a b G. apply rename_atomic_gen. right. exact G. Qed.
Print Assumptions C25_rename_atomic_old_partial.
Theorem C25_rename_atomic_old_refuted : exists l a b, let '(l', tab', e) := rename_net_gen true l None a b in e <> None /\ l' <> l.
Proof. exists [("F", [("i_rated_a", N 16)])], "F", "G". split; discriminate. Qed.
Print Assumptions C25_rename_atomic_old_refuted.

(* change_std_type, exact write set and stale columns:
   written_cols cols ty = std_type + the existing columns the type defines; fresh_val ds ty c = what create_<kind>(std_type=ty)
   writes into column c (C24 descriptor ds); type_col ds c = column c is filled from type parameter c;
   stale_cols ds cols ty r = the type columns of the table which the new type does not define and whose old value differs
   from the fresh element's. *)
Theorem C25_change_write_set : forall cols l name r r' ty, change_std cols l name r = Ok r' -> lget l name = Some ty ->
  rowget r' "std_type" = VS name /\
  (forall c, In c (written_cols cols ty) -> c <> "std_type" -> rowget r' c = valof (lookup ty c)) /\
  (forall c, ~ In c (written_cols cols ty) -> rowget r' c = rowget r c).
Proof.
  intros cols l name r r' ty H Hl. pose proof (change_written_exactly cols l name r r' ty H Hl) as W.
  split; [rewrite W; reflexivity|]. split.
  - intros c Hc Hs. apply written_cols_In in Hc. destruct Hc as [->|[H1 H2]]; [congruence|]. rewrite W, H1, H2.
    destruct (String.eqb "std_type" c) eqn:E; [apply String.eqb_eq in E; congruence|reflexivity].
  - intros c Hc. rewrite W. destruct (String.eqb "std_type" c) eqn:E.
    + exfalso. apply Hc. apply written_cols_In. left. apply String.eqb_eq in E. auto.
    + destruct (G25_col cols c && has ty c) eqn:E2; [|reflexivity]. exfalso. apply Hc. apply written_cols_In. right.
      apply andb_prop in E2. exact E2.
Qed.
Print Assumptions C25_change_write_set.
(* the recorded finding, exactly: a type column of the changed row differs from the fresh element iff it is in stale_cols *)
Theorem C25_change_stale_exact : forall ds cols l name r r' ty c, change_std cols l name r = Ok r' -> lget l name = Some ty ->
  type_col ds c = true -> G25_col cols c = true -> String.eqb "std_type" c = false ->
  (rowget r' c = fresh_val ds ty c <-> ~ In c (stale_cols ds cols ty r)).
Proof.
  intros ds cols l name r r' ty c H Hl Tc Gc Sc. rewrite (change_written_exactly cols l name r r' ty H Hl), Sc, Gc. cbn [andb].
  unfold stale_cols. rewrite filter_In, Tc, Sc. cbn [andb negb]. unfold has.
  destruct (lookup ty c) as [v|] eqn:L; cbn [negb andb valof].
  - rewrite (fresh_of_param ds ty c v Tc L). split; [intros _ [_ X]; discriminate|reflexivity].
  - rewrite <- cell_eqb_iff, <- G25_col_In, Gc. destruct (cell_eqb (rowget r c) (fresh_val ds ty c)); intuition discriminate.
Qed.
Print Assumptions C25_change_stale_exact.
Theorem C25_change_stale_keeps_old : forall ds cols l name r r' ty c, change_std cols l name r = Ok r' -> lget l name = Some ty ->
  In c (stale_cols ds cols ty r) -> rowget r' c = rowget r c /\ rowget r' c <> fresh_val ds ty c /\ lookup ty c = None.
Proof.
  intros ds cols l name r r' ty c H Hl Hs. unfold stale_cols in Hs. apply filter_In in Hs. destruct Hs as [Hc X].
  repeat (apply andb_prop in X; destruct X as [X ?]).
  assert (Sc : String.eqb "std_type" c = false) by (destruct (String.eqb "std_type" c); [discriminate|reflexivity]).
  assert (Ht : has ty c = false) by (destruct (has ty c); [discriminate|reflexivity]).
  rewrite (change_written_exactly cols l name r r' ty H Hl), Sc, Ht, andb_false_r.
  split; [reflexivity|]. split.
  - intros E. rewrite E, cell_eqb_refl in H0. discriminate.
  - unfold has in Ht. destruct (lookup ty c); [discriminate|reflexivity].
Qed.
Print Assumptions C25_change_stale_keeps_old.
Theorem C25_change_eq_fresh_nostale_partial : forall ds cols l name r r' ty, change_std cols l name r = Ok r' -> lget l name = Some ty ->
  G25_nostale ds cols ty r = true ->
  forall c, type_col ds c = true -> G25_col cols c = true -> String.eqb "std_type" c = false -> rowget r' c = fresh_val ds ty c.
Proof.
  intros ds cols l name r r' ty H Hl G c Tc Gc Sc. apply (C25_change_stale_exact ds cols l name r r' ty c H Hl Tc Gc Sc).
  unfold G25_nostale in G. destruct (stale_cols ds cols ty r); [intros []|discriminate].
Qed.
Print Assumptions C25_change_eq_fresh_nostale_partial.
Theorem C25_change_stale_refuted : exists r', change_std w_cols [("NEW", w_ty)] "NEW" w_row = Ok r' /\
  stale_cols d_trafo_s w_cols w_ty w_row = ["tap_side"; "tap_step_percent"; "shift_degree"] /\
  rowget r' "tap_side" = VS "hv" /\ fresh_val d_trafo_s w_ty "tap_side" = VNaN /\
  rowget r' "shift_degree" = N 150 /\ fresh_val d_trafo_s w_ty "shift_degree" = N 0.
Proof. eexists. split; [reflexivity|]. repeat split; reflexivity. Qed.
Print Assumptions C25_change_stale_refuted.
Example C25_change_nostale_nonvacuous :
  G25_nostale d_trafo_s w_cols (w_ty ++ [("tap_side", VS "lv"); ("tap_step_percent", q 5 2); ("shift_degree", N 0)])%list w_row = true /\
  type_col d_trafo_s "tap_side" = true.
Proof. exact nostale_nonvacuous. Qed.
(* the columns that can go stale, per kind (computed from the C24 descriptors of create_line / create_transformer / ...3w) *)
Theorem C25_type_columns :
  filter (type_col d_line_s) (map fst (d_cols d_line_s)) =
    ["r_ohm_per_km"; "x_ohm_per_km"; "c_nf_per_km"; "max_i_ka"; "g_us_per_km"; "type"; "r0_ohm_per_km"; "x0_ohm_per_km"; "c0_nf_per_km"; "alpha"] /\
  filter (type_col d_trafo_s) (map fst (d_cols d_trafo_s)) =
    (trafo_req ++ ["vk0_percent"; "vkr0_percent"; "mag0_percent"; "mag0_rx"; "si0_hv_partial"; "vector_group"; "shift_degree";
                  "tap_neutral"; "tap_max"; "tap_min"; "tap_side"; "tap_step_percent"; "tap_step_degree";
                  "tap2_neutral"; "tap2_max"; "tap2_min"; "tap2_side"; "tap2_step_percent"; "tap2_step_degree"; "tap2_changer_type";
                  "tap_changer_type"])%list /\
  filter (type_col d_t3_s) (map fst (d_cols d_t3_s)) =
    (t3_req ++ ["shift_mv_degree"; "shift_lv_degree"; "tap_neutral"; "tap_max"; "tap_min"; "tap_side"; "tap_step_percent"; "tap_step_degree";
               "tap_changer_type"])%list.
Proof. split; [|split]; reflexivity. Qed.
Print Assumptions C25_type_columns.
