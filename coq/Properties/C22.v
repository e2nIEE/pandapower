(* C22 — property theorems (the proofs of the inv_step statements are in C22/Proofs.v and C22/Proofs2.v).
   Spec: [Resolves n] = every foreign key of the relational net (element -> bus, switch -> (bus, element of its et),
   measurement -> (element, numeric side bus), cost -> element, group member, controller target, res_ index)
   names an existing primary key ([refs] lists them; [keys] are the table indices). *)
From Coq Require Import ZArith List Bool String.
From PPV Require Import C22.Model C22.Proofs C22.Proofs2.
Import ListNotations.
Open Scope Z_scope.

(* the executable invariant of the model is exactly "all foreign keys resolve" *)
Theorem C22_inv_is_spec : forall n, inv n = true <-> Resolves n.
Proof. intros n. rewrite inv_iff. apply Inv_Resolves. Qed.
Print Assumptions C22_inv_is_spec.

Theorem C22_inv_init : Resolves empty_net.
Proof. apply Inv_Resolves, inv_init. Qed.
Print Assumptions C22_inv_init.

(* element creation (bus, any element table, switch of all four kinds, measurement, index group) keeps the invariant *)
Theorem C22_inv_step_create : forall n n',
  Resolves n ->
  (forall i, create_bus n i = Ok n' -> Resolves n') /\
  (forall k i bs, create_el n k i bs = Ok n' -> Resolves n') /\
  (forall i b e x, create_switch n i b e x = Ok n' -> Resolves n') /\
  (forall g t mem, create_group n g t mem = Ok n' -> Resolves n') /\
  (forall i mt t x s, meas_ty_ok t = true -> side_ok n s = true -> create_meas n i mt t x s = Ok n' -> Resolves n').
Proof.
  intros n n' R. split; [|split; [|split; [|split]]]; intros.
  - eapply inv_step_create_bus; eauto.
  - eapply inv_step_create_el; eauto.
  - eapply inv_step_create_switch; eauto.
  - eapply inv_step_create_group; eauto.
  - eapply inv_step_create_meas; eauto. intros b Hb. subst s. apply zin_true. assumption.
Qed.
Print Assumptions C22_inv_step_create.

(* create_poly_cost / create_pwl_cost: only when the element exists (the impl does not check) *)
Theorem C22_inv_step_create_cost_partial : forall n p i k x n',
  zin x (el_ids n k) = true -> Resolves n -> create_cost n p i k x = Ok n' -> Resolves n'.
Proof. exact inv_step_create_cost_partial. Qed.
Print Assumptions C22_inv_step_create_cost_partial.
Theorem C22_inv_step_create_cost_refuted :
  exists n p i k x n', inv n = true /\ create_cost n p i k x = Ok n' /\ inv n' = false.
Proof. exists (set_bus empty_net [(0, true)]), true, 0, Gen, 7. eexists. split; [vm_compute; reflexivity | split; vm_compute; reflexivity]. Qed.
Print Assumptions C22_inv_step_create_cost_refuted.

(* drop_lines / drop_trafos (switches, measurements, group members, result rows cascade) under G22_drop:
   no cost row and no controller references the dropped branches *)
Theorem C22_inv_step_drop_lines_partial : forall n ids n',
  G22_drop n Line ids = true -> Resolves n -> drop_lines n ids = Ok n' -> Resolves n'.
Proof. exact inv_step_drop_lines. Qed.
Print Assumptions C22_inv_step_drop_lines_partial.
Theorem C22_inv_step_drop_trafos_partial : forall n (th : bool) ids n',
  G22_drop n (if th then Trafo3w else Trafo) ids = true -> Resolves n -> drop_trafos n th ids = Ok n' -> Resolves n'.
Proof. exact inv_step_drop_trafos. Qed.
Print Assumptions C22_inv_step_drop_trafos_partial.
Theorem C22_inv_step_drop_trafos_refuted :
  exists n th ids n', inv n = true /\ drop_trafos n th ids = Ok n' /\ inv n' = false.
Proof.
  exists (set_ctrl (set_elk w_bus2 Trafo [{| eid := 0; ebus := [0; 1]; eis := true |}])
                   [{| ctid := 0; ctty := Trafo; ctidx := [0]; ctsingle := true |}]), false, [0].
  eexists. wit.
Qed.
Print Assumptions C22_inv_step_drop_trafos_refuted.

(* reindex_elements (any element table, any lookup, partial or total) after the repair: switches of the matching et,
   measurements, costs, group members and the result table follow the lookup; the only remaining guard is
   G22_reindex: no controller targets a re-indexed element (C22_reindex_elements_controller_refuted otherwise) *)
Theorem C22_inv_step_reindex_elements_partial : forall n k lk n',
  G22_reindex n k lk = true -> Resolves n -> reindex_elements n (TEl k) lk = Ok n' -> Resolves n'.
Proof. intros n k lk n' G. apply inv_step_reindex_table; [discriminate | intros ? [= <-]; exact G]. Qed.
Print Assumptions C22_inv_step_reindex_elements_partial.

(* drop_buses(net, buses, drop_elements=True): the whole cascade (group members, bus and res_bus rows, controllers of the
   connected elements, every element_bus_tuples() column in turn through drop_lines / drop_trafos / the generic cascade,
   switches at the buses, bus measurements) keeps the invariant under G22_drop_buses: rows have no more bus columns than
   element_bus_tuples() lists (schema), no row of an unlisted table (svc) sits at the buses, no measurement names one of the
   buses as its numeric side, and - evaluated on the state after drop_controllers_at_buses - no remaining controller targets
   an element at the buses and no cost row sits on a line/trafo at the buses *)
Theorem C22_inv_step_drop_buses_partial : forall n buses n',
  G22_drop_buses n buses = true -> Resolves n -> drop_buses n buses true = Ok n' -> Resolves n'.
Proof. exact inv_step_drop_buses. Qed.
Print Assumptions C22_inv_step_drop_buses_partial.
(* the guard of drop_buses is needed: a row of a table that element_bus_tuples() does not list (C22-bus-tuples-incomplete) and a
   controller on a line behind an open switch at the dropped bus (C22-drop-keeps-controller) are left dangling *)
Theorem C22_inv_step_drop_buses_refuted :
  (exists n bs n', inv n = true /\ drop_buses n bs true = Ok n' /\ inv_el n' = false) /\
  (exists n bs n', inv n = true /\ drop_buses n bs true = Ok n' /\ inv_ctrl n' = false).
Proof.
  split.
  - exists (set_elk w_bus2 Svc [{| eid := 0; ebus := [1]; eis := true |}]), [1]. eexists. wit.
  - exists (set_ctrl (set_sw (set_elk w_bus2 Line [{| eid := 0; ebus := [0; 1]; eis := true |}])
                             [{| sid := 0; sbus := 1; swt := SL; sel := 0; sclosed := false |}])
                     [{| ctid := 0; ctty := Line; ctidx := [0]; ctsingle := false |}]), [1]. eexists. wit.
Qed.
Print Assumptions C22_inv_step_drop_buses_refuted.

(* drop_elements(net, element_type, index): bus -> drop_buses, line / trafo / trafo3w -> drop_lines / drop_trafos (guards as
   above), switch and measurement rows (no guard), any other element table through drop_elements_simple (group members,
   measurements, costs, result rows cascade) when no controller targets a dropped element (G22_noctrl) *)
Theorem C22_inv_step_drop_elements_partial : forall n t ids n',
  G22 n (ODropElements t ids) = true -> Resolves n -> drop_elements n t ids = Ok n' -> Resolves n'.
Proof. exact inv_step_drop_elements. Qed.
Print Assumptions C22_inv_step_drop_elements_partial.
Theorem C22_inv_step_drop_elements_switch_measurement : forall n ids n',
  Resolves n -> (drop_elements n TSwitch ids = Ok n' \/ drop_elements n TMeas ids = Ok n') -> Resolves n'.
Proof. intros n ids n' R [E|E]; [eapply inv_step_drop_switch_rows | eapply inv_step_drop_meas_rows]; eauto. Qed.
Print Assumptions C22_inv_step_drop_elements_switch_measurement.
Theorem C22_inv_step_drop_elements_refuted :
  exists n ids n', inv n = true /\ drop_elements n (TEl Load) ids = Ok n' /\ inv_ctrl n' = false.
Proof. exists (set_ctrl w_load [{| ctid := 0; ctty := Load; ctidx := [0]; ctsingle := false |}]), [0]. eexists. wit. Qed.
Print Assumptions C22_inv_step_drop_elements_refuted.

(* select_subnet (any bus selection, include_switch_buses, include_results) under G22_select: the numeric side of every
   measurement is a bus of the measured element, and keep_everything_else is off or there is nothing it would copy
   unfiltered (groups, controllers, unlisted tables) *)
Theorem C22_inv_step_select_subnet_partial : forall n bs isb ires keep n',
  G22_select n keep = true -> Resolves n -> select_subnet n bs isb ires keep = Ok n' -> Resolves n'.
Proof. exact inv_step_select_subnet. Qed.
Print Assumptions C22_inv_step_select_subnet_partial.
Theorem C22_select_subnet_side_refuted :
  exists n bs n', inv n = true /\ select_subnet n bs false false false = Ok n' /\ inv_meas n' = false.
Proof.
  exists (set_meas (set_bus empty_net [(0, true); (1, true)]) [{| mid := 0; mmt := 0%nat; mty := TBus; mel := 0; msd := SideBus 1 |}]), [0].
  eexists. wit.
Qed.
Print Assumptions C22_select_subnet_side_refuted.

(* reindex_buses (any lookup; buses missing in it keep their index) and create_continuous_bus_index: every bus reference of
   the listed tables, switches (bus and bus-bus element), bus measurements, numeric sides, bus groups and res_bus follow
   the lookup; guard: the rows of the unlisted tables (svc) are not moved by the completed lookup (C22_reindex_buses_refuted
   otherwise) *)
Theorem C22_inv_step_reindex_buses_partial : forall n lk n',
  G22_reindex_buses n lk = true -> Resolves n -> reindex_buses n lk = Ok n' -> Resolves n'.
Proof. exact inv_step_reindex_buses. Qed.
Print Assumptions C22_inv_step_reindex_buses_partial.
Theorem C22_inv_step_cont_bus_index_partial : forall n start n',
  G22_cont_bus n start = true -> Resolves n -> cont_bus_index n start = Ok n' -> Resolves n'.
Proof. exact inv_step_cont_bus_index. Qed.
Print Assumptions C22_inv_step_cont_bus_index_partial.
Example C22_reindex_buses_guard_nonvacuous :
  exists n lk n', G22_reindex_buses n lk = true /\ inv n = true /\ reindex_buses n lk = Ok n' /\ bus_ids n' = [5; 1] /\ el_ids n Svc = [0].
Proof.
  exists (set_elk (set_elk w_bus2 Load [{| eid := 0; ebus := [0]; eis := true |}]) Svc [{| eid := 0; ebus := [1]; eis := true |}]), [(0, 5)].
  eexists. split; [vm_compute; reflexivity|]. split; [vm_compute; reflexivity|]. split; [vm_compute; reflexivity|].
  vm_compute. repeat split.
Qed.
Print Assumptions C22_reindex_buses_guard_nonvacuous.

(* fuse_buses(net, b1, b2, drop, fuse_bus_measurements): rerouting of every listed bus column, switch and (with
   fuse_bus_measurements) bus measurement / numeric side, then drop_buses(b2, drop_elements=False), the inner branches
   (drop_lines, drop_elements_simple(impedance), b1-b1 switches, drop_trafos x2, drop_elements_simple(dcline)) and
   drop_duplicated_measurements.  Guard G22_fuse: b1 exists (not checked by the impl); with drop: no row of an unlisted table
   at b2, measurements are fused or none refers to b2, no controller / branch cost on a branch that becomes inner *)
Theorem C22_inv_step_fuse_buses_partial : forall n b1 b2 drop fm n',
  G22_fuse n b1 b2 drop fm = true -> Resolves n -> fuse_buses n b1 b2 drop fm = Ok n' -> Resolves n'.
Proof. exact inv_step_fuse_buses. Qed.
Print Assumptions C22_inv_step_fuse_buses_partial.
(* the guard of fuse_buses is needed: b1 is not checked; fuse_bus_measurements=False leaves bus measurements at the dropped buses *)
Theorem C22_inv_step_fuse_buses_refuted :
  (exists n b1 b2 n', inv n = true /\ fuse_buses n b1 b2 false true = Ok n' /\ inv_el n' = false) /\
  (exists n b1 b2 n', inv n = true /\ fuse_buses n b1 b2 true false = Ok n' /\ inv_meas n' = false).
Proof.
  split.
  - exists (set_elk w_bus2 Load [{| eid := 0; ebus := [1]; eis := true |}]), 7, [1]. eexists. wit.
  - exists (set_meas w_bus2 [{| mid := 0; mmt := 0%nat; mty := TBus; mel := 1; msd := SideNone |}]), 0, [1]. eexists. wit.
Qed.
Print Assumptions C22_inv_step_fuse_buses_refuted.
Example C22_fuse_buses_guard_nonvacuous :
  exists n n', G22_fuse n 0 [1; 2] true true = true /\ inv n = true /\ fuse_buses n 0 [1; 2] true true = Ok n' /\
               bus_ids n' = [0] /\ el_ids n Line = [0; 1] /\ el_ids n' Line = [] /\ map ebus (el n' Load) = [[0]].
Proof.
  exists (set_meas (set_sw (set_elk (set_elk w_bus3 Line [{| eid := 0; ebus := [1; 2]; eis := true |}; {| eid := 1; ebus := [0; 1]; eis := true |}])
                                     Load [{| eid := 4; ebus := [2]; eis := true |}])
                           [{| sid := 0; sbus := 1; swt := SL; sel := 0; sclosed := true |}])
                   [{| mid := 0; mmt := 1%nat; mty := TEl Line; mel := 0; msd := SideBus 1 |}]).
  eexists. split; [vm_compute; reflexivity|]. split; [vm_compute; reflexivity|]. split; [vm_compute; reflexivity|].
  vm_compute. repeat split.
Qed.
Print Assumptions C22_fuse_buses_guard_nonvacuous.

(* reindex_elements on the switch, measurement, poly_cost and pwl_cost tables: no guard (switch group members follow) *)
Theorem C22_inv_step_reindex_plain_tables : forall n t lk n',
  (t = TSwitch \/ t = TMeas \/ t = TPcost \/ t = TWcost) -> Resolves n -> reindex_elements n t lk = Ok n' -> Resolves n'.
Proof. intros n t lk n' Ht. apply inv_step_reindex_table; [|intros k ->]; intuition congruence. Qed.
Print Assumptions C22_inv_step_reindex_plain_tables.

(* create_continuous_elements_index: create_continuous_bus_index, then every table sorted and renumbered start.. through
   reindex_elements, its res_ table renumbered on its own by position.  The guard G22_cont_elements follows the run of the
   loop: for each element table, on the state the loop has reached, no controller targets a re-indexed element and the table
   index and the res_ index are duplicate free (then the positional res_ numbering stays inside the new table index) *)
Theorem C22_inv_step_cont_elements_index_partial : forall n start n',
  G22_cont_elements n start = true -> Resolves n -> cont_elements_index n start = Ok n' -> Resolves n'.
Proof. exact inv_step_cont_elements_index. Qed.
Print Assumptions C22_inv_step_cont_elements_index_partial.
Example C22_cont_elements_guard_nonvacuous :
  exists n n', G22_cont_elements n 10 = true /\ inv n = true /\ cont_elements_index n 10 = Ok n' /\
               bus_ids n' = [10; 11; 12] /\ el_ids n Line = [7; 3] /\ el_ids n' Line = [10; 11] /\ res n' Line = [10; 11] /\
               map sel (sw n') = [11] /\ map gmem (grp n') = [[11]].
Proof.
  exists (set_resk (set_grp (set_sw (set_elk w_bus3 Line [{| eid := 7; ebus := [1; 2]; eis := true |}; {| eid := 3; ebus := [0; 1]; eis := true |}])
                           [{| sid := 4; sbus := 1; swt := SL; sel := 7; sclosed := true |}])
                   [{| gid := 0; gty := TEl Line; gmem := [7] |}]) Line [3; 7]).
  eexists. split; [vm_compute; reflexivity|]. split; [vm_compute; reflexivity|]. split; [vm_compute; reflexivity|].
  vm_compute. repeat split.
Qed.
Print Assumptions C22_cont_elements_guard_nonvacuous.

(* reachability: every net reached from the empty net by a guarded edit list satisfies the invariant
   (induction over the list; G22 is [false] for the edits that have no inv_step theorem) *)
Theorem C22_inv_reachable : forall ops n, Resolves n -> guarded n ops = true -> Resolves (run_ops n ops).
Proof. intros. apply Inv_Resolves, inv_reachable; [apply Inv_Resolves|]; assumption. Qed.
Print Assumptions C22_inv_reachable.
Example C22_inv_reachable_nonvacuous :
  guarded empty_net ex_ops = true /\ el_ids (run_ops empty_net ex_ops) Line = [8] /\ bus_ids (run_ops empty_net ex_ops) = [3; 7] /\
  map (fun g => (gid g, gmem g)) (grp (run_ops empty_net ex_ops)) = [(2, [8]); (4, [3])] /\ ctrl (run_ops empty_net ex_ops) = [] /\
  meas (run_ops empty_net ex_ops) = [].
Proof. vm_compute. repeat split. Qed.
Print Assumptions C22_inv_reachable_nonvacuous.

(* witnesses: (a) for the guards of the partial theorems (the recorded known findings): reindex_elements leaves controllers,
   reindex_buses ignores tables outside element_bus_tuples, drop_trafos leaves controllers,
   select_subnet(keep_everything_else), create cost; (b) for the rules *_old, which model pandapower before its repairs *)
Theorem C22_reindex_elements_old_trafo3w_refuted :
  exists n lk n', inv n = true /\ reindex_elements_old n (TEl Trafo3w) lk = Ok n' /\ inv_sw n' = false.
Proof. exists w_t3, [(0, 5)]. eexists. wit. Qed.
Print Assumptions C22_reindex_elements_old_trafo3w_refuted.
Theorem C22_reindex_elements_controller_refuted :
  exists n lk n', inv n = true /\ reindex_elements n (TEl Load) lk = Ok n' /\ inv_ctrl n' = false.
Proof.
  exists (set_ctrl w_load [{| ctid := 0; ctty := Load; ctidx := [0]; ctsingle := false |}]), [(0, 5)].
  eexists. wit.
Qed.
Print Assumptions C22_reindex_elements_controller_refuted.
Theorem C22_reindex_elements_old_res_refuted :
  exists n lk n', inv n = true /\ reindex_elements_old n (TEl Load) lk = Ok n' /\ inv_res n' = false.
Proof. exists (set_resk w_load Load [0]), [(0, 5)]. eexists. wit. Qed.
Print Assumptions C22_reindex_elements_old_res_refuted.
Theorem C22_reindex_elements_old_measurement_refuted :
  exists n lk n', inv n = true /\ reindex_elements_old n (TEl Load) lk = Ok n' /\ inv_meas n' = false.
Proof.
  exists (set_meas w_load [{| mid := 0; mmt := 1%nat; mty := TEl Load; mel := 0; msd := SideNone |}]), [(0, 5)].
  eexists. wit.
Qed.
Print Assumptions C22_reindex_elements_old_measurement_refuted.
Theorem C22_reindex_buses_refuted :
  exists n lk n', inv n = true /\ reindex_buses n lk = Ok n' /\ inv_el n' = false.
Proof.
  exists (set_elk (set_bus empty_net [(0, true)]) Svc [{| eid := 0; ebus := [0]; eis := true |}]), [(0, 5)].
  eexists. wit.
Qed.
Print Assumptions C22_reindex_buses_refuted.
Theorem C22_drop_buses_old_refuted :
  exists n bs n', inv n = true /\ drop_buses_old n bs true = Ok n' /\ inv_ctrl n' = false.
Proof.
  exists (set_ctrl (set_elk w_bus2 Load [{| eid := 0; ebus := [1]; eis := true |}])
                   [{| ctid := 0; ctty := Load; ctidx := [0]; ctsingle := false |}]), [1].
  eexists. wit.
Qed.
Print Assumptions C22_drop_buses_old_refuted.
Theorem C22_drop_elements_simple_old_refuted :
  exists n ids n', inv n = true /\ drop_simple_el_old n Gen ids = Ok n' /\ inv_cost n' = false.
Proof.
  exists (set_pcost (set_elk (set_bus empty_net [(0, true)]) Gen [{| eid := 0; ebus := [0]; eis := true |}])
                    [{| cid := 0; cet := Gen; cel := 0 |}]), [0].
  eexists. wit.
Qed.
Print Assumptions C22_drop_elements_simple_old_refuted.
Theorem C22_fuse_buses_old_refuted :
  exists n b1 b2 n', inv n = true /\ fuse_buses_old n b1 b2 true true = Ok n' /\ inv_meas n' = false.
Proof.
  exists (set_meas (set_elk w_bus3 Line [{| eid := 0; ebus := [1; 2]; eis := true |}])
                   [{| mid := 0; mmt := 1%nat; mty := TEl Line; mel := 0; msd := SideBus 1 |}]), 0, [1].
  eexists. wit.
Qed.
Print Assumptions C22_fuse_buses_old_refuted.
Theorem C22_fuse_buses_old_group_refuted :
  exists n b1 b2 n', inv n = true /\ fuse_buses_old n b1 b2 true true = Ok n' /\ inv_grp n' = false.
Proof.
  exists (set_grp (set_elk w_bus2 Impedance [{| eid := 0; ebus := [0; 1]; eis := true |}])
                  [{| gid := 0; gty := TEl Impedance; gmem := [0] |}]), 0, [1].
  eexists. wit.
Qed.
Print Assumptions C22_fuse_buses_old_group_refuted.
Theorem C22_select_subnet_refuted :
  exists n bs n', inv n = true /\ select_subnet n bs false false true = Ok n' /\ inv_grp n' = false.
Proof.
  exists (set_grp (set_elk w_bus2 Load [{| eid := 0; ebus := [1]; eis := true |}]) [{| gid := 0; gty := TEl Load; gmem := [0] |}]), [0].
  eexists. wit.
Qed.
Print Assumptions C22_select_subnet_refuted.

(* the repaired functions keep the invariant on the inputs that refute the old rules *)
Theorem C22_repaired_on_witnesses :
  (exists n', reindex_elements w_t3 (TEl Trafo3w) [(0, 5)] = Ok n' /\ inv n' = true) /\
  (exists n', reindex_elements (set_resk w_load Load [0]) (TEl Load) [(0, 5)] = Ok n' /\ inv n' = true) /\
  (exists n', reindex_elements (set_meas w_load [{| mid := 0; mmt := 1%nat; mty := TEl Load; mel := 0; msd := SideNone |}])
                               (TEl Load) [(0, 5)] = Ok n' /\ inv n' = true) /\
  (exists n', drop_buses (set_ctrl (set_elk w_bus2 Load [{| eid := 0; ebus := [1]; eis := true |}])
                                   [{| ctid := 0; ctty := Load; ctidx := [0]; ctsingle := false |}]) [1] true = Ok n' /\ inv n' = true) /\
  (exists n', fuse_buses (set_meas (set_elk w_bus3 Line [{| eid := 0; ebus := [1; 2]; eis := true |}])
                                   [{| mid := 0; mmt := 1%nat; mty := TEl Line; mel := 0; msd := SideBus 1 |}]) 0 [1] true true = Ok n'
              /\ inv n' = true).
Proof. repeat split; eexists; (split; vm_compute; reflexivity). Qed.
Print Assumptions C22_repaired_on_witnesses.
