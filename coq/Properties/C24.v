(* C24 — batch create == sequence of single creates (general theorems in C24/Proofs.v, C24/ProofsX.v).
   ds / db are the descriptors of a single / batch create function (C24/Model.v); [fold_col] is the sequence of
   single calls, [batch_col] the batch call, both observed on one column; [new_vals] = the rows they added. *)
From Coq Require Import ZArith QArith List Bool String Lia.
From PPV Require Import Base.QN C24.Model C24.Proofs C24.ModelX C24.ProofsX.
Import ListNotations.
Open Scope string_scope.

(* The property in full (for every pair, std type, argument vectors and column the batch rows equal the rows of the
   single calls, and the same inputs are rejected) is false of pandapower for create_transformers (std-type parameters,
   a recorded finding) and for alpha of create_lines.  A descriptor named *_old is the rule of pandapower before the
   batch function was aligned with the single one; each is refuted below. *)

(* for all inputs, under the boolean guard G24 (= the two functions take the value of every electrical column
   from the same place, given this std type): the rows are equal, column by column.
   Covers the NaN-optional column protocol: single calls create/fill a column one by one
   (_set_value_if_not_nan), the batch call decides once for the whole vector (_add_to_entries_if_not_nan). *)
Theorem C24_batch_rows_eq_fold_partial : forall std ds db, G24 std ds db = true ->
  forall c, existsb (String.eqb c) flags = false ->
  forall (l : list amap) (oc : ocol),
    new_vals oc (batch_col (spec_of db c) std l oc) = new_vals oc (fold_col (spec_of ds c) std l oc).
Proof. intros std ds db H c Hc. apply batch_eq_fold_col, G24_col; assumption. Qed.
Print Assumptions C24_batch_rows_eq_fold_partial.

(* column-wise version: any column on which the two descriptors are compatible *)
Theorem C24_batch_col_eq_fold_partial : forall std ds db c, col_compat std ds db c = true ->
  forall (l : list amap) (oc : ocol),
    new_vals oc (batch_col (spec_of db c) std l oc) = new_vals oc (fold_col (spec_of ds c) std l oc).
Proof. exact batch_eq_fold_col. Qed.
Print Assumptions C24_batch_col_eq_fold_partial.

(* rejections and returned indices: when both functions check the same node arguments / positivity / std
   parameters and consult the index of the table they extend, the batch call raises iff some call of the sequence
   of single calls raises (non-existent node, index already present or repeated in the vector), else both
   return the same indices (free ids: max+1, ... ; or the requested ones) *)
Theorem C24_batch_rejects_iff_fold_partial : forall ds db, checks_compat ds db = true ->
  forall t std idxs l, (match idxs with Some li => List.length li = List.length l | None => True end) ->
  batch_ok db t std idxs l = fold_ok ds t std idxs l.
Proof. exact batch_rejects_iff_fold. Qed.
Print Assumptions C24_batch_rejects_iff_fold_partial.

(* pairs for which the guards hold for every std type: loads, storages, wards (rows and rejections), buses / gens (rejections),
   3W transformers and lines (all electrical columns incl. everything taken from the std type, except alpha of lines;
   rejections), transformers (rejections incl. df <= 0) *)
Theorem C24_load_storage_full : forall std,
  (G24 std d_load_s d_load_b = true /\ checks_compat d_load_s d_load_b = true) /\
  (G24 std d_storage_s d_storage_b = true /\ checks_compat d_storage_s d_storage_b = true).
Proof. intros std. split; split; reflexivity. Qed.
Print Assumptions C24_load_storage_full.

Theorem C24_ward_full : forall std, G24 std d_ward_s d_ward_b = true /\ checks_compat d_ward_s d_ward_b = true.
Proof. intros std. split; reflexivity. Qed.
Print Assumptions C24_ward_full.
Theorem C24_bus_gen_checks_full : checks_compat d_bus_s d_bus_b = true /\ checks_compat d_gen_s d_gen_b = true.
Proof. split; reflexivity. Qed.
Print Assumptions C24_bus_gen_checks_full.

Theorem C24_trafo3w_full : (forall std c, In c elec_trafo3w -> col_compat std d_t3_s d_t3_b c = true) /\
  checks_compat d_t3_s d_t3_b = true.
Proof. split; [intros std; apply compat_cols; reflexivity | reflexivity]. Qed.
Print Assumptions C24_trafo3w_full.

Theorem C24_line_full : (forall std c, In c elec_line -> col_compat std d_line_s d_line_b c = true) /\
  checks_compat d_line_s d_line_b = true.
Proof. split; [intros std; apply compat_cols; reflexivity | reflexivity]. Qed.
Print Assumptions C24_line_full.

Theorem C24_trafo_checks_full : checks_compat d_trafo_s d_trafo_b = true.
Proof. reflexivity. Qed.
Print Assumptions C24_trafo_checks_full.

(* refuted: create_transformers drops shift_degree and the tap changer data of the std type (known finding) *)
Theorem C24_trafo_refuted : exists std l c oc,
  new_vals oc (batch_col (spec_of d_trafo_b c) std l oc) <> new_vals oc (fold_col (spec_of d_trafo_s c) std l oc).
Proof. exists std_trafo_w, args_trafo_w, "shift_degree", oc0. vm_compute. discriminate. Qed.
Print Assumptions C24_trafo_refuted.
Example C24_trafo_partial_nonvacuous : G24 std_trafo_plain d_trafo_s d_trafo_b = true.
Proof. vm_compute. reflexivity. Qed.
(* alpha is the only column on which create_lines and create_line are not compatible (create_line copies it from the
   type only when the column exists) *)
Theorem C24_line_alpha_only : incompat_cols std_line_w d_line_s d_line_b = ["alpha"; "alpha"].
Proof. vm_compute. reflexivity. Qed.

(* create_buses / create_gens leave min_vm_pu / max_vm_pu NaN where create_bus / create_gen write 0.0 / 2.0 (known
   finding: the REI code of grid_equivalents relies on it); these are the only incompatible columns, and
   d_bus_b_repair / d_gen_b_repair (default_val passed) are compatible with the single functions for every input *)
Theorem C24_bus_refuted : exists l c oc,
  new_vals oc (batch_col (spec_of d_bus_b c) [] l oc) <> new_vals oc (fold_col (spec_of d_bus_s c) [] l oc).
Proof.
  exists [[("vn_kv", q 20 1); ("min_vm_pu", VNaN)]; [("vn_kv", q 20 1); ("min_vm_pu", q 9 10)]], "min_vm_pu",
         {| oc_ex := false; oc_vals := [] |}.
  vm_compute. discriminate.
Qed.
Print Assumptions C24_bus_refuted.
Theorem C24_bus_gen_only_vm_limits : forall std,
  incompat_cols std d_bus_s d_bus_b = ["min_vm_pu"; "max_vm_pu"; "min_vm_pu"; "max_vm_pu"] /\
  incompat_cols std d_gen_s d_gen_b = ["max_vm_pu"; "min_vm_pu"; "max_vm_pu"; "min_vm_pu"].
Proof. intros std. split; reflexivity. Qed.
Print Assumptions C24_bus_gen_only_vm_limits.
Theorem C24_bus_gen_repair_full : forall std,
  (G24 std d_bus_s d_bus_b_repair = true /\ checks_compat d_bus_s d_bus_b_repair = true) /\
  (G24 std d_gen_s d_gen_b_repair = true /\ checks_compat d_gen_s d_gen_b_repair = true).
Proof. intros std. split; split; reflexivity. Qed.
Print Assumptions C24_bus_gen_repair_full.

(* the *_old descriptors violate the property *)
Theorem C24_trafo_old_checks_differ : checks_compat d_trafo_s d_trafo_b_old = false.
Proof. reflexivity. Qed.
Theorem C24_line_old_refuted : exists std l c oc,
  new_vals oc (batch_col (spec_of d_line_b_old c) std l oc) <> new_vals oc (fold_col (spec_of d_line_s c) std l oc).
Proof. exists std_line_w, args_line_w, "r0_ohm_per_km", oc0. vm_compute. discriminate. Qed.
Print Assumptions C24_line_old_refuted.
Theorem C24_ward_old_refuted : exists t idxs l, batch_ok d_ward_b_old t [] idxs l <> fold_ok d_ward_s t [] idxs l.
Proof.
  (* d_ward_b_old: the index check of create_wards looks at net.storage *)
  exists [("bus", [0%Z]); ("ward", [0%Z]); ("storage", [])], None, [[("bus", q 0 1)]].
  vm_compute. discriminate.
Qed.
Print Assumptions C24_ward_old_refuted.

(* duplicate costs (et given as one string): the batch check is the sequence of single checks, for all
   existing cost tables and element lists *)
Theorem C24_cost_batch_eq_fold_full : forall is_poly et pt els poly pwl,
  costs_batch_rejects is_poly poly pwl els et pt = cost_fold_rejects is_poly poly pwl els et pt.
Proof. exact cost_batch_eq_fold. Qed.
Print Assumptions C24_cost_batch_eq_fold_full.
(* the earlier check sum(poly) & sum(pwl): sound but far from complete *)
Theorem C24_cost_old_rejects_only_duplicates : forall is_poly poly pwl els et pt,
  costs_batch_rejects_old is_poly poly pwl els et pt = true -> cost_fold_rejects is_poly poly pwl els et pt = true.
Proof.
  unfold costs_batch_rejects_old. intros is_poly poly pwl els et pt H.
  apply land_pos in H; try (unfold countb; lia).
  apply countb_pos in H. destruct H as [c [Hc Hf]]. apply andb_true_iff in Hf. destruct Hf as [Hm Het].
  unfold memz in Hm. apply existsb_exists in Hm. destruct Hm as [e [He Hee]]. apply Z.eqb_eq in Hee.
  apply (fold_rejects_mono is_poly els et pt poly pwl c e Hc He).
  unfold same_el. rewrite Het, Hee, Z.eqb_refl. reflexivity.
Qed.
Print Assumptions C24_cost_old_rejects_only_duplicates.
Theorem C24_cost_old_refuted : exists is_poly poly pwl els et pt,
  cost_fold_rejects is_poly poly pwl els et pt = true /\ costs_batch_rejects_old is_poly poly pwl els et pt = false.
Proof. exists true, [mkcost 0 "gen" "p"], [], [0%Z], "gen", "p". split; reflexivity. Qed.
Print Assumptions C24_cost_old_refuted.
Theorem C24_cost_old_partial : forall is_poly poly pwl els et pt, G24_cost poly pwl els et = true ->
  cost_fold_rejects is_poly poly pwl els et pt = false /\ costs_batch_rejects_old is_poly poly pwl els et pt = false.
Proof.
  (* no element has a cost, so the check (= the single calls) finds none *)
  unfold G24_cost. intros is_poly poly pwl els et pt H. apply andb_true_iff in H. destruct H as [Hn He]. apply negb_true_iff in He. split.
  - rewrite <- cost_batch_eq_fold. unfold costs_batch_rejects. rewrite Hn, orb_false_r.
    apply not_true_is_false. intros X. apply existsb_exists in X. destruct X as [e [Hin X]].
    assert (Y : exists c, In c (poly ++ pwl) /\ same_el e et c = true).
    { unfold cost_exists in X. apply orb_true_iff in X. destruct X as [X|X]; apply existsb_exists in X; destruct X as [c [Hc Hs]];
        exists c; (split; [apply in_or_app; auto|]); [exact Hs | apply andb_true_iff in Hs; apply Hs]. }
    destruct Y as [c [Hc Hs]]. apply andb_true_iff in Hs. destruct Hs as [H1 H2]. apply Z.eqb_eq in H1.
    enough (existsb (fun c => memz (c_elem c) els && String.eqb (c_et c) et) (poly ++ pwl) = true) by congruence.
    apply existsb_exists. exists c. split; [exact Hc|]. rewrite H2, andb_true_r.
    apply existsb_exists. exists e. split; [exact Hin | rewrite H1; apply Z.eqb_refl].
  - rewrite existsb_app in He. apply orb_false_iff in He. destruct He as [He _].
    unfold costs_batch_rejects_old. rewrite (countb_zero _ _ He). reflexivity.
Qed.
Print Assumptions C24_cost_old_partial.
Example C24_cost_partial_nonvacuous : G24_cost [mkcost 3 "gen" "p"] [mkcost 1 "load" "p"] [0%Z; 1%Z; 2%Z] "gen" = true.
Proof. reflexivity. Qed.

(* Extended descriptors (C24/ModelX.v): pairs with conditional column writes / argument defaults computed from other
   arguments: sgen(s), shunt(s), impedance(s), line(s)_from_parameters, transformer(s)_from_parameters,
   transformer(s)3w_from_parameters, bus(es)_dc, switch(es); costs with et / power_type per element.
   [xfold_col] = the sequence of single calls, each following the column specification its own arguments select;
   [xbatch_col] = the batch call following the specification the whole argument vectors select. *)

(* for all inputs, under the boolean guard GX (every single call of the sequence takes the same branch, and that
   branch is compatible with the branch the batch call takes for these vectors): equal rows, column by column *)
Theorem C24_xbatch_rows_eq_fold_partial : forall std xs xb c l, GX std xs xb c l = true ->
  forall oc, new_vals oc (xbatch_col xb c std l oc) = new_vals oc (xfold_col xs c std l oc).
Proof.
  intros std xs xb c l. destruct l as [|a0 l'].
  - intros _ oc. unfold xbatch_col. rewrite batch_new. simpl xfold_col.
    unfold new_vals. rewrite skipn_all. destruct (spec_vec xb c []) as [s|n p d f]; simpl; [reflexivity|].
    destruct (oc_ex oc || false); reflexivity.
  - set (l := a0 :: l'). intros H oc. unfold GX in H. fold l in H.
    apply andb_true_iff in H. destruct H as [Hh Hc].
    assert (Hsp : forall a, In a l -> spec_el xs c a = spec_el xs c a0).
    { intros a Ha. rewrite forallb_forall in Hh. apply colspec_eqb_eq. apply Hh. exact Ha. }
    rewrite (xfold_hom xs c std _ l Hsp). unfold xbatch_col.
    assert (A : pure_spec (spec_el xs c a0) /\
                forall ex, newspec (spec_el xs c a0) ex std l = newspec (spec_vec xb c l) ex std l).
    { apply orb_true_iff in Hc. destruct Hc as [Hc|Hc]; [apply compat1_newspec, Hc | apply sem_eq_newspec, Hc]. }
    apply agree_new; apply A.
Qed.
Print Assumptions C24_xbatch_rows_eq_fold_partial.

(* rejections: same node / index / positivity checks and the extra raise conditions agree on these vectors *)
Theorem C24_xbatch_rejects_iff_fold_partial : forall xs xb l, xchecks_compat xs xb l = true ->
  forall t std idxs, (match idxs with Some li => List.length li = List.length l | None => True end) ->
  xbatch_ok xb t std idxs l = xfold_ok xs t std idxs l.
Proof.
  unfold xchecks_compat. intros xs xb l H t std idxs Hlen. apply andb_true_iff in H. destruct H as [Hc He].
  apply Bool.eqb_prop in He. unfold xbatch_ok. rewrite xfold_ok_extra, He.
  destruct (extra_b xb l); [reflexivity | apply batch_rejects_iff_fold; assumption].
Qed.
Print Assumptions C24_xbatch_rejects_iff_fold_partial.

(* the guards hold for EVERY argument vector list on the listed columns (= all columns the single function writes
   except the named exceptions) *)
Theorem C24_sgen_cols_full : forall std c, In c elec_sgen -> forall l, GX std x_sgen_s x_sgen_b c l = true.
Proof. intros std. apply GX_uncond_cols. reflexivity. Qed.
Print Assumptions C24_sgen_cols_full.
Theorem C24_shunt_cols_full : forall std c, In c elec_shunt -> forall l, GX std x_shunt_s x_shunt_b c l = true.
Proof. intros std. apply GX_uncond_cols. reflexivity. Qed.
Theorem C24_impedance_cols_full : forall std c, In c elec_imp -> forall l, GX std x_imp_s x_imp_b c l = true.
Proof. intros std. apply GX_uncond_cols. reflexivity. Qed.
Theorem C24_linepar_cols_full : forall std c, In c elec_linepar -> forall l, GX std x_linepar_s x_linepar_b c l = true.
Proof. intros std. apply GX_uncond_cols. reflexivity. Qed.
(* every column of create_transformer_from_parameters (tap2_pos defaults to tap2_neutral in both functions) *)
Theorem C24_trafopar_cols_full : forall std c, In c elec_trafopar -> forall l, GX std x_trafopar_s x_trafopar_b c l = true.
Proof. intros std. apply GX_uncond_cols. reflexivity. Qed.
Print Assumptions C24_trafopar_cols_full.
(* every column of create_transformer3w_from_parameters *)
Theorem C24_trafo3wpar_cols_full : forall std c, In c elec_t3par -> forall l, GX std x_t3par_s x_t3par_b c l = true.
Proof. intros std. apply GX_uncond_cols. reflexivity. Qed.
Print Assumptions C24_trafo3wpar_cols_full.
Theorem C24_switch_cols_full : forall std c, In c elec_switch -> forall l, GX std x_switch_s x_switch_b c l = true.
Proof. intros std. apply GX_uncond_cols. reflexivity. Qed.
Theorem C24_busdc_cols_full : forall std c, In c elec_busdc -> forall l, GX std x_busdc_s x_busdc_b c l = true.
Proof. intros std. apply GX_uncond_cols. reflexivity. Qed.
Theorem C24_xchecks_full : forall l,
  xchecks_compat x_shunt_s x_shunt_b l = true /\ xchecks_compat x_linepar_s x_linepar_b l = true /\
  xchecks_compat x_busdc_s x_busdc_b l = true /\ xchecks_compat x_switch_s x_switch_b l = true /\
  xchecks_compat x_trafopar_s x_trafopar_b l = true /\ xchecks_compat x_t3par_s x_t3par_b l = true.
Proof. intros l. repeat split; apply xchecks_noextra; reflexivity. Qed.
Print Assumptions C24_xchecks_full.

(* sgens (known finding C24-sgens-generator-type): with the generator type passed and equal for every row the
   remaining four columns and the rejections agree too; refuted otherwise *)
Theorem C24_sgen_partial : forall std g l, sgen_hom g l = true ->
  (forall c, In c [GT; "k"; "lrc_pu"; "max_ik_ka"] -> GX std x_sgen_s x_sgen_b c l = true) /\
  (l <> [] -> xchecks_compat x_sgen_s x_sgen_b l = true).
Proof. intros std g l H. split; [apply (sgen_hom_compat std g l H) | apply (xchecks_sgen g l H)]. Qed.
Print Assumptions C24_sgen_partial.
Example C24_sgen_partial_nonvacuous : sgen_hom "async" [sg (VS "async") (q 3 2); sg (VS "async") VNaN] = true.
Proof. reflexivity. Qed.
Theorem C24_sgen_refuted :
  (exists l c oc, new_vals oc (xbatch_col x_sgen_b c [] l oc) <> new_vals oc (xfold_col x_sgen_s c [] l oc)) /\
  (exists l oc, new_vals oc (xbatch_col x_sgen_b "k" [] l oc) <> new_vals oc (xfold_col x_sgen_s "k" [] l oc)) /\
  (exists t l, xbatch_ok x_sgen_b_old t [] None l <> xfold_ok x_sgen_s t [] None l).
Proof.
  split; [|split].
  - (* create_sgens writes generator_type = "current_source" where create_sgen (default None) leaves the column absent *)
    exists [[("bus", q 0 1); ("p_mw", q 1 1)]], GT, {| oc_ex := false; oc_vals := [] |}. vm_compute. discriminate.
  - (* mixed generator types: create_sgens writes k for the async row as well *)
    exists [sg CS (q 3 2); sg (VS "async") (q 5 2)], {| oc_ex := false; oc_vals := [] |}. vm_compute. discriminate.
  - exists [("bus", [0%Z])], [[("bus", q 0 1); ("p_mw", q 1 1); (GT, CS)]; [("bus", q 0 1); ("p_mw", q 1 1); (GT, VS "async")]].
    vm_compute. discriminate.
Qed.
Print Assumptions C24_sgen_refuted.

(* lines_from_parameters (known finding C24-lines-from-parameters-zero-seq) *)
Theorem C24_linepar_refuted : exists l c oc,
  new_vals oc (xbatch_col x_linepar_b c [] l oc) <> new_vals oc (xfold_col x_linepar_s c [] l oc).
Proof. (* only r0 given *) exists [[("r0_ohm_per_km", q 1 2)]], "r0_ohm_per_km", {| oc_ex := false; oc_vals := [] |}. vm_compute. discriminate. Qed.
Example C24_linepar_partial_nonvacuous :
  forallb (fun c => GX [] x_linepar_s x_linepar_b c [lp_full; lp_full]) ["r0_ohm_per_km"; "x0_ohm_per_km"; "c0_nf_per_km"; "g0_us_per_km"] = true.
Proof. vm_compute. reflexivity. Qed.

(* the *_old descriptors of the *_from_parameters batch functions: tap2_pos does not fall back to tap2_neutral, and
   a string-valued optional argument passed as a list (vector_group, tap2_side, tap2_changer_type; tap_changer_type of
   the 3W function) raises TypeError in _not_nan *)
Theorem C24_trafopar_old_refuted :
  (exists l oc, new_vals oc (xbatch_col x_trafopar_b_old "tap2_pos" [] l oc) <> new_vals oc (xfold_col x_trafopar_s "tap2_pos" [] l oc)) /\
  (exists t l, xbatch_ok x_trafopar_b_old t [] None l <> xfold_ok x_trafopar_s t [] None l) /\
  (exists t l, xbatch_ok x_t3par_b_old t [] None l <> xfold_ok x_t3par_s t [] None l).
Proof.
  split; [|split].
  - (* tap2_neutral given, tap2_pos not *)
    exists [[("tap2_neutral", q 1 1)]], {| oc_ex := false; oc_vals := [] |}. vm_compute. discriminate.
  - exists [("bus", [0%Z; 1%Z])], [trafo_buses [("vector_group", VS "Dyn5")]; trafo_buses [("vector_group", VS "Yy0")]]. vm_compute. discriminate.
  - exists [("bus", [0%Z; 1%Z; 2%Z])],
           [[("hv_bus", q 0 1); ("mv_bus", q 1 1); ("lv_bus", q 2 1); ("tap_changer_type", VS "Ratio")];
            [("hv_bus", q 0 1); ("mv_bus", q 1 1); ("lv_bus", q 2 1); ("tap_changer_type", VS "Ideal")]].
    vm_compute. discriminate.
Qed.
Print Assumptions C24_trafopar_old_refuted.

(* impedances: the zero-sequence columns are written by the batch call as by the single calls (example); x_imp_b_old,
   which does not accept the zero-sequence arguments, raises InvalidIndexError (refuted) *)
Theorem C24_impedance_old_refuted : exists t l, xbatch_ok x_imp_b_old t [] None l <> xfold_ok x_imp_s t [] None l.
Proof. exists [("bus", [0%Z; 1%Z])], [imp_a [("rft0_pu", q 1 2); ("xft0_pu", q 3 4)]]. vm_compute. discriminate. Qed.
Print Assumptions C24_impedance_old_refuted.
(* "is None" is tested on the whole argument, so a None inside a vector is not replaced by the ft value *)
Theorem C24_impedance_refuted : exists l oc,
  new_vals oc (xbatch_col x_imp_b "rtf_pu" [] l oc) <> new_vals oc (xfold_col x_imp_s "rtf_pu" [] l oc).
Proof. exists [imp_a [("rtf_pu", q 3 8)]; imp_a []], {| oc_ex := true; oc_vals := [] |}. vm_compute. discriminate. Qed.
Print Assumptions C24_impedance_refuted.
Example C24_impedance_partial_nonvacuous :
  forallb (fun c => GX [] x_imp_s x_imp_b c [imp_a [("rtf_pu", q 3 8)]; imp_a [("rtf_pu", q 1 2)]]) ["rtf_pu"; "xtf_pu"; "gt_pu"; "bt_pu"] = true
  /\ xchecks_compat x_imp_s x_imp_b [imp_a []; imp_a []] = true.
Proof. split; vm_compute; reflexivity. Qed.
Example C24_impedance_zero_seq_nonvacuous :
  forallb (fun c => GX [] x_imp_s x_imp_b c [imp_z; imp_z])
          ["rft0_pu"; "xft0_pu"; "rtf0_pu"; "xtf0_pu"; "gf0_pu"; "bf0_pu"; "gt0_pu"; "bt0_pu"] = true
  /\ xchecks_compat x_imp_s x_imp_b [imp_z; imp_z] = true
  /\ new_vals {| oc_ex := false; oc_vals := [] |} (xbatch_col x_imp_b "rtf0_pu" [] [imp_z; imp_z] {| oc_ex := false; oc_vals := [] |})
     = [q 1 2; q 1 2].
Proof. repeat split; vm_compute; reflexivity. Qed.

(* shunts: vn_kv defaults to the bus voltage per element / for the whole argument *)
Theorem C24_shunt_refuted : exists l oc,
  new_vals oc (xbatch_col x_shunt_b "vn_kv" [] l oc) <> new_vals oc (xfold_col x_shunt_s "vn_kv" [] l oc).
Proof. (* vn_kv given for some rows only *) exists [sh [("vn_kv", q 10 1)]; sh []], {| oc_ex := true; oc_vals := [] |}. vm_compute. discriminate. Qed.
Example C24_shunt_partial_nonvacuous : GX [] x_shunt_s x_shunt_b "vn_kv" [sh []; sh []] = true /\
                         GX [] x_shunt_s x_shunt_b "vn_kv" [sh [("vn_kv", q 10 1)]; sh [("vn_kv", q 20 1)]] = true.
Proof. split; vm_compute; reflexivity. Qed.

(* buses_dc: the vm limits, as for buses (finding C24-vm-limit-default-missing-in-batch) *)
Theorem C24_busdc_refuted : exists l c oc,
  new_vals oc (xbatch_col x_busdc_b c [] l oc) <> new_vals oc (xfold_col x_busdc_s c [] l oc).
Proof.
  exists [[("vn_kv", q 20 1); ("min_vm_pu", VNaN)]; [("vn_kv", q 20 1); ("min_vm_pu", q 9 10)]], "min_vm_pu",
         {| oc_ex := false; oc_vals := [] |}.
  vm_compute. discriminate.
Qed.

(* switches: the vector-wise checks of create_switches (buses exist, element types implemented, elements exist per
   type, each bus is one of the buses of its own element) accept exactly the vectors every row of which create_switch
   accepts; with the index checks: create_switches raises iff some create_switch call of the sequence raises, same indices *)
Theorem C24_switch_checks_full : forall env l, sw_batch_ok env l = forallb (sw_single_ok env) l.
Proof. exact sw_batch_ok_forall. Qed.
Print Assumptions C24_switch_checks_full.
Theorem C24_switch_rejects_iff_fold_full : forall env idx idxs l,
  (match idxs with Some li => List.length li = List.length l | None => True end) ->
  sw_batch env idx idxs l = sw_fold env idx idxs l.
Proof. intros env. apply gbatch_eq_gfold, sw_batch_ok_forall. Qed.
Print Assumptions C24_switch_rejects_iff_fold_full.
Example C24_switch_nonvacuous : sw_batch swenv_w [] None [mksw 0 0 "l"; mksw 2 1 "l"; mksw 0 2 "b"] = Some [0; 1; 2]%Z /\
                      sw_batch swenv_w [] None [mksw 0 1 "l"] = None.
Proof. split; reflexivity. Qed.

(* duplicate costs with et and power_type given per element: _costs_existance_check = the sequence of single checks *)
Theorem C24_cost_list_batch_eq_fold_full : forall is_poly items poly pwl,
  costs_batch_rejects_l is_poly poly pwl items = cost_fold_rejects_l is_poly poly pwl items.
Proof. exact cost_batch_eq_fold_l. Qed.
Print Assumptions C24_cost_list_batch_eq_fold_full.
