(* C31 — property theorems (lemmas in C31/Proofs.v and C31/ProofsLoop.v).
   Model: C31/Model.v = the table lookups of build_branch.py (_calc_tap_from_dataframe :628-672,
   _get_vk_values_from_table :738-790), whose dict is keyed by (id, step).
   Reading guide:  tab = net.trafo_characteristic_table;  flt = the masked transformers of one lookup group
   (id, tap_pos, mask);  lookup col tab flt k pos = the value the impl uses for a transformer with characteristic
   id k at tap position pos;  own_row tab k pos = the table row with the transformer's own id AND own tap position
   (what the property demands);  tab_consistent = rows with equal (id, step) carry equal values. *)
From Coq Require Import ZArith QArith List Bool.
From PPV Require Import Base.QN C31.Model C31.Proofs C31.ModelLoop C31.ProofsLoop.
Import ListNotations.
Open Scope Q_scope.

(* FULL statement: every masked transformer gets the value of its own (id, tap_pos) row — any number of
   transformers in the group, sharing ids or not, at any positions; any table size and row order *)
Theorem C31_lookup_own_row : forall col tab flt t k r,
  tab_consistent col tab = true ->
  In t flt -> f_mask t = true -> f_id t = Some k ->
  own_row tab k (f_pos t) = Some r ->
  lookup col tab flt k (f_pos t) == col r.
Proof. exact lookup_own_row. Qed.
Print Assumptions C31_lookup_own_row.

(* "regardless of how many other transformers share the table or at which positions they are" *)
Theorem C31_lookup_independent_of_others : forall col tab flt1 flt2 t k r,
  tab_consistent col tab = true ->
  In t flt1 -> In t flt2 -> f_mask t = true -> f_id t = Some k ->
  own_row tab k (f_pos t) = Some r ->
  lookup col tab flt1 k (f_pos t) == lookup col tab flt2 k (f_pos t).
Proof.
  intros col tab flt1 flt2 t k r HT H1 H2 Mt It Hown.
  rewrite (lookup_own_row col tab flt1 t k r HT H1 Mt It Hown), (lookup_own_row col tab flt2 t k r HT H2 Mt It Hown). reflexivity.
Qed.
Print Assumptions C31_lookup_independent_of_others.

(* when the table has no row for (id, tap_pos) the impl silently uses 1 (ratio 1, angle 1 degree, vk 1 %) *)
Theorem C31_lookup_missing_row_default : forall col tab flt k p,
  own_row tab k p = None -> lookup col tab flt k p = 1.
Proof.
  intros col tab flt k p Hown. unfold lookup.
  destruct (dict_get key2_eqb (k, p) _) as [w|] eqn:Hw; [|reflexivity]. exfalso.
  apply dict_get_some_in in Hw. destruct Hw as (k' & Hw & Hk').
  apply in_map_iff in Hw. destruct Hw as (r' & E & Hr').
  injection E as <- _. apply key2_eqb_true in Hk'. cbn in Hk'. destruct Hk' as [Hid' Hst'].
  apply in_merged in Hr'. destruct Hr' as [Hin' _].
  exact (own_row_none tab k p Hown r' Hin' Hid' Hst').
Qed.
Print Assumptions C31_lookup_missing_row_default.

(* "behaves exactly like the same transformer with those values entered directly": the adjusted
   vn_hv / vn_lv / shift of a table-dependent transformer equal those obtained from the own row's
   voltage_ratio and angle_deg without any table (2W and 3W incl. tap_at_star_point) *)
Theorem C31_tap_eq_explicit : forall is3w tab rows t k r,
  tab_consistent c_ratio tab = true -> tab_consistent c_angle tab = true ->
  In t rows -> t_dep t = true -> t_id t = Some k -> own_row tab k (t_pos t) = Some r ->
  trow_eqv (apply_side is3w LV tab rows (apply_side is3w HV tab rows t))
           (explicit_step is3w (c_ratio r) (c_angle r) t).
Proof. exact tap_row_eq_explicit. Qed.
Print Assumptions C31_tap_eq_explicit.

(* the i-th output row of the vectorised step is the per-row function of the i-th input row *)
Theorem C31_tap_step_rowwise : forall is3w tab rows i d,
  nth i (tap_table_step is3w tab rows) (apply_side is3w LV tab rows (apply_side is3w HV tab rows d)) =
  apply_side is3w LV tab rows (apply_side is3w HV tab rows (nth i rows d)).
Proof. intros. unfold tap_table_step. rewrite !map_nth. reflexivity. Qed.
Print Assumptions C31_tap_step_rowwise.

(* transformers without tap_dependency_table are untouched by the table step, whatever the others do *)
Theorem C31_not_dependent_untouched : forall is3w tab rows t, t_dep t = false ->
  apply_side is3w LV tab rows (apply_side is3w HV tab rows t) = t.
Proof.
  intros is3w tab rows t H. rewrite (apply_side_other is3w HV tab rows t); [|rewrite H; reflexivity].
  apply apply_side_other. rewrite H. reflexivity.
Qed.
Print Assumptions C31_not_dependent_untouched.

(* vk / vkr (2W) and the six 3W columns: column j of the own row *)
Theorem C31_vk_own_row : forall tab rows t k r j,
  tab_consistent (col_vk j) tab = true ->
  In t rows -> v_dep t = true -> v_id t = Some k -> own_row tab k (v_pos t) = Some r ->
  (j < length (v_vk t))%nat ->
  nth j (vk_values tab rows t) 0 == nth j (c_vk r) 0.
Proof.
  intros tab rows t k r j HT Hin Hdep Hid Hown Hj.
  unfold vk_values. rewrite Hdep, Hid. rewrite (mapi_aux_nth _ _ 0%nat j 0 0 Hj). cbn [Nat.add].
  assert (Hf : In {| f_id := v_id t; f_pos := v_pos t; f_mask := v_dep t |} (vfrows rows)).
  { unfold vfrows. apply in_map_iff. exists t. auto. }
  rewrite Hdep in Hf.
  exact (lookup_own_row (col_vk j) tab _ _ k r HT Hf eq_refl Hid Hown).
Qed.
Print Assumptions C31_vk_own_row.

Theorem C31_vk_not_dependent_untouched : forall tab rows t, v_dep t = false -> vk_values tab rows t = v_vk t.
Proof. intros tab rows t H. unfold vk_values. rewrite H. reflexivity. Qed.
Print Assumptions C31_vk_not_dependent_untouched.

(* non-vacuity: one id shared at taps -2 / +2 (G31 false) — each transformer gets its own row *)
Example C31_nonvacuous :
  tab_consistent c_ratio wit_tab = true /\ G31 wit_flt = false /\
  lookup c_ratio wit_tab wit_flt 0 (-2 # 1) == 95 # 100 /\ lookup c_ratio wit_tab wit_flt 0 (2 # 1) == 105 # 100 /\
  lookup (col_vk 0) wit_tab wit_flt 0 (-2 # 1) == 11.
Proof. repeat split; vm_compute; reflexivity. Qed.
Print Assumptions C31_nonvacuous.

(* lookup_old: the dict keyed by the id only *)
Theorem C31_old_lookup_refuted :
  exists col tab flt t k r,
    tab_consistent col tab = true /\ In t flt /\ f_mask t = true /\ f_id t = Some k /\
    own_row tab k (f_pos t) = Some r /\ ~ lookup_old col tab flt k == col r.
Proof.
  exists c_ratio, wit_tab, wit_flt, (nth 0 wit_flt {| f_id := None; f_pos := 0; f_mask := false |}),
         0%Z, (nth 0 wit_tab {| c_id := 0; c_step := 0; c_ratio := 0; c_angle := 0; c_vk := [] |}).
  repeat split; try (vm_compute; reflexivity).
  - left. reflexivity.
  - vm_compute. discriminate.
Qed.
Print Assumptions C31_old_lookup_refuted.

(* the old rule was right exactly under the guard G31 (no shared id at different positions) *)
Theorem C31_old_lookup_partial : forall col tab flt t k r,
  G31 flt = true -> tab_consistent col tab = true ->
  In t flt -> f_mask t = true -> f_id t = Some k ->
  own_row tab k (f_pos t) = Some r ->
  lookup_old col tab flt k == col r.
Proof.
  intros col tab flt t k r HG HT Ht Mt It Hown.
  destruct (own_row_some _ _ _ _ Hown) as (Hr & Hid & Hst).
  destruct (dict_get_own_row Z.eqb c_id col tab flt t k k r Ht Mt It Hown) as (r' & Hw & Hr' & Hk');
    [apply Z.eqb_eq; exact Hid|].
  unfold lookup_old. rewrite Hw. apply Z.eqb_eq in Hk'.
  (* under G31 every merged row of this id sits at the transformer's own step *)
  destruct (merged_rows_at_own_step tab flt t k HG Ht Mt It r' Hr' Hk') as [Hin' Hst'].
  apply (tab_consistent_spec col tab HT r' r Hin' Hr); [congruence|].
  rewrite Hst', Hst. reflexivity.
Qed.
Print Assumptions C31_old_lookup_partial.

Example C31_old_nonvacuous : G31 nv_flt = true /\ lookup_old c_ratio wit_tab nv_flt 0 == 105 # 100.
Proof. split; vm_compute; reflexivity. Qed.
Print Assumptions C31_old_nonvacuous.

From Coq Require Import String.
(* both tap changers: the loop  for t in ("", "2")  of _calc_tap_from_dataframe (C31/ModelLoop.v).
   tap_pass ord is3w has_dep tab deps rows taps = one pass: has_dep = the frame has a tap{t}_dependency_table column,
   deps = the tap_dependency_table flags, taps = the tap{t}_* columns, ord = the ordinary (non-tabular) rule, a parameter.
   tap_loop ... has_dep1 has_pos2 has_dep2 = first pass, then the pass "2" iff the frame has tap2_pos. *)

(* a pass without its dependency column (the second tap changer of every standard frame) is the ordinary rule applied
   row by row: no table value is read, no NA-id error is raised, whatever tap_dependency_table says *)
Theorem C31_tap2_never_looked_up : forall ord is3w tab deps rows taps,
  tap_pass ord is3w false tab deps rows taps
  = if existsb (fun dx => ideal_both false (snd dx)) (combine deps taps) then inr "UserWarning"%string
    else inl (map3 (fun (_ : bool) t x => apply_ord ord x (retap false x t)) deps rows taps).
Proof. exact pass_without_dep_column. Qed.
Print Assumptions C31_tap2_never_looked_up.

Theorem C31_tap2_table_free : forall ord is3w tab1 tab2 deps rows taps,
  tap_pass ord is3w false tab1 deps rows taps = tap_pass ord is3w false tab2 deps rows taps.
Proof. intros. now rewrite !C31_tap2_never_looked_up. Qed.
Print Assumptions C31_tap2_table_free.

(* the composition on a standard frame: the output row of a table-dependent transformer after BOTH passes is the
   ordinary second tap changer applied to the explicit-values transformer (voltage_ratio / angle_deg of its own
   (id, tap_pos) row entered directly) - for every ordinary rule that respects ==, any number of other transformers *)
Theorem C31_loop_dependent_row_eq_explicit : forall ord,
  (forall x u u', u == u' -> fst (ord x u) == fst (ord x u') /\ snd (ord x u) == snd (ord x u')) ->
  forall is3w tab deps rows taps1 taps2 out i t x1 x2 k r,
  tab_consistent c_ratio tab = true -> tab_consistent c_angle tab = true ->
  tap_loop ord is3w true true false tab deps rows taps1 taps2 = inl out ->
  nth_error deps i = Some true -> nth_error rows i = Some t -> nth_error taps1 i = Some x1 ->
  nth_error taps2 i = Some x2 ->
  t_id t = Some k -> own_row tab k (x_pos x1) = Some r ->
  exists o, nth_error out i = Some o /\
    trow_eqv o (apply_ord ord x2 (retap false x2 (explicit_step is3w (c_ratio r) (c_angle r) (retap true x1 t)))).
Proof.
  intros ord Hord is3w tab deps rows taps1 taps2 out i t x1 x2 k r TR TA H Hd Ht H1 H2 Hid Hown.
  unfold tap_loop in H.
  destruct (tap_pass ord is3w true tab deps rows taps1) as [r1|e] eqn:P1; [|discriminate].
  (* first pass: row i of the view is table dependent, so the table step runs and gives the explicit values *)
  pose proof (tap_pass_nth _ _ _ _ _ _ _ _ _ _ _ _ P1 Hd Ht H1) as N1. cbn zeta in N1. cbn [andb] in N1.
  set (view := view_of true deps rows taps1) in *.
  set (v := retap true x1 t) in *.
  assert (Hin : In v view).
  { unfold view, view_of. eapply nth_error_In.
    apply (nth_error_map3 (fun d t x => retap (true && d) x t) _ _ _ _ _ _ _ Hd Ht H1). }
  assert (Hex : existsb t_dep view = true) by (apply existsb_exists; exists v; split; [exact Hin | reflexivity]).
  rewrite Hex in N1.
  set (o1 := apply_side is3w LV tab view (apply_side is3w HV tab view v)) in *.
  assert (E1 : trow_eqv o1 (explicit_step is3w (c_ratio r) (c_angle r) v))
    by (apply (tap_row_eq_explicit is3w tab view v k r TR TA Hin eq_refl Hid Hown)).
  assert (D1 : t_dep o1 = true) by (destruct E1 as (E & _); rewrite E; unfold explicit_step; destruct (t_side v); reflexivity).
  rewrite D1 in N1.
  (* second pass: no dependency column, the ordinary rule on the row left by the first *)
  rewrite pass_without_dep_column in H.
  destruct (existsb _ (combine deps taps2)); [discriminate|]. inversion H; subst out; clear H.
  eexists. split.
  - apply (nth_error_map3 (fun (_ : bool) t x => apply_ord ord x (retap false x t)) _ _ _ _ _ _ _ Hd N1 H2).
  - apply (apply_ord_eqv ord Hord), retap_eqv, E1.
Qed.
Print Assumptions C31_loop_dependent_row_eq_explicit.

(* the rational instance used by the correspondence run satisfies the hypothesis *)
Theorem C31_ord_rat_proper : forall x u u', u == u' ->
  fst (ord_rat x u) == fst (ord_rat x u') /\ snd (ord_rat x u) == snd (ord_rat x u').
Proof.
  intros x u u' E. unfold ord_rat. destruct (x_kind x); cbn [fst snd]; split; try reflexivity; try exact E;
    apply qabs2_proper; now rewrite E.
Qed.
Print Assumptions C31_ord_rat_proper.

Example C31_loop_nonvacuous :
  tab_consistent c_ratio wit_tab = true /\ tab_consistent c_angle wit_tab = true /\
  exists o1 o2, tap_loop ord_rat false true true false wit_tab [true; true] lp_rows lp_taps1 lp_taps2 = inl [o1; o2] /\
    t_vnh o1 == 110 * (95 # 100) * (105 # 100) /\ t_vnh o2 == 110 * (105 # 100).
Proof. exact loop_nonvacuous. Qed.
Print Assumptions C31_loop_nonvacuous.
