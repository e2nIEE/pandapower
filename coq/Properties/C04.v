(* C04 — setpoints and response laws: property theorems (lemmas in C04/Proofs.v, C04/Demand.v, C01/Balance.v).
   srcs = in-service voltage sources (ext_grid, gen, slack gen, xward) in the order they are written into the ppc;
   bus_vm/bus_va/bus_type = what build_gen.py leaves in ppc["bus"]; the Newton solver keeps |V| (and the angle at REF)
   of REF/PV buses at these values (solver contract, checked per run).
   qrun solve qlim2 gens = the loop of _run_ac_pf_with_qlims_enforced over an arbitrary PF oracle [solve]. *)
From Coq Require Import ZArith QArith Qabs List Bool Lia Lqa.
From PPV Require Import Base.QN Base.QC C01.Model C01.Proofs C01.Balance C04.Model C04.Proofs C04.Demand.
Import ListNotations.
Open Scope Q_scope.

(* ext_grid / gen setpoints: the value written to a bus is the setpoint of one of its in-service sources, every bus
   with a source gets one, and when the setpoints at the bus agree it is the setpoint of each of them *)
Theorem C04_bus_setpoint_is_a_source : forall srcs k v,
  bus_vm srcs k = Some v -> exists s, In s srcs /\ v_bus s = k /\ v_vm s = v.
Proof. exact bus_vm_is_source. Qed.
Print Assumptions C04_bus_setpoint_is_a_source.

Theorem C04_setpoint_held : forall srcs k s v,
  same_vm srcs k = true -> In s srcs -> v_bus s = k -> bus_vm srcs k = Some v -> v_vm s == v.
Proof.
  unfold same_vm. intros srcs k s v H Hs Hk Hv.
  assert (Hin : In s (at_bus k srcs)) by (apply at_bus_In; tauto).
  destruct (first_vm srcs k) as [f|] eqn:F.
  - rewrite forallb_forall in H.
    destruct (bus_vm_is_source _ _ _ Hv) as (s' & Hs' & Hk' & Hv').
    assert (Hin' : In s' (at_bus k srcs)) by (apply at_bus_In; tauto).
    pose proof (H _ Hin) as E1. pose proof (H _ Hin') as E2. apply qeqb_eq in E1, E2.
    rewrite E1, <- Hv', E2. reflexivity.
  - unfold first_vm in F. destruct (at_bus k srcs); [destruct Hin | discriminate].
Qed.
Print Assumptions C04_setpoint_held.

(* setpoints accepted by _check_voltage_setpoints_at_same_bus (np.allclose) differ from the bus value by at most
   twice the allclose tolerance: "exactly" holds only up to rtol 1e-5 when users give slightly different values *)
Theorem C04_setpoint_tolerance : forall srcs k s v f,
  setpoints_consistent srcs = true -> In s srcs -> v_bus s = k -> bus_vm srcs k = Some v -> first_vm srcs k = Some f ->
  Qabs (v_vm s - v) <= 2 * (ATOL + RTOL * Qabs f).
Proof.
  unfold setpoints_consistent. intros srcs k s v f H Hs Hk Hv Hf. rewrite forallb_forall in H.
  destruct (bus_vm_is_source _ _ _ Hv) as (s' & Hs' & Hk' & Hv').
  pose proof (H _ Hs) as E1. pose proof (H _ Hs') as E2. rewrite Hk, Hf in E1. rewrite Hk', Hf in E2.
  apply allclose1_bound in E1, E2. rewrite Hv' in E2.
  set (T := ATOL + RTOL * Qabs f) in *.
  apply Qabs_Qle_condition in E1, E2. apply Qabs_Qle_condition. destruct E1, E2. split; lra.
Qed.
Print Assumptions C04_setpoint_tolerance.

Theorem C04_reference_bus_iff : forall srcs k,
  bus_type srcs k = 3%nat <-> exists s, In s srcs /\ v_bus s = k /\ is_ref_kind s = true.
Proof.
  intros srcs k. unfold bus_type. destruct (existsb is_ref_kind (at_bus k srcs)) eqn:E.
  - split; [intros _|reflexivity]. apply existsb_exists in E. destruct E as (s & Hs & Hr). apply at_bus_In in Hs. exists s. tauto.
  - split.
    + destruct (negb (length (at_bus k srcs) =? 0)%nat); discriminate.
    + intros (s & Hs & Hk & Hr). assert (existsb is_ref_kind (at_bus k srcs) = true).
      { apply existsb_exists. exists s. split; [apply at_bus_In; tauto | exact Hr]. }
      congruence.
Qed.
Print Assumptions C04_reference_bus_iff.

(* Q-limit loop, for every PF oracle, both modes (all violations / largest violation only) and every gen table: all of it is
   read off the one postcondition of the loop, C04.Proofs.qrun_post *)
Theorem C04_qlim_terminates : forall solve qlim2 gens, qrun solve qlim2 gens <> QErr 3.
Proof. intros solve qlim2 gens E. pose proof (qrun_post solve qlim2 gens) as P. rewrite E in P. discriminate P. Qed.
Print Assumptions C04_qlim_terminates.

Theorem C04_qlim_exit_within_limits : forall solve qlim2 gens st qg c i g,
  qrun solve qlim2 gens = QDone st qg c ->
  nthg gens i = Some g -> g_on g = true -> g_ref g = false -> memn i (limited st) = false ->
  g_qmin g <= final_qg st qg i <= g_qmax g.
Proof.
  intros solve qlim2 gens st qg c i g H Hg Ho Hr Hl.
  pose proof (qrun_post solve qlim2 gens) as P. rewrite H in P. destruct P as (_ & _ & Hx & Hn).
  assert (Hi : In i (idxs gens)).
  { unfold idxs. apply in_seq. split; [lia|]. cbn. apply nth_error_Some. unfold nthg in Hg. congruence. }
  unfold final_qg. rewrite Hl.
  pose proof (filter_nil_forall _ _ _ Hx Hi) as Px. pose proof (filter_nil_forall _ _ _ Hn Hi) as Pn.
  cbv beta in Px, Pn. rewrite Hg, Ho, Hr, Hl in Px, Pn. cbn [negb andb] in Px, Pn.
  apply qltb_ge in Px, Pn. split; assumption.
Qed.
Print Assumptions C04_qlim_exit_within_limits.

Theorem C04_qlim_limited_sit_at_limit : forall solve qlim2 gens st qg c i,
  qrun solve qlim2 gens = QDone st qg c -> In i (limited st) ->
  (exists g, nthg gens i = Some g /\ g_on g = true /\ g_ref g = false) /\
  (final_qg st qg i = qmax_of gens i \/ final_qg st qg i = qmin_of gens i).
Proof.
  intros solve qlim2 gens st qg c i H Hi.
  pose proof (qrun_post solve qlim2 gens) as P. rewrite H in P. destruct P as ((I1 & I2 & I3) & _).
  split; [apply I3; exact Hi|].
  unfold final_qg. rewrite (proj2 (memn_In i (limited st)) Hi).
  destruct (I1 i Hi) as [q Hq].
  destruct (lookup_fixed (fixedq st) i) as [q'|] eqn:E.
  - apply I2. apply lookup_fixed_In. exact E.
  - exfalso. unfold lookup_fixed in E.
    destruct (last_opt_nonempty (filter (fun p => Nat.eqb (fst p) i) (fixedq st))) as [x Hx].
    + intros En. assert (Hf : In (i, q) (filter (fun p => Nat.eqb (fst p) i) (fixedq st))).
      { apply filter_In. split; [exact Hq | cbn; apply Nat.eqb_refl]. }
      rewrite En in Hf. exact Hf.
    + rewrite Hx in E. discriminate.
Qed.
Print Assumptions C04_qlim_limited_sit_at_limit.

(* the loop never raises the IndexError of the largest-violation selection (both modes, every oracle) ... *)
Theorem C04_qlim_no_index_error : forall solve qlim2 gens, qrun solve qlim2 gens <> QErr 1.
Proof. intros solve qlim2 gens E. pose proof (qrun_post solve qlim2 gens) as P. rewrite E in P. discriminate P. Qed.
Print Assumptions C04_qlim_no_index_error.
(* ... which the rule before the repair (`if k > len(mx)`) did on a single lower-limit violation *)
Theorem C04_qlim2_old_index_error :
  select_old true g2 [0; -2] [] [1%nat] = SelErr /\ select true g2 [0; -2] [] [1%nat] = SelOk [] [1%nat].
Proof. vm_compute. split; reflexivity. Qed.
Print Assumptions C04_qlim2_old_index_error.
Example C04_qlim_nonvacuous : exists st qg c,
  qrun (fun l => match l with [] => Some [0; -2] | _ => Some [-1; 0] end) true g2 = QDone st qg c
  /\ limited st = [1%nat] /\ final_qg st qg 1 = -1.
Proof. eexists _, _, _. vm_compute. repeat split. Qed.
Print Assumptions C04_qlim_nonvacuous.

(* the PYPOWER algorithms run the same loop; their rule before the repair exempted gens with a zero limit *)
Theorem C04_pypower_old_zero_limit_refuted :
  viol_max_old_pypower gz [] [0; 7#4] = [] /\ viol_max gz [] [0; 7#4] = [1%nat].
Proof. vm_compute. split; reflexivity. Qed.
Print Assumptions C04_pypower_old_zero_limit_refuted.

(* pfsoln addresses the gens of a reference bus by row; the rule before the repair used positions in the list of switched-on
   gens, which differ as soon as an earlier row is off (PYPOWER q-limit loop) *)
Theorem C04_pfsoln_old_row_index_refuted : gens_at_bus_old grow 2 = [1%nat] /\ gens_at_bus_rows grow 2 = [2%nat].
Proof. vm_compute. split; reflexivity. Qed.
Print Assumptions C04_pfsoln_old_row_index_refuted.

(* the whole call: when every in-service bus is a reference bus powerflow.py bypasses the solver and with it the q-limit
   loop, so the limit statement holds under the guard G04b (some bus is PV or PQ) and is refuted without it *)
Theorem C04_qlim_within_limits_partial : forall srcs nb solve qlim2 gens st qg c i g,
  G04b srcs nb = true -> run_q srcs nb solve qlim2 gens = QDone st qg c ->
  nthg gens i = Some g -> g_on g = true -> g_ref g = false -> memn i (limited st) = false ->
  g_qmin g <= final_qg st qg i <= g_qmax g.
Proof. unfold run_q. intros srcs nb solve qlim2 gens st qg c i g G. rewrite G. apply C04_qlim_exit_within_limits. Qed.
Print Assumptions C04_qlim_within_limits_partial.
Theorem C04_qlim_bypass_refuted :
  G04b byp_srcs 2 = false /\
  exists st qg c, run_q byp_srcs 2 (fun _ => Some [0; 3; 3]) false byp_gens = QDone st qg c /\
                  limited st = [] /\ ~ final_qg st qg 2 <= g_qmax (mkGen 1 1 1 (-1) 1 0 true false).
Proof.
  split; [reflexivity|]. eexists _, _, _. split; [vm_compute; reflexivity|]. split; [reflexivity|].
  vm_compute. intros H. apply H. reflexivity.
Qed.
Print Assumptions C04_qlim_bypass_refuted.

(* non-slack gens deliver their setpoint: rows at non-reference buses, and non-reference rows sharing a reference bus *)
Theorem C04_gen_keeps_p_setpoint : forall n ref g v s,
  memn (g_bus g) ref = false \/ (g_ref g = false /\ (1 < length (gens_on_at n (g_bus g)))%nat) ->
  pg_after n ref g v s = g_pg g.
Proof. exact pg_after_keeps. Qed.
Print Assumptions C04_gen_keeps_p_setpoint.

Theorem C04_load_law : forall n l v, vdl n = true -> l_on l = true ->
  res_load_p n l v == load_law_p l v /\ res_load_q n l v == load_law_q l v.
Proof.
  intros n l v V O. unfold res_load_p, res_load_q, load_law_p, load_law_q, pct. rewrite V, O. cbn [b2q]. qstrip. split; field.
Qed.
Print Assumptions C04_load_law.
Theorem C04_load_constant_power_when_option_off : forall n l v, vdl n = false -> l_on l = true ->
  res_load_p n l v == l_p l * l_sc l /\ res_load_q n l v == l_q l * l_sc l.
Proof. intros n l v V O. unfold res_load_p, res_load_q. rewrite V, O. cbn [b2q]. qstrip. split; ring. Qed.
Print Assumptions C04_load_constant_power_when_option_off.
Theorem C04_shunt_law : forall s v, s_on s = true -> ~ s_vn s == 0 ->
  res_sh_p s v == shunt_law_p s v /\ res_sh_q s v == shunt_law_q s v.
Proof.
  intros s v O Hv. unfold res_sh_p, res_sh_q, shunt_law_p, shunt_law_q, sh_ratio. rewrite O. cbn [b2q]. qstrip.
  split; field; exact Hv.
Qed.
Print Assumptions C04_shunt_law.
Theorem C04_pq_results_are_setpoints : forall e, e_on e = true ->
  res_pq_p e == e_p e * e_sc e /\ res_pq_q e == e_q e * e_sc e.
Proof. intros e O. unfold res_pq_p, res_pq_q. rewrite O. cbn [b2q]. qstrip. split; ring. Qed.
Print Assumptions C04_pq_results_are_setpoints.

(* the PD/QD backup / restore history of _run_ac_pf_with_qlims_enforced (run_newton_raphson_pf.py:182-250), for EVERY iteration
   history.  passes = the violating passes of the loop (bus PD / gen PG columns left by ppci_to_pfsoln are arbitrary oracle data, the
   rows limited by the pass with their limit), fresh_passes = a pass limits rows that are not limited yet, rows_ok = GEN_BUS of the
   limited rows points into the bus table.  drun = the demand columns the next PF call sees. *)
(* QD seen by the solver = backup minus the limit of every limited row of the bus, each limit counted exactly once although the
   loop subtracts gen[i, QG] for ALL limited rows in every pass (pfsoln has zeroed the QG of the rows switched off earlier) *)
Theorem C04_qlim_demand_qd : forall gbus pd0 qd0 passes k,
  rows_ok gbus (length qd0) passes -> fresh_passes [] passes = true ->
  nth k (ds_qd (drun gbus pd0 qd0 passes)) 0 == nth k qd0 0 - fixed_total gbus k passes.
Proof.
  intros gbus pd0 qd0 passes k Hr Hf. unfold drun. apply (drun_qd gbus (length qd0)); auto. intros i [].
Qed.
Print Assumptions C04_qlim_demand_qd.
(* PD seen by the solver = the column the last pfsoln left (the backup, plus the distributed slack share where pfsoln writes it)
   minus the PG of every limited row of the bus *)
Theorem C04_qlim_demand_pd : forall gbus pd0 qd0 passes p k,
  (forall i, In i (ds_lim (drun gbus pd0 qd0 (passes ++ [p]))) -> (gbus i < length (ps_pd1 p))%nat) ->
  nth k (ds_pd (drun gbus pd0 qd0 (passes ++ [p]))) 0 ==
  nth k (ps_pd1 p) 0 - sumf (fun i => nth i (ps_pg p) 0)
                            (filter (fun i => Nat.eqb (gbus i) k) (ds_lim (drun gbus pd0 qd0 (passes ++ [p])))).
Proof.
  intros gbus pd0 qd0 passes p k. unfold drun. rewrite fold_left_app. cbn [fold_left dstep ds_pd ds_lim]. apply nth_dec_all.
Qed.
Print Assumptions C04_qlim_demand_pd.
(* frame: after the loop the bus QD column is the column before the loop, for every history; PD is the column the last pfsoln
   wrote, i.e. the column before the loop whenever pfsoln does not write PD (no distributed slack) *)
Theorem C04_qlim_demand_frame : forall gbus pd0 qd0 passes last_pd1 k,
  rows_ok gbus (length qd0) passes -> fresh_passes [] passes = true ->
  nth k (snd (dfinal qd0 (drun gbus pd0 qd0 passes) last_pd1)) 0 == nth k qd0 0 /\
  (last_pd1 = pd0 -> fst (dfinal qd0 (drun gbus pd0 qd0 passes) last_pd1) = pd0).
Proof.
  intros gbus pd0 qd0 passes last_pd1 k Hr Hf. split; [|intros ->; reflexivity].
  unfold dfinal. cbn [snd]. destruct (Nat.eqb (length (ds_lim (drun gbus pd0 qd0 passes))) 0) eqn:E; [|reflexivity].
  apply Nat.eqb_eq, length_zero_iff_nil in E. unfold drun in E. rewrite fold_lim in E.
  rewrite (C04_qlim_demand_qd gbus pd0 qd0 passes k Hr Hf), (fixed_total_no_rows gbus k passes E). ring.
Qed.
Print Assumptions C04_qlim_demand_frame.
Example C04_qlim_demand_nonvacuous :
  fresh_passes [] wit_passes = true /\
  ds_qd (drun wit_gbus [0; 5; 6] [0; 4; 6] wit_passes) = [0; 5 # 2; 6] /\
  ds_pd (drun wit_gbus [0; 5; 6] [0; 4; 6] wit_passes) = [0; 0; 6] /\
  dfinal [0; 4; 6] (drun wit_gbus [0; 5; 6] [0; 4; 6] wit_passes) [0; 5; 6] = ([0; 5; 6], [0; 4; 6]).
Proof. vm_compute. repeat split. Qed.
Print Assumptions C04_qlim_demand_nonvacuous.

(* default q limits.  row_limits = the QMIN/QMAX of a gen row: min_q_mvar / max_q_mvar, a missing (NaN) limit replaced by
   -/+ q_lim_default; since "fix: a recycled power flow with recycle["gen"] keeps the default q limits of gens without limits" the
   recycled path writes the same limits.  A gen row without limits is never selected by the q-limit loop while |QG| stays within the
   default; the rule before the repair (NaN -> 0 in the recycled path) limited such a gen to q = 0. *)
Theorem C04_unlimited_gen_never_limited : forall gens limited qg qdef i g,
  nth_error gens i = Some g ->
  (g_qmin g, g_qmax g) = row_limits qdef None None ->
  Qabs (nthq qg i) <= qdef ->
  ~ In i (viol_max gens limited qg) /\ ~ In i (viol_min gens limited qg).
Proof.
  intros gens limited qg qdef i g Hg Hl Hq. injection Hl as Hmin Hmax. apply Qabs_Qle_condition in Hq.
  split; intros Hin; [apply viol_max_spec in Hin | apply viol_min_spec in Hin]; destruct Hin as (_ & _ & g' & Hg' & H);
    unfold nthg in Hg'; rewrite Hg in Hg'; injection Hg' as <-; apply qltb_lt in H.
  - rewrite Hmax in H. lra.
  - rewrite Hmin, qopp_correct in H. lra.
Qed.
Print Assumptions C04_unlimited_gen_never_limited.
Theorem C04_recycled_old_limits_refuted :
  row_limits_recycled_old None None = (0, 0) /\
  viol_max [wit_nolim_gen] [] [1 # 2] = [0%nat] /\
  (let l := row_limits 1000000000 None None in viol_max [mkGen 1 1 1 (fst l) (snd l) 0 true false] [] [1 # 2] = []).
Proof. vm_compute. repeat split. Qed.
Print Assumptions C04_recycled_old_limits_refuted.
