(* C09 — calculation results do not depend on the history of the network object
   (the frame lemmas are in C09/Proofs.v).
   State = (user-visible tables T, private caches and result tables C).  A calculation is a sequence of field
   assignments with explicit read sets; what is computed (`sem`) is arbitrary, so solvers and numerics are covered.
   hrun sem ops T C = the state after a history of edits and calculations. *)
From Coq Require Import ZArith QArith List Bool.
From PPV Require Import Base.QN C09.Model C09.Proofs.
Import ListNotations.

(* frame lemma: the values a calculation writes depend on the caches only through the fields it reads before it
   writes them *)
Theorem C09_run_frame : forall sem T p C1 C2,
  (forall c, In c (rbw p) -> C1 c = C2 c) ->
  forall c, In c (writes p) -> exec sem T p C1 c = exec sem T p C2 c.
Proof. exact exec_agree. Qed.
Print Assumptions C09_run_frame.

(* FULL for power flows that do not start from previous results: after ANY history the next power flow gives on every
   field it writes (options, lookups, ppc, converged, all result tables) exactly what it gives from any other cache
   state with an empty auxiliary-element tracking state (C08), e.g. from a fresh copy or a net rebuilt from the tables *)
Theorem C09_history_independent : forall sem ops T C C0,
  Forall hop_ok ops ->
  C F_AUX = sem FN_CLEAN [] -> C0 F_AUX = sem FN_CLEAN [] ->
  forall c, In c (writes prog_pf) ->
  exec sem (fst (hrun sem ops T C)) prog_pf (snd (hrun sem ops T C)) c = exec sem (fst (hrun sem ops T C)) prog_pf C0 c.
Proof. intros sem ops T C C0. apply history_independent. reflexivity. Qed.
Print Assumptions C09_history_independent.

(* the same for the optimal power flow (AC/DC), which clears the lookups of the previous calculation (repaired); DC power flows
   run prog_pf since they re-initialise the result tables *)
Theorem C09_history_independent_opf : forall sem ops T C C0,
  Forall hop_ok ops ->
  C F_AUX = sem FN_CLEAN [] -> C0 F_AUX = sem FN_CLEAN [] ->
  forall c, In c (writes prog_opf) ->
  exec sem (fst (hrun sem ops T C)) prog_opf (snd (hrun sem ops T C)) c = exec sem (fst (hrun sem ops T C)) prog_opf C0 c.
Proof. intros sem ops T C C0. apply history_independent. reflexivity. Qed.
Print Assumptions C09_history_independent_opf.

(* the OPF before that repair read the lookups first and really depended on them *)
Theorem C09_opf_old_depends_on_history_refuted :
  exists sem T C1 C2, C1 F_AUX = C2 F_AUX /\ exec sem T prog_opf_old C1 F_RES_BUS <> exec sem T prog_opf_old C2 F_RES_BUS.
Proof. exists sum_sem, (fun _ => 0%Z), (fun _ => 0%Z), (mark F_LOOKUPS). split; [reflexivity|]. vm_compute. discriminate. Qed.
Print Assumptions C09_opf_old_depends_on_history_refuted.

(* the read-before-write sets of the power flow and OPF programs (compared with the access log of the real code) *)
Theorem C09_read_before_write_sets :
  rbw prog_pf = [F_AUX] /\ rbw prog_pf_results = [F_RES_BUS; F_AUX; F_RES_BUS; F_RES_OTHER] /\ rbw prog_opf = [F_AUX] /\
  rbw prog_opf_old = [F_AUX; F_LOOKUPS].
Proof. vm_compute. auto. Qed.
Print Assumptions C09_read_before_write_sets.

(* init="results" is outside the frame theorem (it reads the previous results by design), and the dependence is real *)
Theorem C09_results_depend_on_history_refuted :
  exists sem T C1 C2, C1 F_AUX = C2 F_AUX /\ exec sem T prog_pf_results C1 F_RES_BUS <> exec sem T prog_pf_results C2 F_RES_BUS.
Proof. exists sum_sem, (fun _ => 0%Z), (fun _ => 0%Z), (mark F_RES_BUS). split; [reflexivity|]. vm_compute. discriminate. Qed.
Print Assumptions C09_results_depend_on_history_refuted.

(* FULL (after the repair of get_voltage_init_vector): every entry of the start vector handed to the solver for
   init="results" is a number, whatever the previous result tables contain (e.g. NaN of an unsupplied bus) *)
Theorem C09_start_vector_defined : forall bs, defined (start_vector bs) = true.
Proof. exact start_vector_defined. Qed.
Print Assumptions C09_start_vector_defined.

(* ... and it is the previous result wherever that has numbers (G09 = it has them at every bus taking part) *)
Theorem C09_start_vector_keeps_numbers : forall bs, G09 bs = true -> start_vector bs = start_vector_old bs.
Proof.
  unfold G09, start_vector, start_vector_old. induction bs as [|b r IH]; cbn; [reflexivity|].
  destruct (b_kept b) eqn:K; cbn; [|exact IH].
  intros H. apply andb_true_iff in H. destruct H as [H1 H2]. rewrite (IH H2). f_equal.
  apply andb_true_iff in H1. destruct H1 as [Hm Ha].
  unfold start_vm, start_va. now rewrite (set_or_flat_keeps _ _ _ Hm), (set_or_flat_keeps _ _ _ Ha).
Qed.
Print Assumptions C09_start_vector_keeps_numbers.

(* the code before the repair copied the NaN: refuted, with the exact guard *)
Theorem C09_old_start_vector_defined_refuted : exists bs, defined (start_vector_old bs) = false.
Proof. exists feeder. reflexivity. Qed.
Print Assumptions C09_old_start_vector_defined_refuted.

Theorem C09_old_guard_exact : forall bs, defined (start_vector_old bs) = G09 bs.
Proof.
  unfold defined, start_vector_old, G09. induction bs as [|b r IH]; cbn; [reflexivity|].
  destruct (b_kept b) eqn:K; cbn; [|exact IH].
  rewrite IH. f_equal. unfold start_vm_old, start_va_old. now rewrite !set_or_prev_num.
Qed.
Print Assumptions C09_old_guard_exact.

Theorem C09_old_nan_propagates : forall bs b,
  In b bs -> b_kept b = true -> b_set_vm b = None -> b_prev_vm b = None ->
  exists va, In (None, va) (start_vector_old bs).
Proof.
  intros bs b Hin K S P. exists (start_va_old b). unfold start_vector_old. apply in_map_iff. exists b. split.
  - unfold start_vm_old. now rewrite S, P.
  - apply filter_In. auto.
Qed.
Print Assumptions C09_old_nan_propagates.

Example C09_nonvacuous :
  start_vector feeder = [(Some 1, Some 0); (Some (100000328 # 100000000), Some 0); (Some 1, Some 0)] /\
  G09 [ {| b_prev_vm := Some 1; b_prev_va := Some 0; b_set_vm := Some (51 # 50); b_set_va := Some 0; b_kept := true |};
        {| b_prev_vm := None; b_prev_va := None; b_set_vm := None; b_set_va := None; b_kept := false |};
        {| b_prev_vm := Some (99 # 100); b_prev_va := Some (-1 # 2); b_set_vm := None; b_set_va := None; b_kept := true |} ] = true
  /\ frame_ok prog_pf = true /\ In F_RES_BUS (writes prog_pf).
Proof. exact nonvacuous. Qed.
Print Assumptions C09_nonvacuous.

(* short circuit, three-phase power flow, state estimation (they occur in the histories: hop_ok = the calculation
   leaves the auxiliary tracking state empty, true of all sixteen modelled programs).
   allkinds (first argument true) = every kind of generating element whose pd2ppc lookup is read has an in-service element,
   so that _build_gen_lookups rewrites the entry; these three calculations do not clear net._pd2ppc_lookups. *)
Theorem C09_all_programs_may_occur_in_histories :
  forallb leaves_clean [prog_pf; prog_pf_results; prog_opf; prog_opf_old; prog_sc true false; prog_sc false false;
                        prog_sc true true; prog_sc false true; prog_pf3ph true; prog_pf3ph false; prog_est true false;
                        prog_est false false; prog_est true true; prog_est false true; prog_est_bb true; prog_est_bb false] = true.
Proof. reflexivity. Qed.
Print Assumptions C09_all_programs_may_occur_in_histories.

(* PARTIAL (guard allkinds): after ANY history calc_sc gives on everything it computes (options, is_elements, lookups, ppc,
   res_*_sc) what it gives from any cache state with an empty tracking state; the power flow result tables pass through *)
Theorem C09_history_independent_sc_partial : forall sem ops T C C0,
  Forall hop_ok ops -> C F_AUX = sem FN_CLEAN [] -> C0 F_AUX = sem FN_CLEAN [] ->
  forall c, In c [F_OPTIONS; F_RES_SC; F_IS_ELEMENTS; F_SWITCH_INFO; F_LOOKUPS; F_LK_GEN; F_ISOLATED; F_PPC] ->
  exec sem (fst (hrun sem ops T C)) (prog_sc true false) (snd (hrun sem ops T C)) c =
  exec sem (fst (hrun sem ops T C)) (prog_sc true false) C0 c.
Proof.
  intros sem ops T C C0 Fo HC HC0 c Hc. unfold prog_sc. apply history_independent_front; auto; revert c Hc.
  - (* the front writes these fields *) apply incl_memn. reflexivity.
  - (* the tail does not *) apply disj_memn. reflexivity.
Qed.
Print Assumptions C09_history_independent_sc_partial.

(* PARTIAL (guard allkinds): runpp_3ph, every field it writes *)
Theorem C09_history_independent_pf3ph_partial : forall sem ops T C C0,
  Forall hop_ok ops -> C F_AUX = sem FN_CLEAN [] -> C0 F_AUX = sem FN_CLEAN [] ->
  forall c, In c (writes (prog_pf3ph true)) ->
  exec sem (fst (hrun sem ops T C)) (prog_pf3ph true) (snd (hrun sem ops T C)) c =
  exec sem (fst (hrun sem ops T C)) (prog_pf3ph true) C0 c.
Proof. intros sem ops T C C0. apply history_independent. reflexivity. Qed.
Print Assumptions C09_history_independent_pf3ph_partial.

(* PARTIAL (guard allkinds): estimate with a start vector that is not taken from previous results, all buses fused / with
   the bus-bus switch substitution (which begins with complete power flows) *)
Theorem C09_history_independent_estimate_partial : forall sem ops T C C0,
  Forall hop_ok ops -> C F_AUX = sem FN_CLEAN [] -> C0 F_AUX = sem FN_CLEAN [] ->
  (forall c, In c [F_OPTIONS; F_IS_ELEMENTS; F_SWITCH_INFO; F_LOOKUPS; F_LK_GEN; F_ISOLATED; F_PPC; F_RES_EST] ->
     exec sem (fst (hrun sem ops T C)) (prog_est true false) (snd (hrun sem ops T C)) c =
     exec sem (fst (hrun sem ops T C)) (prog_est true false) C0 c) /\
  (forall c, In c (writes (prog_est_bb true)) ->
     exec sem (fst (hrun sem ops T C)) (prog_est_bb true) (snd (hrun sem ops T C)) c =
     exec sem (fst (hrun sem ops T C)) (prog_est_bb true) C0 c).
Proof.
  (* neither program ends with the cleanup: both are fronts with an empty tail *)
  intros sem ops T C C0 Fo HC HC0. split; intros c Hc.
  - rewrite <- (app_nil_r (prog_est true false)). apply history_independent_front; auto.
    revert c Hc. apply incl_memn. reflexivity.
  - rewrite <- (app_nil_r (prog_est_bb true)). apply history_independent_front; auto.
Qed.
Print Assumptions C09_history_independent_estimate_partial.

(* the full statement (without the guard) is false of the model: a stale generator-type lookup is read *)
Theorem C09_stale_gen_lookup_refuted :
  exists sem T C1 C2, C1 F_AUX = C2 F_AUX /\
    exec sem T (prog_sc false false) C1 F_RES_SC <> exec sem T (prog_sc false false) C2 F_RES_SC /\
    exec sem T (prog_pf3ph false) C1 F_RES_3PH <> exec sem T (prog_pf3ph false) C2 F_RES_3PH /\
    exec sem T (prog_est false false) C1 F_RES_EST <> exec sem T (prog_est false false) C2 F_RES_EST.
Proof.
  exists sum_sem, (fun _ => 0%Z), (fun _ => 0%Z), (mark F_LK_GEN).
  split; [reflexivity|]. vm_compute. repeat split; discriminate.
Qed.
Print Assumptions C09_stale_gen_lookup_refuted.

(* the read-before-write sets of the short-circuit, three-phase and estimation programs (compared with the access log of the real code, lookups entry-wise) *)
Theorem C09_read_before_write_sets_sc_3ph_est :
  rbw (prog_sc true false) = [F_AUX; F_RES_OTHER] /\ rbw (prog_sc false false) = [F_AUX; F_LK_GEN; F_RES_OTHER] /\
  rbw (sc_front true false) = [F_AUX] /\
  rbw (prog_sc true true) = [F_OPTIONS; F_AUX; F_RES_BUS; F_RES_OTHER; F_RES_OTHER] /\
  rbw (prog_pf3ph true) = [F_AUX] /\ rbw (prog_pf3ph false) = [F_LK_GEN; F_AUX] /\
  rbw (prog_est true false) = [] /\ rbw (prog_est false false) = [F_LK_GEN] /\
  rbw (prog_est true true) = [F_RES_BUS; F_RES_BUS; F_RES_OTHER] /\
  rbw (prog_est_bb true) = [F_AUX] /\ rbw (prog_est_bb false) = [F_AUX; F_LK_GEN].
Proof. vm_compute. auto 20. Qed.
Print Assumptions C09_read_before_write_sets_sc_3ph_est.

(* FULL: start values at auxiliary buses (xward, trafo3w star point): every entry handed to the solver is a number for ALL
   previous result tables, and it is the internal voltage of the element where that exists, else the start of its bus *)
Theorem C09_start_vector_aux_defined : forall bs axs, aux_wf bs axs = true -> defined (start_vector_aux bs axs) = true.
Proof.
  intros bs axs W. unfold start_vector_aux, defined. rewrite forallb_app. apply andb_true_iff. split.
  - apply start_vector_defined.
  - unfold aux_wf in W. induction axs as [|a r IH]; cbn in *; [reflexivity|].
    apply andb_true_iff in W. destruct W as [W1 W2]. destruct (a_kept a); cbn; [|now apply IH].
    rewrite (IH W2), andb_true_r. apply Nat.ltb_lt in W1. apply nth_error_Some in W1.
    unfold aux_vm, aux_va. destruct (nth_error bs (a_bus a)) as [b|]; [|contradiction].
    unfold init_vm, init_va. now rewrite set_or_prev_num, !set_or_flat_num, orb_true_r.
Qed.
Print Assumptions C09_start_vector_aux_defined.

Theorem C09_aux_start_spec : forall bs a b, nth_error bs (a_bus a) = Some b -> a_set_vm a = None ->
  (forall v, a_prev_vm a = Some v -> aux_vm bs a = Some v) /\
  (a_prev_vm a = None -> aux_vm bs a = init_vm b) /\
  (forall v, a_prev_va a = Some v -> aux_va bs a = Some v) /\
  (a_prev_va a = None -> aux_va bs a = init_va b).
Proof.
  intros bs a b N S. unfold aux_vm, aux_va. rewrite N, S. repeat split; intros; try rewrite H; reflexivity.
Qed.
Print Assumptions C09_aux_start_spec.

Example C09_nonvacuous_aux :
  start_vector_aux feeder
    [ {| a_prev_vm := None; a_prev_va := None; a_bus := 2%nat; a_set_vm := None; a_kept := true |};
      {| a_prev_vm := Some (101 # 100); a_prev_va := Some (-3 # 2); a_bus := 1%nat; a_set_vm := Some (51 # 50); a_kept := true |};
      {| a_prev_vm := None; a_prev_va := None; a_bus := 0%nat; a_set_vm := None; a_kept := false |} ]
  = [(Some 1, Some 0); (Some (100000328 # 100000000), Some 0); (Some 1, Some 0); (Some 1, Some 0); (Some (51 # 50), Some (-3 # 2))].
Proof. exact nonvacuous_aux. Qed.
Print Assumptions C09_nonvacuous_aux.
