(* C13 — the controller loop returns converged controllers and fresh results, or raises (lemmas in C13/*.v) *)
From Coq Require Import ZArith QArith Qabs List Bool Sorted Permutation Lia Lqa.
From PPV Require Import Base.QN C13.Model C13.Proofs C13.Taps C13.Invariant C13.Vector C13.Simulation C13.Hunting.
Import ListNotations.
Open Scope Q_scope.

(* one level: the loop is left normally only on a state on which every controller of the level reported convergence, and
   that state is fresh: nothing ran in the level at all, or the last event before the final round of is_converged calls is a
   calculation whose output is the returned state (no control_step after the last calculation) *)
Theorem C13_level_exit_converged : forall St run max_iter cod (l : list (ctrl St)) s netc s' netc' rc' t,
  Forall (pure St) l ->
  run_level St run max_iter cod l s netc = (LDone true s' netc' rc', t) ->
  Forall (conv_at St s') l /\ fresh_exit St l (apply_all St c_reset l s) s' t.
Proof. exact level_exit_converged. Qed.
Print Assumptions C13_level_exit_converged.

(* after a level, check_final_convergence passes iff the level's loop ended with ctrl_converged and a converged calculation;
   a loop that ran out of iterations raises ControllerNotConverged; a calculation that was not converged on entry never passes *)
Theorem C13_exit_or_raise : forall St run max_iter cod (l : list (ctrl St)) s netc cc s' netc' rc' t,
  run_level St run max_iter cod l s netc = (LDone cc s' netc' rc', t) ->
  (check_final rc' max_iter netc' = Ok <-> cc = true /\ netc' = true) /\
  (cc = false -> netc = true -> check_final rc' max_iter netc' = ErrCtrl) /\
  (netc = false -> check_final rc' max_iter netc' <> Ok).
Proof. exact exit_or_raise. Qed.
Print Assumptions C13_exit_or_raise.

(* the loop makes at most [fuel] calculations; run_level starts it at 0 with fuel = passes_allowed max_iter *)
Theorem C13_run_count_bound : forall St run fuel cod (l : list (ctrl St)) s netc rc cc s' netc' rc' t,
  level_loop St run fuel cod l s netc rc = (LDone cc s' netc' rc', t) -> (rc' <= rc + fuel)%nat.
Proof. intros St run fuel cod l s netc rc cc s' netc' rc' t H. apply level_loop_rc in H. destruct cc; lia. Qed.
Print Assumptions C13_run_count_bound.

(* G13 (at most one non-empty level), check_each_level = True: normal return => every controller converged on the returned state *)
Theorem C13_all_converged_on_return_partial : forall St run max_iter cod (ls : list (list (ctrl St))) s netc rc s' t,
  G13 ls = true -> Forall (Forall (pure St)) ls ->
  levels_loop St run max_iter cod true ls s netc rc = (Ok, s', t) ->
  Forall (conv_at St s') (List.concat ls).
Proof. exact single_level_all_converged. Qed.
Print Assumptions C13_all_converged_on_return_partial.

(* any schedule, any check_each_level: the controllers of the last level converged on the returned state *)
Theorem C13_last_level_converged : forall St run max_iter cod cel (ls : list (list (ctrl St))) l s netc rc s' t,
  Forall (pure St) l ->
  levels_loop St run max_iter cod cel (ls ++ [l]) s netc rc = (Ok, s', t) ->
  Forall (conv_at St s') l.
Proof.
  intros St run max_iter cod cel ls. induction ls as [|l0 ls IH]; intros l s netc rc s' t Hp H;
    destruct (levels_loop_cons_ok St run _ _ _ _ _ _ _ _ _ _ H) as (cc & s1 & netc1 & rc1 & t1 & t2 & E & _ & L).
  - (* the check after the last level is made whatever check_each_level is *)
    cbn in L. inversion L as [[Hc Hs Ht]]. subst s1. exact (checked_level_converged St run _ _ _ _ _ _ _ _ _ _ Hp E Hc).
  - exact (IH _ _ _ _ _ _ Hp L).
Qed.
Print Assumptions C13_last_level_converged.

(* the full statement is false of the faithful model: two levels, every is_converged pure, normal return, and an in-service
   controller of the lower level reports not converged on the returned state (the reproduced run of the real code) *)
Theorem C13_all_converged_on_return_refuted :
  exists (cs : list entry) (s s' : cst) t,
    run_net 30 false true cs s = Some (Ok, s', t) /\
    (forall e, In e cs -> forall x, snd (c_conv (to_ctrl e) x) = x) /\
    exists e, In e cs /\ e_ins e = true /\ fst (c_conv (to_ctrl e) s') = false.
Proof.
  destruct (unconverged_on_return_spec 30 true w_cs w_state e0) as (s' & t & R & C); [vm_compute; reflexivity|].
  exists w_cs, w_state, s', t. split; [exact R|]. split.
  - intros e [<-|[<-|[]]] x; reflexivity.
  - exists e0. split; [left; reflexivity|]. split; [reflexivity | exact C].
Qed.
Print Assumptions C13_all_converged_on_return_refuted.

Theorem C13_check_each_level_off_refuted :
  exists (cs : list entry) (s s' : cst) t,
    run_net 0 false false cs s = Some (Ok, s', t) /\
    exists e, In e cs /\ e_ins e = true /\ fst (c_conv (to_ctrl e) s') = false.
Proof.
  destruct (unconverged_on_return_spec 0 false w2_cs w2_state e0) as (s' & t & R & C); [vm_compute; reflexivity|].
  exists w2_cs, w2_state, s', t. split; [exact R|].
  exists e0. split; [left; reflexivity|]. split; [reflexivity | exact C].
Qed.
Print Assumptions C13_check_each_level_off_refuted.

(* every modelled controller kind (discrete / continuous tap, const, characteristic) has an is_converged that leaves the
   state alone, so C13_level_exit_converged (results fresh on exit) applies to all of them *)
Theorem C13_is_converged_pure : forall c k s, snd (c_conv (mk_ctrl c k) s) = s.
Proof. exact mk_ctrl_pure. Qed.
Print Assumptions C13_is_converged_pure.

(* before "fix: CharacteristicControl writes its set values in control_step, not in is_converged" freshness failed: single
   level, normal return, the value in the element table differed from the one the last calculation saw (regression witness) *)
Theorem C13_fresh_results_old_refuted :
  exists (cs : list entry) (s s' : cst) t,
    G13 (match ctrl_variables _ cs with Some (co, _) => co | None => [] end) = true /\
    run_net_old 30 false true cs s = Some (Ok, s', t) /\
    exists v, last_run_vars t = Some v /\ feq_opt (get 7 v) (get 7 (vars s')) = false.
Proof.
  assert (H : stale_on_return (run_net_old 30 false true w3_cs w3_state) 7 = true) by reflexivity.
  apply stale_on_return_spec in H. destruct H as (s' & t & H).
  exists w3_cs, w3_state, s', t. split; [reflexivity | exact H].
Qed.
Print Assumptions C13_fresh_results_old_refuted.

(* invariants: a predicate kept by every controller method and by the calculation holds for every state of the call trace
   and for the returned state (used for the tap bounds over whole runs) *)
Theorem C13_invariant_over_runs : forall St run (P : St -> Prop),
  (forall s, P s -> P (fst (run s))) ->
  forall max_iter cod cel ir (ls : list (list (ctrl St))) s o s' t,
  Forall (Forall (keeps St P)) ls -> P s ->
  run_control St run max_iter cod cel ir ls s = (o, s', t) -> trace_ok St P t /\ P s'.
Proof. exact run_control_keeps. Qed.
Print Assumptions C13_invariant_over_runs.

(* "tap controllers never move a tap outside [tap_min, tap_max]" over whole runs, ELEMENT-WISE for controllers over index
   arrays (Pinv / WF range over every element of every scalar or vector tap controller, hunting_limit and
   TapDependentImpedance restore included): for every controller table whose kinds are
   well-formed (continuous controllers check the bounds with tap_min <= tap_max; the controllers of one transformer read the
   same limits; characteristic controllers do not write a controlled tap_pos), every power-flow oracle, levels, orders,
   max_iter and flags: taps that start inside their bounds are inside them in every state of the call trace and on return
   (also when an error is raised) *)
Theorem C13_taps_in_bounds_over_runs : forall max_iter cod cel (cs : list entry) s o s' t,
  WF (map (fun e => snd (e_obj e)) cs) ->
  Pinv (map (fun e => snd (e_obj e)) cs) s ->
  run_net max_iter cod cel cs s = Some (o, s', t) ->
  trace_ok cst (Pinv (map (fun e => snd (e_obj e)) cs)) t /\ Pinv (map (fun e => snd (e_obj e)) cs) s'.
Proof.
  intros max_iter cod cel cs s o s' t W HP. unfold run_net. destruct (ctrl_variables _ cs) as [[co ir]|] eqn:E; [|discriminate].
  intros H. inversion H as [H1]. clear H.
  eapply (run_control_keeps cst run_stream (Pinv (map (fun e => snd (e_obj e)) cs))); [| | exact HP | exact H1].
  - intros x Hx. apply run_stream_keeps. exact Hx.
  - apply Forall_forall. intros l Hl. apply in_map_iff in Hl. destruct Hl as (l0 & <- & Hl0).
    apply Forall_forall. intros c Hc. apply in_map_iff in Hc. destruct Hc as (e & <- & He).
    unfold to_ctrl. apply keeps_ctrl; [exact W|].
    apply in_map_iff. exists e. split; [reflexivity|]. exact (ctrl_variables_members cs co ir E l0 e Hl0 He).
Qed.
Print Assumptions C13_taps_in_bounds_over_runs.

Theorem C13_discrete_converged_iff : forall t lo up s,
  disc_conv t lo up s = true <->
  t_ntd t = true \/ disc_ok t lo up (get (t_bus t) (res s)) (get (t_trafo t) (vars s)).
Proof. exact disc_converged_iff. Qed.
Print Assumptions C13_discrete_converged_iff.

Theorem C13_continuous_converged_iff : forall t k s,
  cont_conv t k s = true <->
  t_ntd t = true \/ cont_ok t k (get (t_bus t) (res s)) (get (t_trafo t) (vars s)).
Proof. exact cont_converged_iff. Qed.
Print Assumptions C13_continuous_converged_iff.

(* a discrete step from ANY position inside the bounds stays inside [tap_min, tap_max] *)
Theorem C13_discrete_tap_in_bounds : forall t lo up vm x,
  t_min t <= x <= t_max t -> t_min t <= disc_new_tap t lo up vm x <= t_max t.
Proof. exact disc_new_tap_in_bounds. Qed.
Print Assumptions C13_discrete_tap_in_bounds.

(* and from an integral position it is the plain +-1 step *)
Theorem C13_discrete_step_is_unit_step : forall t lo up vm x,
  integral x -> integral (t_min t) -> integral (t_max t) -> t_min t <= x <= t_max t ->
  disc_new_tap t lo up vm x == x + disc_incr t lo up vm (Some x).
Proof.
  intros t lo up vm x Ix Imin Imax Hb. destruct (disc_incr_in_bounds t lo up vm x Ix Imin Imax Hb) as [[B1 B2] _].
  unfold disc_new_tap. set (i := disc_incr t lo up vm (Some x)) in *.
  destruct (qltb 0 i) eqn:E1.
  - destruct (qmin_cases (qadd x i) (t_max t)) as [[A ->]|[A ->]]; qnorm; [lra | reflexivity].
  - destruct (qltb i 0) eqn:E2.
    + destruct (qmax_cases (qadd x i) (t_min t)) as [[A ->]|[A ->]]; qnorm; [lra | reflexivity].
    + qnorm. reflexivity.
Qed.
Print Assumptions C13_discrete_step_is_unit_step.

(* the rule before "fix: DiscreteTapControl does not step past tap_min / tap_max from a fractional tap position"
   (tap_pos += increment) kept the bounds only for integral tap data; regression witness at 3/2 with tap_max 2 *)
Theorem C13_discrete_tap_in_bounds_old_partial : forall t lo up vm x,
  integral x -> integral (t_min t) -> integral (t_max t) ->
  t_min t <= x <= t_max t ->
  t_min t <= x + disc_incr t lo up vm (Some x) <= t_max t /\ integral (x + disc_incr t lo up vm (Some x)).
Proof. exact disc_incr_in_bounds. Qed.
Print Assumptions C13_discrete_tap_in_bounds_old_partial.

Theorem C13_discrete_tap_in_bounds_old_refuted :
  exists t lo up vm x, t_min t <= x <= t_max t /\ ~ (x + disc_incr t lo up vm (Some x) <= t_max t).
Proof.
  exists {| t_trafo := 0; t_bus := 0; t_min := -(2); t_max := 2; t_dir := false; t_ntd := false |},
         (98#100), (102#100), (Some (9#10)), (3#2).
  split; [split; vm_compute; discriminate|]. vm_compute. intros H. apply H. reflexivity.
Qed.
Print Assumptions C13_discrete_tap_in_bounds_old_refuted.

Theorem C13_continuous_tap_in_bounds_partial : forall t k vm tap,
  k_check k = true -> t_min t <= t_max t ->
  t_min t <= cont_new_tap t k vm tap <= t_max t.
Proof. exact cont_new_tap_in_bounds. Qed.
Print Assumptions C13_continuous_tap_in_bounds_partial.

Theorem C13_continuous_tap_in_bounds_refuted :
  exists t k vm tap, k_check k = false /\ t_min t <= tap <= t_max t /\ ~ (cont_new_tap t k vm tap <= t_max t).
Proof.
  exists {| t_trafo := 0; t_bus := 0; t_min := -(2); t_max := 2; t_dir := true; t_ntd := false |},
         {| k_vset := 1; k_tol := 1#1000; k_step := 25#10; k_tnom := 1; k_check := false |}, (11#10), 0.
  split; [reflexivity|]. split; [split; vm_compute; discriminate|]. vm_compute. intros H. apply H. reflexivity.
Qed.
Print Assumptions C13_continuous_tap_in_bounds_refuted.

(* a discrete controller that is not converged moves one step in the needed direction (voltage not exactly on a band edge) *)
Theorem C13_discrete_progress : forall t lo up s v x,
  t_ntd t = false ->
  get (t_bus t) (res s) = Some v -> get (t_trafo t) (vars s) = Some x ->
  t_min t <= x <= t_max t -> ~ v == lo -> ~ v == up -> lo <= up ->
  disc_conv t lo up s = false ->
  (v < lo /\ disc_incr t lo up (Some v) (Some x) == (if needs_lower_tap t true then -(1) else 1)) \/
  (up < v /\ disc_incr t lo up (Some v) (Some x) == (if needs_lower_tap t false then -(1) else 1)).
Proof. exact disc_not_converged_moves. Qed.
Print Assumptions C13_discrete_progress.

Theorem C13_levels_ascending : forall A (cs : list (centry A)) ll co,
  controller_order A cs = Some (ll, co) ->
  StronglySorted Qlt ll /\ co = map (level_members A cs) ll /\
  (forall lv, In lv (List.concat (map (fun c : centry A => match e_levels c with Some l => l | None => [] end) cs)) ->
              exists lv', In lv' ll /\ lv' == lv).
Proof.
  intros A cs ll co. unfold controller_order. destruct (existsb _ cs); [discriminate|]. intros H. inversion H. subst.
  split; [apply level_list_sorted|]. split; [reflexivity|].
  unfold level_list.
  induction (List.concat (map (fun c : centry A => match e_levels c with Some l => l | None => [] end) cs)) as [|x l IH];
    cbn [fold_right]; intros lv Hin; [destruct Hin|].
  destruct Hin as [<-|Hin]; [apply ins_q_covers; left; reflexivity|].
  destruct (IH lv Hin) as (lv' & I1 & I2). destruct (ins_q_covers x _ lv' (or_intror I1)) as (w & W1 & W2).
  exists w. split; [exact W1 | rewrite W2; exact I2].
Qed.
Print Assumptions C13_levels_ascending.

Theorem C13_order_within_level : forall A (cs : list (centry A)) lv,
  StronglySorted (ord_le A) (level_members A cs lv) /\
  Permutation (level_members A cs lv) (filter (in_level A lv) cs).
Proof. intros A cs lv. unfold level_members. split; [apply sort_c_sorted | apply sort_c_perm]. Qed.
Print Assumptions C13_order_within_level.

(* non-vacuity of the whole-run invariant: the reproduced two-level run satisfies WF and starts inside the bounds *)
Example C13_invariant_nonvacuous :
  WF (map (fun e : entry => snd (e_obj e)) w_cs) /\ Pinv (map (fun e : entry => snd (e_obj e)) w_cs) w_state.
Proof.
  split.
  - split; [|split].
    + intros k t p [<-|[<-|[]]] [].
    + intros k1 k2 t1 t2 [<-|[<-|[]]] [<-|[<-|[]]] [<-|[]] [<-|[]] E; try discriminate; split; reflexivity.
    + intros k t k' out _ _ [<-|[<-|[]]] [].
  - intros k t [<-|[<-|[]]] [<-|[]]; cbn; split; discriminate.
Qed.

(* non-vacuity: the hypotheses of the partial theorems are satisfiable by the reproduced single-level run *)
Example C13_nonvacuous :
  exists s' t, run_net 30 false true [e0] w_state = Some (Ok, s', t) /\ (List.length t > 3)%nat.
Proof. vm_compute. eexists. eexists. split; [reflexivity|]. repeat constructor. Qed.

(* controllers over index arrays (one DiscreteTapControl / ContinuousTapControl / CharacteristicControl over several
   elements): is_converged is np.all over the elements *)

(* converged iff nothing_to_do or EVERY element is in its band / at the limit in the needed direction / without voltage *)
Theorem C13_discrete_vector_converged_iff : forall ts ntd lo up s,
  discv_conv ts ntd lo up s = true <->
  ntd = true \/ Forall (fun t => disc_ok t lo up (get (t_bus t) (res s)) (get (t_trafo t) (vars s))) ts.
Proof. exact discv_converged_iff. Qed.
Print Assumptions C13_discrete_vector_converged_iff.

Theorem C13_continuous_vector_converged_iff : forall tks ntd s,
  contv_conv tks ntd s = true <->
  ntd = true \/ Forall (fun tk => cont_ok (fst tk) (snd tk) (get (t_bus (fst tk)) (res s)) (get (t_trafo (fst tk)) (vars s))) tks.
Proof. exact contv_converged_iff. Qed.
Print Assumptions C13_continuous_vector_converged_iff.

(* characteristic controller over several elements (TapDependentImpedance included): converged iff applied and EVERY output
   is within tol of the characteristic of its input *)
Theorem C13_characteristic_vector_converged_iff : forall c in_res ios pts tol s,
  fst (charv_conv c in_res ios pts tol s) = true <->
  getb c (applied s) = true /\ Forall (charv_elem_ok in_res pts tol s) ios.
Proof. exact charv_converged_iff. Qed.
Print Assumptions C13_characteristic_vector_converged_iff.

(* the vector step is the scalar rule applied element-wise to the state before the step (distinct transformers), it
   leaves every other slot alone, and each written value is inside the bounds of its own element *)
Theorem C13_discrete_vector_step_elementwise : forall c ts lo up hl s t,
  NoDup (map t_trafo ts) -> In t ts ->
  get (t_trafo t) (vars (discv_step c ts false lo up hl s)) = disc_new_F lo up s t.
Proof.
  intros c ts lo up hl s t ND Ht. unfold discv_step. cbn [vars with_vars with_attrs].
  exact (get_write_all_in tapc t_trafo (disc_new_F lo up s) ts ND t Ht (vars s)).
Qed.
Print Assumptions C13_discrete_vector_step_elementwise.

Theorem C13_discrete_vector_step_frame : forall c ts ntd lo up hl s k,
  ~ In k (map t_trafo ts) -> get k (vars (discv_step c ts ntd lo up hl s)) = get k (vars s).
Proof.
  intros c ts ntd lo up hl s k H. unfold discv_step. destruct ntd; [reflexivity|]. cbn [vars with_vars with_attrs].
  apply get_write_all_notin. rewrite map_map. cbn [fst]. exact H.
Qed.
Print Assumptions C13_discrete_vector_step_frame.

Theorem C13_discrete_vector_tap_in_bounds : forall lo up s t,
  in_bounds t (get (t_trafo t) (vars s)) -> in_bounds t (disc_new_F lo up s t).
Proof. exact disc_new_F_in_bounds. Qed.
Print Assumptions C13_discrete_vector_tap_in_bounds.

Theorem C13_continuous_vector_tap_in_bounds_partial : forall s t p,
  k_check p = true -> t_min t <= t_max t -> in_bounds t (cont_new_F s (t, p)).
Proof. exact cont_new_F_in_bounds. Qed.
Print Assumptions C13_continuous_vector_tap_in_bounds_partial.

(* progress: a vector controller that is not converged has a non-converged element, and the step moves that element one tap
   in the needed direction (voltage not exactly on a band edge, tap inside its bounds) *)
Theorem C13_discrete_vector_progress : forall ts lo up s,
  lo <= up -> discv_conv ts false lo up s = false ->
  exists t, In t ts /\ disc_conv (elem t) lo up s = false /\
    forall v x, get (t_bus t) (res s) = Some v -> get (t_trafo t) (vars s) = Some x ->
      t_min t <= x <= t_max t -> ~ v == lo -> ~ v == up ->
      (v < lo /\ disc_incr t lo up (Some v) (Some x) == (if needs_lower_tap t true then -(1) else 1)) \/
      (up < v /\ disc_incr t lo up (Some v) (Some x) == (if needs_lower_tap t false then -(1) else 1)).
Proof.
  intros ts lo up s Hlu H. unfold discv_conv in H. apply forallb_false_ex in H. destruct H as (t & Ht & Hc).
  exists t. split; [exact Ht|]. split; [exact Hc|].
  intros v x Hv Hx Hb N1 N2.
  exact (disc_not_converged_moves (elem t) lo up s v x eq_refl Hv Hx Hb N1 N2 Hlu Hc).
Qed.
Print Assumptions C13_discrete_vector_progress.

(* hunting_limit (DiscreteTapControl.control_step :118-120): the window _hunting_taps after a step is a suffix of
   (old rows ++ [written taps]) with at most one row dropped, its last row is the written tap vector, and it never grows
   beyond max(hunting_limit, 1) rows *)
Theorem C13_hunting_window : forall hl rows row,
  (exists dropped, dropped ++ hunt_push hl rows row = rows ++ [row] /\ (List.length dropped <= 1)%nat) /\
  (rows <> [] -> last (hunt_push hl rows row) [] = row) /\
  (forall n, hl = Some n -> (List.length rows <= Nat.max n 1)%nat -> (List.length (hunt_push hl rows row) <= Nat.max n 1)%nat).
Proof.
  intros hl rows row. split; [exact (hunt_push_suffix hl rows row)|]. split; [exact (hunt_push_last hl rows row [])|].
  intros n ->. exact (hunt_push_bounded n rows row).
Qed.
Print Assumptions C13_hunting_window.

(* the verdict and the written taps of a discrete controller do not depend on hunting_limit nor on the recorded window *)
Theorem C13_hunting_limit_inert : forall c ts ntd lo up hl hl' s a,
  fst (c_conv (mk_ctrl c (KDiscV ts ntd lo up hl)) (with_attrs s a)) = fst (c_conv (mk_ctrl c (KDiscV ts ntd lo up hl')) s) /\
  vars (c_step (mk_ctrl c (KDiscV ts ntd lo up hl)) (with_attrs s a)) = vars (c_step (mk_ctrl c (KDiscV ts ntd lo up hl')) s).
Proof.
  intros. split; [reflexivity|]. cbn [mk_ctrl c_step]. unfold discv_step. destruct ntd; reflexivity.
Qed.
Print Assumptions C13_hunting_limit_inert.

(* hunting_limit can turn a non-converged controller into a converged one only at a reversal count >= the limit; of the
   code as it is this holds because it NEVER does: a reported convergence always means that every element satisfies the
   band / limit criterion (second conjunct), for every hunting_limit, window and reversal count *)
Theorem C13_hunting_limit_only_at_limit : forall c ts lo up n s col,
  fst (c_conv (mk_ctrl c (KDiscV ts false lo up (Some n))) s) = true ->
  (~ discv_ok ts lo up s -> (n <= reversals (deltas col))%nat) /\ discv_ok ts lo up s.
Proof.
  intros c ts lo up n s col H. pose proof (hunting_never_forces_convergence c ts lo up (Some n) s H) as Hok.
  split; [intros N; contradiction (N Hok) | exact Hok].
Qed.
Print Assumptions C13_hunting_limit_only_at_limit.

(* and it does not stop hunting either: limit 2, four reversals recorded, the controller is still not converged and steps again *)
Theorem C13_hunting_not_stopped :
  let k := KDiscV [th] false (99#100) (101#100) (Some 2%nat) in
  let s := hunt_state (985#1000) 0 in
  fst (c_conv (mk_ctrl 0 k) s) = false /\
  get 3 (vars (c_step (mk_ctrl 0 k) s)) = Some (-(1)) /\
  (reversals (deltas osc_col) >= 2)%nat.
Proof. vm_compute. split; [reflexivity|]. split; [reflexivity|]. lia. Qed.
Print Assumptions C13_hunting_not_stopped.

(* G13r (no TapDependentImpedance with restore): the state returned by run_control is the state the levels loop ended with *)
Theorem C13_return_state_is_loop_state_partial : forall max_iter cod cel (cs : list entry) s s' t,
  G13r cs = true -> run_net max_iter cod cel cs s = Some (Ok, s', t) ->
  exists co ir s0 netc t0 t1,
    ctrl_variables _ cs = Some (co, ir) /\
    levels_loop cst run_stream max_iter cod cel (map (map to_ctrl) co) s0 netc 0 = (Ok, s', t1) /\ t = t0 ++ t1.
Proof. exact return_state_is_loop_state. Qed.
Print Assumptions C13_return_state_is_loop_state_partial.

(* with a restoring TapDependentImpedance the returned element table differs from what the last calculation has seen *)
Theorem C13_return_state_is_loop_state_refuted :
  exists (cs : list entry) (s s' : cst) t,
    G13 (match ctrl_variables _ cs with Some (co, _) => co | None => [] end) = true /\
    run_net 30 false true cs s = Some (Ok, s', t) /\
    exists v, last_run_vars t = Some v /\ feq_opt (get 3001 v) (get 3001 (vars s')) = false.
Proof.
  (* slot 3001 is a unary numeral: the test is asserted first, so that no goal holding it is abstracted by destruct *)
  assert (H : stale_on_return (run_net 30 false true w4_cs w4_state) 3001 = true) by reflexivity.
  apply stale_on_return_spec in H. destruct H as (s' & t & H).
  exists w4_cs, w4_state, s', t. split; [reflexivity | exact H].
Qed.
Print Assumptions C13_return_state_is_loop_state_refuted.

(* G13 (one non-empty level), G13r, check_each_level: on a normal return EVERY element of every scheduled vector controller
   satisfies its criterion on the returned state - whatever hunting_limit is *)
Theorem C13_vector_elements_ok_on_return_partial : forall max_iter cod (cs : list entry) s s' t co ir,
  G13r cs = true -> ctrl_variables _ cs = Some (co, ir) -> G13 co = true ->
  run_net max_iter cod true cs s = Some (Ok, s', t) ->
  forall e c, In e (List.concat co) ->
    (forall ts lo up hl, e_obj e = (c, KDiscV ts false lo up hl) -> discv_ok ts lo up s') /\
    (forall tks, e_obj e = (c, KContV tks false) -> contv_ok tks s') /\
    (forall in_res ios pts tol tdi, e_obj e = (c, KCharV in_res ios pts tol tdi) -> Forall (charv_elem_ok in_res pts tol s') ios).
Proof.
  intros max_iter cod cs s s' t co ir Gr E G H e c He.
  pose proof (all_converged_on_returned_state max_iter cod cs s s' t co ir Gr E G H e He) as X.
  unfold to_ctrl in X. split; [|split].
  - intros ts lo up hl Eo. rewrite Eo in X. cbn [fst snd] in X. exact (hunting_never_forces_convergence c ts lo up hl s' X).
  - intros tks Eo. rewrite Eo in X. cbn [fst snd mk_ctrl c_conv] in X. apply contv_converged_iff in X.
    destruct X as [X|X]; [discriminate X | exact X].
  - intros in_res ios pts tol tdi Eo. rewrite Eo in X. cbn [fst snd mk_ctrl c_conv] in X.
    apply charv_converged_iff in X. exact (proj2 X).
Qed.
Print Assumptions C13_vector_elements_ok_on_return_partial.

(* non-vacuity: a two-element discrete controller with hunting_limit 2 steps one element and returns normally *)
Example C13_vector_nonvacuous :
  exists co ir s' t,
    G13r w5_cs = true /\ ctrl_variables _ w5_cs = Some (co, ir) /\ G13 co = true /\
    run_net 30 false true w5_cs w5_state = Some (Ok, s', t) /\ In (mk 0 (KDiscV [tv1; tv2] false (99#100) (101#100) (Some 2%nat)) 0) (List.concat co) /\
    (List.length t > 3)%nat.
Proof.
  vm_compute. do 4 eexists. split; [reflexivity|]. split; [reflexivity|]. split; [reflexivity|]. split; [reflexivity|].
  split; [left; reflexivity|]. repeat constructor.
Qed.

(* two controller sets whose methods respect a relation R on states and give equal verdicts on related
   states (and a calculation that respects R) run through the same loop: same outcome, related returned states, call
   traces related event by event *)
Theorem C13_loop_simulation : forall St run (R : St -> St -> Prop),
  (forall s1 s2, R s1 s2 -> R (fst (run s1)) (fst (run s2)) /\ snd (run s1) = snd (run s2)) ->
  forall max_iter cod cel ir ls1 ls2 s1 s2,
  Forall2 (Forall2 (sim_ctrl St R)) ls1 ls2 -> R s1 s2 ->
  fst (fst (run_control St run max_iter cod cel ir ls1 s1)) = fst (fst (run_control St run max_iter cod cel ir ls2 s2)) /\
  R (snd (fst (run_control St run max_iter cod cel ir ls1 s1))) (snd (fst (run_control St run max_iter cod cel ir ls2 s2))) /\
  Forall2 (ev_rel St R) (snd (run_control St run max_iter cod cel ir ls1 s1)) (snd (run_control St run max_iter cod cel ir ls2 s2)).
Proof. exact run_control_sim. Qed.
Print Assumptions C13_loop_simulation.

(* hunting_limit over whole runs: replace the hunting_limit of every DiscreteTapControl by an arbitrary per-controller value
   f: for every controller table (controller ids of discrete controllers and restoring TapDependentImpedance controllers
   distinct), every oracle, levels, orders, flags and max_iter the outcome is the same, the returned states agree on all
   element values, results and flags (they differ at most in the _hunting_taps matrices), and the call traces agree event by
   event (same controller, same verdict, same element values) *)
Theorem C13_hunting_limit_irrelevant_over_runs : forall (f : nat -> option nat) max_iter cod cel (cs : list entry) s,
  roles_ok cs ->
  match run_net max_iter cod cel cs s, run_net max_iter cod cel (map (set_hl f) cs) s with
  | Some (o1, s1, t1), Some (o2, s2, t2) =>
      o1 = o2 /\ same_but_attrs cs s1 s2 /\ Forall2 (ev_rel cst (Rh (hids cs))) t1 t2
  | None, None => True
  | _, _ => False
  end.
Proof.
  intros f max_iter cod cel cs s RO. unfold run_net.
  rewrite (ctrl_variables_map _ _ (set_hl f)) by (intros e; reflexivity).
  destruct (ctrl_variables (nat * kind) cs) as [[co ir]|] eqn:E; [|exact I].
  set (L2 := map _ (map _ co)). set (L1 := map (map to_ctrl) co).
  pose proof (run_control_sim cst run_stream (Rh (hids cs)) (run_stream_sim (hids cs)) max_iter cod cel ir L1 L2 s s) as X.
  destruct (run_control cst run_stream max_iter cod cel ir L1 s) as [[o1 s1] t1].
  destruct (run_control cst run_stream max_iter cod cel ir L2 s) as [[o2 s2] t2].
  cbn [fst snd] in X. apply X.
  - (* the schedules are related controller by controller *)
    subst L1 L2. rewrite map_map.
    assert (M : forall l, (forall e, In e l -> In e cs) -> Forall2 (sim_ctrl cst (Rh (hids cs))) (map to_ctrl l) (map (fun e => to_ctrl (set_hl f e)) l)).
    { induction l as [|e l IH]; intros Hin; cbn [map]; constructor.
      - unfold to_ctrl, set_hl. cbn [e_obj fst snd]. apply sim_mk.
        + intros D. unfold hids. apply in_map_iff. exists e. split; [reflexivity|]. apply filter_In. split; [apply Hin; left; reflexivity | exact D].
        + intros T. apply RO; [apply Hin; left; reflexivity | exact T].
      - apply IH. intros e' He'. apply Hin. right. exact He'. }
    assert (Mem : forall l, In l co -> forall e, In e l -> In e cs) by (intros l Hl e He; exact (ctrl_variables_members cs co ir E l e Hl He)).
    clear E X. induction co as [|l co IH]; cbn [map]; constructor.
    + rewrite map_map. apply M. intros e He. exact (Mem l (or_introl eq_refl) e He).
    + apply IH. intros l' Hl'. apply Mem. right. exact Hl'.
  - unfold Rh. repeat split; reflexivity.
Qed.
Print Assumptions C13_hunting_limit_irrelevant_over_runs.

Example C13_hunting_irrelevant_nonvacuous :
  roles_ok w5_cs /\ map (set_hl (fun _ => None)) w5_cs <> w5_cs /\ hids w5_cs = [0%nat].
Proof.
  split; [|split; [|reflexivity]].
  - intros e [<-|[]] X. discriminate X.
  - intros X. inversion X.
Qed.
