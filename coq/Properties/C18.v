(* C18 — property theorems; the chain, its elimination and the named identities are in C18/*.v *)
From Coq Require Import ZArith QArith List Bool Reals Lqa.
From PPV Require Import Base.QN Base.QC C18.Model C18.Proofs C18.ChainModel C18.Chain C18.Kappa C18.Zbus.
From mathcomp Require Import ssreflect ssrbool ssrnat eqtype fintype ssralg matrix.

Section OverQ.
Local Open Scope Q_scope.

(* ikss = c Un / (sqrt3 |Zk|) with Zk = rk + j xk in ohm as reported; s3 = sqrt 3, zabs = |R_EQUIV + j X_EQUIV| *)
Theorem C18_ikss_formula : forall c zabs vn sn s3,
  0 < zabs -> 0 < vn -> 0 < sn -> 0 < s3 ->
  ikss_3ph c zabs vn sn s3 * (s3 * to_ohm zabs vn sn) == c * vn.
Proof. exact ikss_formula. Qed.
Print Assumptions C18_ikss_formula.

(* the same free of square roots: 3 ikss^2 (rk_ohm^2 + xk_ohm^2) = c^2 Un^2 *)
Theorem C18_ikss_formula_sq : forall c zr zx zabs vn sn s3,
  0 < zabs -> 0 < vn -> 0 < sn -> 0 < s3 -> s3 * s3 == 3 -> zabs * zabs == zr * zr + zx * zx ->
  3 * (ikss_3ph c zabs vn sn s3 * ikss_3ph c zabs vn sn s3)
    * (to_ohm zr vn sn * to_ohm zr vn sn + to_ohm zx vn sn * to_ohm zx vn sn) == c * c * (vn * vn).
Proof.
  intros c zr zx zabs vn sn s3 Hz Hv Hs H3 E3 Ez. rewrite <- (ohm_abs zr zx zabs vn sn Ez).
  transitivity ((c * vn) * (c * vn)); [|ring].
  rewrite <- (ikss_formula c zabs vn sn s3 Hz Hv Hs H3), <- E3. ring.
Qed.
Print Assumptions C18_ikss_formula_sq.

Theorem C18_skss_formula_sq : forall ikss vn s3, s3 * s3 == 3 ->
  skss_3ph ikss vn s3 * skss_3ph ikss vn s3 == 3 * (vn * vn) * (ikss * ikss).
Proof. intros ikss vn s3 E. rewrite -> skss_formula, <- E. ring. Qed.
Print Assumptions C18_skss_formula_sq.

(* the 2ph current is sqrt3/2 of the 3ph current: 4 ikss2ph^2 = 3 ikss3ph^2 *)
Theorem C18_two_ph_ratio_sq : forall c zabs vn sn s3,
  0 < zabs -> 0 < vn -> 0 < sn -> 0 < s3 -> s3 * s3 == 3 ->
  4 * (ikss_2ph c zabs vn sn * ikss_2ph c zabs vn sn) == 3 * (ikss_3ph c zabs vn sn s3 * ikss_3ph c zabs vn sn s3).
Proof.
  intros c zabs vn sn s3 Hz Hv Hs H3 E. rewrite -> (two_ph_ratio c zabs vn sn s3 Hz Hv Hs H3 E), <- E. field.
Qed.
Print Assumptions C18_two_ph_ratio_sq.

(* ip = kappa sqrt2 ikss without current sources: ip^2 = 2 kappa^2 ikss^2 *)
Theorem C18_ip_formula_sq : forall s2 kappa ikss, s2 * s2 == 2 ->
  ip_of s2 kappa ikss 0 * ip_of s2 kappa ikss 0 == 2 * (kappa * kappa) * (ikss * ikss).
Proof. intros s2 kappa ikss E. rewrite -> ip_formula, <- E. ring. Qed.
Print Assumptions C18_ip_formula_sq.

(* kappa in [1.02, 2] for every exponential value in [0,1] — plain formula and method B (correction >= 1, clip) *)
Theorem C18_kappa_range_q : forall e, 0 <= e -> e <= 1 -> (102 # 100) <= kappa_of e /\ kappa_of e <= 2.
Proof. intros e H0 H1. unfold kappa_of. qstrip. split; lra. Qed.
Print Assumptions C18_kappa_range_q.
Theorem C18_kappa_b_range : forall korr e vn, 0 <= e -> e <= 1 -> 1 <= korr ->
  (102 # 100) <= kappa_b korr e vn /\ kappa_b korr e vn <= 2.
Proof.
  intros korr e vn H0 H1 Hk. destruct (C18_kappa_range_q e H0 H1) as [Ka Kb].
  unfold kappa_b, clip.
  set (k := kappa_of e) in *.
  pose proof (qmul_correct korr k) as Hp. set (p := qmul korr k) in *.
  assert (Hkk : (102 # 100) <= p) by (rewrite Hp; nra).
  set (hi := if qltb vn 1 then 18 # 10 else 2).
  assert (Hhi : (102 # 100) <= hi /\ hi <= 2) by (unfold hi; destruct (qltb vn 1); split; lra).
  pose proof (qmax_spec p 1) as Hmx. pose proof (qmin_spec (qmax p 1) hi) as Hmn.
  set (mx := qmax p 1) in *. set (mn := qmin mx hi) in *.
  destruct Hmx as [[E1 L1]|[E1 L1]]; destruct Hmn as [[E2 L2]|[E2 L2]]; split; lra.
Qed.
Print Assumptions C18_kappa_b_range.

(* results do not depend on net.sn_mva: equal ohmic Thevenin impedance, any two bases, equal current *)
Theorem C18_ikss_sn_invariant : forall c zohm vn sn1 sn2 s3,
  0 < zohm -> 0 < vn -> 0 < sn1 -> 0 < sn2 -> 0 < s3 ->
  ikss_3ph c (zohm * sn1 / (vn * vn)) vn sn1 s3 == ikss_3ph c (zohm * sn2 / (vn * vn)) vn sn2 s3.
Proof. intros. unfold ikss_3ph. qstrip. field. repeat split; lra. Qed.
Print Assumptions C18_ikss_sn_invariant.

(* a fault impedance adds in ohm to the reported Thevenin impedance *)
Theorem C18_fault_impedance_ohm : forall zr zx rf xf vn sn,
  0 < vn -> 0 < sn -> (0 < rf \/ 0 < xf) ->
  to_ohm (fst (calc_rx zr zx rf xf vn sn)) vn sn == to_ohm zr vn sn + rf /\
  to_ohm (snd (calc_rx zr zx rf xf vn sn)) vn sn == to_ohm zx vn sn + xf.
Proof.
  intros zr zx rf xf vn sn Hv Hs Hf. unfold calc_rx.
  assert (E : qltb 0 rf || qltb 0 xf = true).
  { apply orb_true_iff. destruct Hf; [left|right]; now apply qltb_lt. }
  rewrite E. cbn [fst snd]. unfold to_ohm. qstrip. split; field; split; lra.
Qed.
Print Assumptions C18_fault_impedance_ohm.

(* external grid short-circuit model: |Z| = c / (S_sc/baseMVA) p.u. (= c Un^2 / S_sc in ohm), R = rx X, and the shunt
   written into the bus row is its inverse *)
Theorem C18_ext_grid_impedance : forall c s_sc rx sn sq,
  0 < c -> 0 < s_sc -> 0 < sn -> 0 < sq -> sq * sq == rx * rx + 1 ->
  let z := c / (s_sc / sn) in let x := z / sq in let r := rx * x in
  let g := fst (ext_grid_gb c s_sc rx sn sq) / sn in let b := snd (ext_grid_gb c s_sc rx sn sq) / sn in
  r * r + x * x == z * z /\ g * r - b * x == 1 /\ g * x + b * r == 0.
Proof.
  intros c s_sc rx sn sq Hc Hs Hn Hq E. cbn zeta. unfold ext_grid_gb. cbn [fst snd]. qstrip.
  set (z := c / (s_sc / sn)). set (x := z / sq).
  assert (Hz : 0 < z) by (unfold z; auto using Qdiv_pos).
  assert (Hx : 0 < x) by (unfold x; auto using Qdiv_pos).
  assert (Hd : 0 < rx * x * (rx * x) + x * x).
  { assert (0 <= rx * x * (rx * x)) by (destruct (Qlt_le_dec (rx * x) 0); nra). nra. }
  split; [|split].
  - setoid_replace (rx * x * (rx * x) + x * x) with ((rx * rx + 1) * (x * x)) by ring.
    rewrite <- E. unfold x. field. lra.
  - field. split; lra.
  - field. split; lra.
Qed.
Print Assumptions C18_ext_grid_impedance.

Example C18_nonvacuous : 0 < (1 # 2) /\ (1 # 2) <= 1 /\ (102 # 100) <= kappa_of (1 # 2).
Proof. repeat split; vm_compute; discriminate. Qed.

(* the per-unit pipeline of a radial two-voltage-level chain  ext_grid - line - transformer (K_T) - line
   (C18/ChainModel.v: rows of ppc["branch"], ext_grid shunt, TAP, makeYbus).  For ANY solution z of Ybus z = e_k (the Zbus
   column the implementation reads the Thevenin impedance from, by inversion or LU) the reported rk_ohm + j xk_ohm =
   BASE_KV^2/baseMVA * z_k is the series formula of the elements' IEC short-circuit impedances in ohm
   (Zthev_ohm: Z_Q = c Un^2/S_sc with R = rx X; line R (with end temperature factor) + jX; K_T (u_kr + j u_kx) U_rT,lv^2/S_rT;
   the hv part referred with (U_rT,lv/U_rT,hv)^2), which does not mention net.sn_mva. *)
Theorem C18_chain_thevenin_ohm : forall (n : chain) (sn : Q) (o : oracles) (xk : Q),
  chain_ok n -> 0 < sn -> oracle_ok n sn o xk ->
  forall (vs : list C) (k : nat), (List.length vs = 4)%nat -> Nat.lt k 4 ->
  Ceq_list (mat_vec (chain_ybus n sn o) vs) (unit_vec k 4) ->
  to_ohm_c (List.nth k vs C0) (bus_vn n k) sn ==c Zthev_ohm n (o_sq o) xk k.
Proof. exact chain_thevenin. Qed.
Print Assumptions C18_chain_thevenin_ohm.

(* results do not depend on net.sn_mva across the two voltage levels: two runs with different net.sn_mva, each with its own
   square-root values and its own solve, report the same ohmic Thevenin impedance at every bus *)
Theorem C18_chain_thevenin_sn_invariant : forall (n : chain) (sn1 sn2 : Q) (o1 o2 : oracles) (xk : Q) (vs1 vs2 : list C) (k : nat),
  chain_ok n -> 0 < sn1 -> 0 < sn2 -> oracle_ok n sn1 o1 xk -> oracle_ok n sn2 o2 xk -> o_sq o1 == o_sq o2 ->
  (List.length vs1 = 4)%nat -> (List.length vs2 = 4)%nat -> Nat.lt k 4 ->
  Ceq_list (mat_vec (chain_ybus n sn1 o1) vs1) (unit_vec k 4) ->
  Ceq_list (mat_vec (chain_ybus n sn2 o2) vs2) (unit_vec k 4) ->
  to_ohm_c (List.nth k vs1 C0) (bus_vn n k) sn1 ==c to_ohm_c (List.nth k vs2 C0) (bus_vn n k) sn2.
Proof.
  intros n sn1 sn2 o1 o2 xk vs1 vs2 k Hn H1 H2 O1 O2 Esq L1 L2 K S1 S2.
  rewrite -> (chain_thevenin n sn1 o1 xk Hn H1 O1 vs1 k L1 K S1), (chain_thevenin n sn2 o2 xk Hn H2 O2 vs2 k L2 K S2).
  assert (Z : Zeg_ohm (ch_eg n) (ch_vhv n) (o_sq o1) ==c Zeg_ohm (ch_eg n) (ch_vhv n) (o_sq o2)).
  { unfold Zeg_ohm. cunfold. qstrip. rewrite Esq. split; reflexivity. }
  destruct k as [|[|[|]]]; cbn [Zthev_ohm]; rewrite Z; reflexivity.
Qed.
Print Assumptions C18_chain_thevenin_sn_invariant.

(* a concrete chain (110/20 kV) with exact square roots satisfies all hypotheses for sn_mva = 1 and 100, and its p.u. Zbus
   entries differ between the two bases (the invariance is not trivial) *)
Example C18_chain_nonvacuous :
  chain_ok ex_chain /\ oracle_ok ex_chain 1 (ex_oracles 1) 4 /\ oracle_ok ex_chain 100 (ex_oracles 100) 4 /\
  Ceq_list (mat_vec (chain_ybus ex_chain 1 (ex_oracles 1)) (ex_col 1)) (unit_vec 3 4) /\
  Ceq_list (mat_vec (chain_ybus ex_chain 100 (ex_oracles 100)) (ex_col 100)) (unit_vec 3 4) /\
  ~ List.nth 3 (ex_col 1) C0 ==c List.nth 3 (ex_col 100) C0.
Proof. exact chain_nonvacuous. Qed.
Print Assumptions C18_chain_nonvacuous.

(* branch results: Kirchhoff's current law under the fault voltages V = c - ikss1 * Zbus[:, k] (any network, any size):
   at the faulted bus the current leaving into branches and shunts is c * (row sum of Ybus) - ikss1, elsewhere c * (row sum) *)
Theorem C18_kcl_fault_bus : forall row zcol c i, cdot row zcol ==c C1 ->
  cdot row (v_ikss true c i zcol) ==c Csub (Cmul c (cdot row (ones zcol))) i.
Proof. intros row zcol c i H. rewrite -> cdot_v_ikss, H. ring. Qed.
Print Assumptions C18_kcl_fault_bus.
Theorem C18_kcl_other_bus : forall row zcol c i, cdot row zcol ==c C0 ->
  cdot row (v_ikss true c i zcol) ==c Cmul c (cdot row (ones zcol)).
Proof. intros row zcol c i H. rewrite -> cdot_v_ikss, H. ring. Qed.
Print Assumptions C18_kcl_other_bus.
(* res_line_sc of the chain: for a fault at the end bus the last line carries the whole fault current at its to end *)
Theorem C18_chain_line2_current : forall (n : chain) (sn : Q) (o : oracles) (xk : Q),
  chain_ok n -> 0 < sn -> oracle_ok n sn o xk ->
  forall (vs : list C) (c i : C), (List.length vs = 4)%nat ->
  Ceq_list (mat_vec (chain_ybus n sn o) vs) (unit_vec 3 4) ->
  match v_ikss true c i vs with
  | (_ :: _ :: vf :: vt :: nil)%list => branch_i_to (line_row (ch_l2 n) (ch_vlv n) sn) 1 vf vt ==c Copp i
  | _ => False
  end.
Proof. intros n sn o xk Hn Hsn Ho. exact (chain_line2_current n sn o xk Hn Hsn Ho true). Qed.
Print Assumptions C18_chain_line2_current.

(* single-phase fault: ikss = sqrt3 c Un / |2 Z1 + Z0| (Z in ohm), root-free form on the reported rk, xk, rk0, xk0, and
   independence of net.sn_mva for equal ohmic impedance *)
Theorem C18_ikss_1ph_formula : forall c zabs vn sn s3, 0 < zabs -> 0 < vn -> 0 < sn ->
  ikss_1ph c zabs vn sn s3 * to_ohm zabs vn sn == s3 * c * vn.
Proof. intros. unfold ikss_1ph, to_ohm. qstrip. field. repeat split; lra. Qed.
Print Assumptions C18_ikss_1ph_formula.
Theorem C18_ikss_1ph_formula_sq : forall c z1 z0 zabs vn sn s3, 0 < zabs -> 0 < vn -> 0 < sn -> s3 * s3 == 3 ->
  zabs * zabs == cnorm2 (z_1ph z1 z0) ->
  ikss_1ph c zabs vn sn s3 * ikss_1ph c zabs vn sn s3
    * cnorm2 (Cadd (Cscale 2 (to_ohm_c z1 vn sn)) (to_ohm_c z0 vn sn)) == 3 * (c * c) * (vn * vn).
Proof.
  intros c z1 z0 zabs vn sn s3 Hz Hv Hs E3 Ez.
  assert (N : cnorm2 (Cadd (Cscale 2 (to_ohm_c z1 vn sn)) (to_ohm_c z0 vn sn)) == to_ohm zabs vn sn * to_ohm zabs vn sn).
  { transitivity ((vn * vn / sn) * (vn * vn / sn) * (zabs * zabs)).
    - rewrite Ez. unfold to_ohm_c, to_ohm, z_1ph. cunfold. qstrip. ring.
    - unfold to_ohm. qstrip. ring. }
  rewrite N. transitivity ((s3 * c * vn) * (s3 * c * vn)); [|rewrite <- E3; ring].
  rewrite <- (C18_ikss_1ph_formula c zabs vn sn s3 Hz Hv Hs). ring.
Qed.
Print Assumptions C18_ikss_1ph_formula_sq.
Theorem C18_ikss_1ph_sn_invariant : forall c zohm vn sn1 sn2 s3, 0 < zohm -> 0 < vn -> 0 < sn1 -> 0 < sn2 ->
  ikss_1ph c (zohm * sn1 / (vn * vn)) vn sn1 s3 == ikss_1ph c (zohm * sn2 / (vn * vn)) vn sn2 s3.
Proof. intros. unfold ikss_1ph. qstrip. field. repeat split; lra. Qed.
Print Assumptions C18_ikss_1ph_sn_invariant.
End OverQ.

(* over the reals: kappa = 1.02 + 0.98 exp(-3 R/X) is in [1.02, 2] for every R/X >= 0 (standard real axioms) *)
Theorem C18_kappa_range : forall rx : R, (0 <= rx)%R -> (1.02 <= kappa rx <= 2)%R.
Proof. exact kappa_range. Qed.
Print Assumptions C18_kappa_range.
Theorem C18_exp_oracle_range : forall rx : R, (0 <= rx)%R -> (0 < exp (- 3 * rx) <= 1)%R.
Proof. exact exp_oracle_range. Qed.
Print Assumptions C18_exp_oracle_range.

(* Zbus column uniqueness over any field: the explicit inverse and the factorised solve give the same column, and
   the column of bus k depends on Y and k only *)
Theorem C18_zbus_column_unique : forall (F : GRing.Field.type) (n : nat) (Y Z : 'M[F]_n) (k : 'I_n) (z : 'cV[F]_n),
  (Y *m Z = 1%:M -> Y *m z = delta_mx k ord0 -> z = col k Z)%R.
Proof. exact zbus_column_unique. Qed.
Print Assumptions C18_zbus_column_unique.
Theorem C18_zbus_solution_unique : forall (F : GRing.Field.type) (n : nat) (Y Z : 'M[F]_n) (k : 'I_n) (z1 z2 : 'cV[F]_n),
  (Y *m Z = 1%:M -> Y *m z1 = delta_mx k ord0 -> Y *m z2 = delta_mx k ord0 -> z1 = z2)%R.
Proof.
  move=> F n Y Z k z1 z2 YZ H1 H2. by rewrite (zbus_column_unique YZ H1) (zbus_column_unique YZ H2).
Qed.
Print Assumptions C18_zbus_solution_unique.
