(* C01 — nodal power balance: property theorems (the lemmas they share are in C01/Proofs.v, C01/Balance.v, C01/Ybus.v, C01/Branch.v).

   Reading guide.  For a ppc bus k (one bus, or several pandapower buses fused by closed bus-bus switches):
     cons_p/cons_q n k v      consumption reported in the element result tables at k (loads with their own ZIP
                              fractions at |V| = v, sgens with sign -1, storages, motors, wards, shunts * v^2)
     gen_p/gen_q n ref k s    generation reported for the gen rows at k after pfsoln (_update_p/_update_q)
     flows n k v s            sum of the branch terminal flows at k = injection s*baseMVA minus the bus shunt v^2*(GS - jBS)
     resid_p/resid_q          cons - gen + flows          (nodal balance  <=>  resid == 0)
     mism_p/mism_q            the Newton mismatch of bus k in MVA (zero up to the solver tolerance on convergence)
     zipdef_*                 closed-form size of the ZIP-averaging defect,  qsplit_loss  the EPS loss of the Q split
     gendef_*, *_old          the rule before the repair of pfsoln (static PD/QD at generator buses) and of the DC shunt results
   Injection s = V_k conj((Ybus V)_k) and |V_k| = v are arbitrary rationals (the solver is an oracle). *)
From Coq Require Import ZArith QArith Qabs List Bool Lqa.
From PPV Require Import Base.QN Base.QC C01.Model C01.Proofs C01.Balance C01.YbusModel C01.Ybus C01.BranchModel C01.Branch.
From PPV Require C31.Model C02.Model C02.Run C02.Proofs.     (* the branch model, names written qualified *)
Import ListNotations.
Open Scope Q_scope.

(* flow-sum identity (for every branch list, shunt and voltage vector): with Ybus = Cf'Yf + Ct'Yt + diag(ysh) the
   injection V_k conj((Ybus V)_k) is the sum of the terminal flows Sf/St of the branches at k plus |V_k|^2 conj(ysh_k);
   hence [flows] (injection minus bus shunt, used below) is the sum of the branch terminal flows in MVA *)
Theorem C01_flow_sum_identity : forall brs ysh V k,
  s_inj brs ysh V k ==c Cadd (flow_sum brs V k) (Cscale (cnorm2 (vat V k)) (Cconj ysh)).
Proof. exact flow_sum_identity. Qed.
Print Assumptions C01_flow_sum_identity.
Theorem C01_flows_are_branch_flows : forall n brs V k v,
  ~ base n == 0 -> v * v == cnorm2 (vat V k) ->
  flows n k v (s_inj brs (mkC (qdiv (GS n k) (base n)) (qdiv (BS n k) (base n))) V k)
  ==c Cscale (base n) (flow_sum brs V k).
Proof. exact flows_is_flow_sum. Qed.
Print Assumptions C01_flows_are_branch_flows.

(* The size of the nodal P imbalance at every bus whose generators are not assigned slack power (PQ and PV buses):
   Newton mismatch minus the ZIP-averaging defect
   (v-1)(PD*mean(ci) - sum p_i ci_i) + (v^2-1)(PD*mean(cz) - sum p_i cz_i). *)
Theorem C01_imbalance_formula_p : forall n ref k v s,
  (memn k ref && has_gen n k) = false ->
  resid_p n ref k v s (flows n k v s) == mism_p n k v s - zipdef_p n k v.
Proof. exact imbalance_p. Qed.
Print Assumptions C01_imbalance_formula_p.

Theorem C01_imbalance_formula_q : forall n k v s,
  has_gen n k = false ->
  resid_q n k v s (flows n k v s) == mism_q n k v s - zipdef_q n k v.
Proof. exact imbalance_q. Qed.
Print Assumptions C01_imbalance_formula_q.

(* generator buses (repaired pfsoln: injection + the demand the solver used): the same formula without a mismatch term
   at reference buses, plus the EPS loss of the split for Q *)
Theorem C01_imbalance_ref_bus_p : forall n ref k v s,
  memn k ref = true -> split_ok n k = true ->
  resid_p n ref k v s (flows n k v s) == - zipdef_p n k v.
Proof. exact imbalance_ref_p. Qed.
Print Assumptions C01_imbalance_ref_bus_p.

Theorem C01_imbalance_gen_bus_q : forall n k v s,
  has_gen n k = true -> ~ qg_den n k == 0 ->
  resid_q n k v s (flows n k v s) == - zipdef_q n k v + qsplit_loss n k v s.
Proof. exact imbalance_gen_q. Qed.
Print Assumptions C01_imbalance_gen_bus_q.

(* generator result extraction: the gen rows of a reference bus sum to  inj P + local Pd  (equal and weighted split),
   the gen rows of any bus sum to  inj Q + local Qd  minus the EPS loss of the range-proportional split *)
Theorem C01_gen_p_split_sums : forall n ref k v s,
  memn k ref = true -> split_ok n k = true -> gen_p n ref k v s == p_bus n k v s.
Proof. exact gen_p_sum. Qed.
Print Assumptions C01_gen_p_split_sums.

Theorem C01_gen_q_split_sums : forall n k v s,
  has_gen n k = true -> ~ qg_den n k == 0 -> gen_q n k v s == q_tot0 n k v s - qsplit_loss n k v s.
Proof. exact gen_q_sum. Qed.
Print Assumptions C01_gen_q_split_sums.

Theorem C01_qsplit_loss_bound : forall n k v s,
  0 < sumf g_qmax (gens_on_at n k) - sumf g_qmin (gens_on_at n k) ->
  Qabs (qsplit_loss n k v s) <=
  Qabs (q_tot0 n k v s - sumf g_qmin (gens_on_at n k)) * EPS / (sumf g_qmax (gens_on_at n k) - sumf g_qmin (gens_on_at n k)).
Proof.
  intros n k v s HR. unfold qsplit_loss.
  set (G := gens_on_at n k) in *. set (R := sumf g_qmax G - sumf g_qmin G) in *.
  set (d := q_tot0 n k v s - sumf g_qmin G).
  assert (HE : 0 < EPS) by reflexivity.
  assert (Hpos : 0 <= Qabs d * EPS / R).
  { apply Qle_shift_div_l; [exact HR|]. rewrite Qmult_0_l. apply Qmult_le_0_compat; [apply Qabs_nonneg | apply Qlt_le_weak; exact HE]. }
  destruct (Nat.ltb 1 (n_on n) && negb (qeqb (sumf g_qmin G) (sumf g_qmax G))); [|exact Hpos].
  qstrip. fold R d.
  (* |d EPS / (R + EPS)| = |d| (EPS / (R + EPS)) and EPS / (R + EPS) <= EPS / R *)
  assert (HRE : 0 < R + EPS) by lra.
  setoid_replace (d * EPS / (R + EPS)) with (d * (EPS / (R + EPS))) by (field; lra).
  rewrite Qabs_Qmult.
  assert (Hq : 0 <= EPS / (R + EPS)) by (apply Qle_shift_div_l; [exact HRE | lra]).
  rewrite (Qabs_pos _ Hq).
  setoid_replace (Qabs d * EPS / R) with (Qabs d * (EPS / R)) by (field; lra).
  rewrite (Qmult_comm (Qabs d) (EPS / (R + EPS))), (Qmult_comm (Qabs d) (EPS / R)).
  apply Qmult_le_compat_r; [|apply Qabs_nonneg].
  apply Qle_shift_div_l; [exact HR|].
  setoid_replace (EPS / (R + EPS) * R) with (EPS * R / (R + EPS)) by (field; lra).
  apply Qle_shift_div_r; [exact HRE|]. nra.
Qed.
Print Assumptions C01_qsplit_loss_bound.

(* Partial theorems: under the guards G01p/G01q the balance holds exactly when the Newton mismatch is zero,
   at PQ buses, at PV buses and at reference buses. *)
Theorem C01_balance_partial : forall n ref k v s,
  has_gen n k = false -> G01p n k = true -> G01q n k = true ->
  mism_p n k v s == 0 -> mism_q n k v s == 0 ->
  resid_p n ref k v s (flows n k v s) == 0 /\ resid_q n k v s (flows n k v s) == 0.
Proof.
  intros n ref k v s Hg G1 G2 M1 M2. split.
  - rewrite imbalance_p by (rewrite Hg; apply andb_false_r). rewrite M1, (G01p_zipdef _ _ _ G1). ring.
  - rewrite (imbalance_q _ _ _ _ Hg), M2, (G01q_zipdef _ _ _ G2). ring.
Qed.
Print Assumptions C01_balance_partial.

Theorem C01_balance_partial_pv : forall n ref k v s,
  memn k ref = false -> has_gen n k = true -> ~ qg_den n k == 0 -> G01p n k = true -> G01q n k = true ->
  mism_p n k v s == 0 ->
  resid_p n ref k v s (flows n k v s) == 0 /\ resid_q n k v s (flows n k v s) == qsplit_loss n k v s.
Proof.
  intros n ref k v s Hr Hg Hd G1 G2 M1. split.
  - rewrite imbalance_p by (rewrite Hr; reflexivity). rewrite M1, (G01p_zipdef _ _ _ G1). ring.
  - rewrite (imbalance_gen_q _ _ _ _ Hg Hd), (G01q_zipdef _ _ _ G2). ring.
Qed.
Print Assumptions C01_balance_partial_pv.

Theorem C01_balance_partial_ref : forall n ref k v s,
  memn k ref = true -> split_ok n k = true -> has_gen n k = true -> ~ qg_den n k == 0 ->
  G01p n k = true -> G01q n k = true ->
  resid_p n ref k v s (flows n k v s) == 0 /\ resid_q n k v s (flows n k v s) == qsplit_loss n k v s.
Proof.
  intros n ref k v s Hr Hs Hg Hd G1 G2. split.
  - rewrite (imbalance_ref_p _ _ _ _ _ Hr Hs), (G01p_zipdef _ _ _ G1). ring.
  - rewrite (imbalance_gen_q _ _ _ _ Hg Hd), (G01q_zipdef _ _ _ G2). ring.
Qed.
Print Assumptions C01_balance_partial_ref.

(* The full statement is false of the faithful model: zero mismatch, yet the reported powers do not balance. *)
Theorem C01_balance_refuted :
  exists n ref k v s, has_gen n k = false /\ mism_p n k v s == 0 /\ mism_q n k v s == 0 /\
    ~ resid_p n ref k v s (flows n k v s) == 0.
Proof. exact balance_refuted. Qed.
Print Assumptions C01_balance_refuted.

(* the rule before the repair of pfsoln is refuted (and its formula proved): static PD/QD at a generator bus; the same
   witness balances under the repaired rule *)
Theorem C01_old_gen_bus_rule_formula : forall n k v s,
  resid_p_ref_old n k v s == gendef_p n k v /\ resid_q_gen_old n k v s == gendef_q n k v.
Proof. intros. split; [apply old_ref_p | apply old_gen_q]. Qed.
Print Assumptions C01_old_gen_bus_rule_formula.
Theorem C01_old_gen_bus_rule_refuted :
  G01p witg_net 0 = true /\ G01gp witg_net 0 = false /\
  (forall s, ~ resid_p_ref_old witg_net 0 witg_v s == 0) /\
  (forall s, resid_p witg_net [0%nat] 0 witg_v s (flows witg_net 0 witg_v s) == 0).
Proof.
  split; [reflexivity|]. split; [reflexivity|]. split.
  - intros s E. rewrite old_ref_p in E. vm_compute in E. discriminate E.
  - intros s. rewrite imbalance_ref_p by reflexivity. rewrite (G01p_zipdef witg_net 0%nat witg_v) by reflexivity. ring.
Qed.
Print Assumptions C01_old_gen_bus_rule_refuted.

(* The guards are exact: when one fails, the corresponding defect is non-zero at some positive voltage
   (G01gp/G01gq are the guards of the old generator-bus rule). *)
Theorem C01_guard_exact_p : forall n k, G01p n k = false -> exists v, 0 < v /\ ~ zipdef_p n k v == 0.
Proof.
  intros n k H. destruct (proj2 (zip_guard _ _ _ _ _) H) as (v & Hv & N).
  exists v. split; [exact Hv|]. rewrite zipdef_p_eq. exact N.
Qed.
Print Assumptions C01_guard_exact_p.
Theorem C01_guard_exact_q : forall n k, G01q n k = false -> exists v, 0 < v /\ ~ zipdef_q n k v == 0.
Proof.
  intros n k H. destruct (proj2 (zip_guard _ _ _ _ _) H) as (v & Hv & N).
  exists v. split; [exact Hv|]. rewrite zipdef_q_eq. exact N.
Qed.
Print Assumptions C01_guard_exact_q.
Theorem C01_guard_exact_gen_p : forall n k, G01gp n k = false -> exists v, 0 < v /\ ~ gendef_p n k v == 0.
Proof.
  intros n k H. destruct (proj2 (zip_guard (vdl n) (sum_pci n k) 0 (sum_pcz n k) 0) H) as (v & Hv & N).
  exists v. split; [exact Hv|]. rewrite gendef_p_eq. intros E. apply N. etransitivity; [|exact E].
  unfold zip_defect. destruct (vdl n); ring.
Qed.
Print Assumptions C01_guard_exact_gen_p.
Theorem C01_guard_exact_gen_q : forall n k, G01gq n k = false -> exists v, 0 < v /\ ~ gendef_q n k v == 0.
Proof.
  intros n k H. destruct (proj2 (zip_guard (vdl n) (sum_qci n k) 0 (sum_qcz n k) 0) H) as (v & Hv & N).
  exists v. split; [exact Hv|]. rewrite gendef_q_eq. intros E. apply N. etransitivity; [|exact E].
  unfold zip_defect. destruct (vdl n); ring.
Qed.
Print Assumptions C01_guard_exact_gen_q.

(* DC power flow (repaired: shunt / ward powers reported at unit voltage): the reported powers balance the DC bus equation *)
Theorem C01_dc_balance : forall n k pinj gsum, dc_resid_p n k pinj gsum == dc_mism n k pinj gsum.
Proof.
  intros n k pinj gsum. unfold dc_resid_p, dc_cons_p, dc_mism, dc_flows. qstrip. rewrite dc_cons_p_old_closed. ring.
Qed.
Print Assumptions C01_dc_balance.
(* the rule before the repair (VM^2 scaling): formula, exact guard and refutation *)
Theorem C01_dc_old_imbalance_formula : forall n k v pinj gsum,
  dc_resid_p_old n k v pinj gsum == dc_mism n k pinj gsum + dcdef_p n k v.
Proof. exact dc_imbalance_old. Qed.
Print Assumptions C01_dc_old_imbalance_formula.
Theorem C01_dc_old_refuted :
  exists n k v pinj gsum, dc_mism n k pinj gsum == 0 /\ ~ dc_resid_p_old n k v pinj gsum == 0.
Proof.
  exists (mkNet [] [] [mkSh 0 0 (7#8) 0 1 20 20 true] [] false 1 []), 0%nat, (99#100), (-7#8), 0.
  split; [vm_compute; reflexivity|]. rewrite dc_imbalance_old. vm_compute. intros E. discriminate E.
Qed.
Print Assumptions C01_dc_old_refuted.
Theorem C01_dc_old_guard_exact : forall n k v, G01dc n k v = false -> ~ dcdef_p n k v == 0.
Proof.
  intros n k v H E. unfold G01dc in H. apply orb_false_iff in H. destruct H as [H1 H2].
  apply qeqb_false in H1, H2. unfold dcdef_p in E. rewrite qmul_correct in H2. qstrip_in E.
  destruct (Qmult_integral _ _ E) as [Hz|Hz]; [apply H2; lra | exact (H1 Hz)].
Qed.
Print Assumptions C01_dc_old_guard_exact.

(* res_bus.p_mw/q_mvar (stacked arrays summed by pandapower bus) = net consumption reported by the element tables *)
Theorem C01_res_bus_is_net_consumption : forall n ref vs ss pb,
  res_bus_p n ref vs ss pb == net_cons_p n ref vs ss pb /\ res_bus_q n vs ss pb == net_cons_q n vs ss pb.
Proof. intros. split; [apply res_bus_p_spec | apply res_bus_q_spec]. Qed.
Print Assumptions C01_res_bus_is_net_consumption.

(* dcline terminals: stacked once as gen rows and once more (with the opposite sign) as res_dcline powers, they cancel out
   of res_bus: res_bus = net consumption minus the dcline terminal power of that bus; refuted / partial under G01dcl *)
Theorem C01_res_bus_misses_dcline : forall n ref vs ss dcl pb,
  res_bus_p_dcl n ref vs ss dcl pb == net_cons_p n ref vs ss pb - sum_group pb dcl.
Proof. exact res_bus_dcl_p. Qed.
Print Assumptions C01_res_bus_misses_dcline.
Theorem C01_res_bus_dcline_partial : forall n ref vs ss dcl pb, G01dcl dcl pb = true ->
  res_bus_p_dcl n ref vs ss dcl pb == net_cons_p n ref vs ss pb.
Proof. intros n ref vs ss dcl pb G. apply qeqb_eq in G. rewrite res_bus_dcl_p, G. ring. Qed.
Print Assumptions C01_res_bus_dcline_partial.
Theorem C01_res_bus_dcline_refuted :
  exists n ref vs ss dcl pb, ~ res_bus_p_dcl n ref vs ss dcl pb == net_cons_p n ref vs ss pb.
Proof.
  exists (mkNet [] [] [] [mkGen 1 1 (-3#10) 0 0 0 true false] false 1 []), [], [1;1], [C0;C0], [(1%nat, 3#10)], 1%nat.
  vm_compute. intros E. discriminate E.
Qed.
Print Assumptions C01_res_bus_dcline_refuted.

(* enforce_q_lims: a gen at its limit is folded into the bus demand PD/QD, which _get_Sload scales with the ZIP voltage
   factor: extra imbalance pl*(ci(v-1)+cz(v^2-1)); partial under G01ql (no limited generation at a voltage dependent bus),
   refuted by a witness that satisfies the ZIP-averaging guard G01p *)
Theorem C01_imbalance_qlim_fold : forall n ref k v s pl ql,
  ((memn k ref && has_gen n k) = false ->
   resid_fold_p n ref k v s pl == mism_fold_p n k v s pl ql - zipdef_p n k v + qlimdef_p n k v pl) /\
  (has_gen n k = false ->
   resid_fold_q n k v s ql == mism_fold_q n k v s pl ql - zipdef_q n k v + qlimdef_q n k v ql).
Proof.
  intros n ref k v s pl ql. split; intros H.
  - unfold resid_fold_p, mism_fold_p. qstrip.
    rewrite (imbalance_p _ _ _ _ _ H), mism_p_eq, Sload_fold_re, qlimdef_p_eq. ring.
  - unfold resid_fold_q, mism_fold_q. qstrip.
    rewrite (imbalance_q _ _ _ _ H), mism_q_eq, Sload_fold_im, qlimdef_q_eq. ring.
Qed.
Print Assumptions C01_imbalance_qlim_fold.
Theorem C01_qlim_fold_partial : forall n k v pl ql,
  G01ql n k pl ql = true -> qlimdef_p n k v pl == 0 /\ qlimdef_q n k v ql == 0.
Proof.
  intros n k v pl ql. unfold G01ql. rewrite qlimdef_p_eq, qlimdef_q_eq. unfold zip_defect.
  destruct (vdl n); cbn [negb orb]; [|split; reflexivity].
  intros H. apply andb_true_iff in H. destruct H as [H H4]. apply andb_true_iff in H. destruct H as [H H3].
  apply andb_true_iff in H. destruct H as [H1 H2]. apply qeqb_eq in H1, H2, H3, H4.
  rewrite qmul_correct in H1, H2, H3, H4. rewrite H1, H2, H3, H4. split; ring.
Qed.
Print Assumptions C01_qlim_fold_partial.
Theorem C01_qlim_fold_refuted :
  G01p witq_net 1 = true /\ G01ql witq_net 1 20 5 = false /\
  exists s, mism_fold_p witq_net 1 (99#100) s 20 5 == 0 /\ ~ resid_fold_p witq_net [] 1 (99#100) s 20 == 0.
Proof.
  split; [reflexivity|]. split; [reflexivity|].
  exists (mkC (- re (Sload_fold witq_net 1 (99#100) 20 5)) 0). split; [vm_compute; reflexivity|].
  vm_compute. intros E. discriminate E.
Qed.
Print Assumptions C01_qlim_fold_refuted.

(* the hypotheses of the partial theorem are satisfiable by a non-trivial bus (two ZIP loads + a stepped shunt) *)
Example C01_nonvacuous :
  has_gen ok_net 1 = false /\ G01p ok_net 1 = true /\ G01q ok_net 1 = true /\
  mism_p ok_net 1 wit_v (Copp (Sload ok_net 1 wit_v)) == 0 /\ mism_q ok_net 1 wit_v (Copp (Sload ok_net 1 wit_v)) == 0.
Proof. vm_compute. repeat split; reflexivity. Qed.
Print Assumptions C01_nonvacuous.

(* composed statement on the C02 branch model
   rows -> stamps -> flows -> nodal sum.  The two-port entries of C01_flow_sum_identity are not inputs here: a branch is a
   ppc branch row of C02/Model.v (prow: from/to bus, row, e^{j SHIFT}; rows come from line_branch, trafo_branch,
   impedance_branch, xward_branch, switch_branch and the trafo3w blocks), branch_of stamps it with the C02 model of
   makeYbus.branch_vectors, row_flow_sum adds the terminal flows of the C02 model of pfsoln (MVA).
   For every list of rows, bus shunt, voltage vector, base power and bus: *)
Theorem C01_flow_sum_identity_rows : forall ps ysh V sn k,
  Cscale sn (s_inj (map branch_of ps) ysh V k)
  ==c Cadd (row_flow_sum ps V sn k) (Cscale (sn * cnorm2 (vat V k)) (Cconj ysh)).
Proof. exact rows_flow_sum_identity. Qed.
Print Assumptions C01_flow_sum_identity_rows.
(* rows built from element models (build_rows: every element model and every stamp returns without an exception;
   out-of-service rows are dropped as in ppc -> ppci): the built rows are in service, stamped by [stamps] itself, and
   satisfy the identity *)
Theorem C01_built_rows_balance : forall es ps ysh V sn k,
  build_rows es = C02.Model.Ok ps ->
  Forall (fun p => C02.Model.b_stat (pr_row p) = true /\ C02.Model.stamps (pr_row p) (pr_e p) = C02.Model.Ok (stamps_of p)) ps /\
  Cscale sn (s_inj (map branch_of ps) ysh V k)
  ==c Cadd (row_flow_sum ps V sn k) (Cscale (sn * cnorm2 (vat V k)) (Cconj ysh)).
Proof. intros. split; [eapply built_rows_ok; eassumption | apply rows_flow_sum_identity]. Qed.
Print Assumptions C01_built_rows_balance.
(* continued to physical units with C02_pu_eq_physical: the injection is the sum of the terminal powers of the rows'
   documented circuits (ideal transformer TAP e^{j SHIFT}, pi two-port in Ohm / Siemens on kV voltages) *)
Theorem C01_rows_nodal_sum_physical : forall ps ysh V sn k, Forall (row_ok sn) ps ->
  Cscale sn (s_inj (map branch_of ps) ysh V k)
  ==c Cadd (phys_flow_sum ps V sn k) (Cscale (sn * cnorm2 (vat V k)) (Cconj ysh)).
Proof. intros ps ysh V sn k H. rewrite rows_flow_sum_identity, (row_flow_sum_phys ps V sn k H). reflexivity. Qed.
Print Assumptions C01_rows_nodal_sum_physical.
(* element level, a network of lines: per-km data -> _calc_line_parameter row -> stamps -> flows -> nodal sum equals the
   sum of the documented line pi circuits (Z = (r'+jx') l/parallel, Y = (g' + j 2 pi f c') l parallel) at the bus *)
Theorem C01_lines_nodal_sum_documented : forall sn fhz pi sqrt3 ls ysh V k, ~ sn == 0 -> Forall line_ok ls ->
  Cscale sn (s_inj (map branch_of (map (line_prow sn fhz pi sqrt3) ls)) ysh V k)
  ==c Cadd (line_flow_sum fhz pi ls V k) (Cscale (sn * cnorm2 (vat V k)) (Cconj ysh)).
Proof.
  intros sn fhz pi sqrt3 ls ysh V k Hsn H. rewrite rows_flow_sum_identity.
  assert (E : row_flow_sum (map (line_prow sn fhz pi sqrt3) ls) V sn k ==c line_flow_sum fhz pi ls V k).
  { unfold row_flow_sum, flow_table.
    induction H as [|x r (Hin & Hb & Hp & Hz) _ IH]; cbn [map tab_sum line_flow_sum]; [reflexivity|].
    rewrite IH.
    destruct (C02.Proofs.line_pu_eq_physical sn fhz pi sqrt3 (lr_base x) (lr_vnfrom x) (lr_line x)
                (vat V (lr_f x)) (vat V (lr_t x)) Hin Hsn Hb Hp Hz) as [E1 E2].
    unfold row_flows, stamps_of, line_prow, line_phys. cbn [pr_f pr_t pr_row pr_e].
    destruct (Nat.eqb (lr_f x) k), (Nat.eqb (lr_t x) k); rewrite ?E1, ?E2; reflexivity. }
  rewrite E. reflexivity.
Qed.
Print Assumptions C01_lines_nodal_sum_documented.
(* the balance formulas end to end on the C02 rows: [flows n k v s], the quantity of C01_imbalance_formula_p/q, is the sum of the
   terminal flows of the C02 rows at k when s is the injection of the Ybus assembled from these rows; hence
   reported consumption - reported generation + branch flows of the rows = Newton mismatch - ZIP-averaging defect *)
Theorem C01_flows_are_row_flows : forall n ps V k v,
  ~ base n == 0 -> v * v == cnorm2 (vat V k) ->
  flows n k v (s_inj (map branch_of ps) (mkC (qdiv (GS n k) (base n)) (qdiv (BS n k) (base n))) V k)
  ==c row_flow_sum ps V (base n) k.
Proof. exact flows_is_row_flow_sum. Qed.
Print Assumptions C01_flows_are_row_flows.
Theorem C01_rows_imbalance_p : forall n ref ps V k v,
  ~ base n == 0 -> v * v == cnorm2 (vat V k) -> (memn k ref && has_gen n k) = false ->
  let s := s_inj (map branch_of ps) (mkC (qdiv (GS n k) (base n)) (qdiv (BS n k) (base n))) V k in
  resid_p n ref k v s (row_flow_sum ps V (base n) k) == mism_p n k v s - zipdef_p n k v.
Proof.
  intros n ref ps V k v Hb Hv H s. rewrite <- (imbalance_p n ref k v s H).
  destruct (flows_is_row_flow_sum n ps V k v Hb Hv) as [E _]. fold s in E.
  rewrite !resid_p_eq, E. reflexivity.
Qed.
Print Assumptions C01_rows_imbalance_p.
Theorem C01_rows_imbalance_q : forall n ps V k v,
  ~ base n == 0 -> v * v == cnorm2 (vat V k) -> has_gen n k = false ->
  let s := s_inj (map branch_of ps) (mkC (qdiv (GS n k) (base n)) (qdiv (BS n k) (base n))) V k in
  resid_q n k v s (row_flow_sum ps V (base n) k) == mism_q n k v s - zipdef_q n k v.
Proof.
  intros n ps V k v Hb Hv H s. rewrite <- (imbalance_q n k v s H).
  destruct (flows_is_row_flow_sum n ps V k v Hb Hv) as [_ E]. fold s in E.
  rewrite !resid_q_eq, E. reflexivity.
Qed.
Print Assumptions C01_rows_imbalance_q.
(* non-vacuity: two lines 0-1, 1-2 (20 kV, sn = 10) and an out-of-service row build two in-service rows that satisfy
   row_ok; the flow sum at bus 1 is not trivially zero *)
Definition ex_line : C02.Model.line :=
  C02.Model.Build_line (1 # 4) (1 # 2) 10 0 2 1 true (Some 100) (1 # 2) 1 None.
Definition ex_es : list (nat * nat * C02.Model.res C02.Model.brow * C * Q) :=
  [(0%nat, 1%nat, C02.Model.Ok (C02.Model.line_branch 10 50 (355 # 113) (19 # 11) 20 20 ex_line), C1, 20);
   (1%nat, 2%nat, C02.Model.Ok (C02.Model.line_branch 10 50 (355 # 113) (19 # 11) 20 20 ex_line), C1, 20);
   (0%nat, 2%nat, C02.Model.Ok (C02.Model.xward_branch 10 20 1 4 false), C1, 20)].
Example C01_rows_nonvacuous :
  exists ps, build_rows ex_es = C02.Model.Ok ps /\ length ps = 2%nat /\ Forall (row_ok 10) ps /\
             ~ row_flow_sum ps [C1; mkC (99 # 100) (-1 # 100); mkC (49 # 50) (-1 # 50)] 10 1 ==c C0 /\
             Forall line_ok [mkL 0 1 ex_line 20 20; mkL 1 2 ex_line 20 20].
Proof.
  eexists. split; [vm_compute; reflexivity|]. split; [reflexivity|].
  split; [repeat constructor; vm_compute; try reflexivity; discriminate|].
  split; [vm_compute; intros [_ H]; discriminate H|].
  repeat constructor; vm_compute; try reflexivity; discriminate.
Qed.
Print Assumptions C01_rows_nonvacuous.
