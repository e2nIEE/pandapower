(* C29 — protection devices trip later for smaller currents, never earlier (lemmas in C29/Proofs.v, C29/FusePchip.v, C29/GradingProofs.v, C29/GradingGuard.v, C29/IdmtReal.v) *)
From Coq Require Import ZArith QArith List Bool Reals String Lia Lqa Permutation.
From PPV Require Import Base.QN C32.Model C32.Whole C29.Model C29.Proofs C29.IdmtReal C29.FusePchip C29.Grading C29.GradingProofs C29.GradingGuard.
Import ListNotations.

Open Scope Q_scope.

(* Fuse: for every melting curve c that is non-increasing and non-negative on [i_start, i_stop] (monotone characteristic
   data + shape-preserving interpolation: hypothesis, validated at run time), the reported melt time is non-increasing in the
   switch current over the whole axis (inf below i_start, c inside, 0 above i_stop) *)
Theorem C29_fuse_time_antitone : forall i_start i_stop (c : Q -> Q),
  (forall a b, i_start <= a -> a <= b -> b <= i_stop -> c b <= c a) ->
  (forall a, i_start <= a -> a <= i_stop -> 0 <= c a) ->
  forall i1 i2, i1 <= i2 ->
  tle (ttime (fuse_at i_start i_stop c i2)) (ttime (fuse_at i_start i_stop c i1)).
Proof. exact fuse_antitone. Qed.
Print Assumptions C29_fuse_time_antitone.

(* the same WITHOUT the curve hypotheses: the melting curve is LogSplineCharacteristic(Pchip) = 10 ** pchip(log10 i) over the
   characteristic points (a :: t) (fuse.py:70-79, i_start = first, i_stop = last current).  For positive data with strictly
   increasing currents and non-increasing times (the "monotone characteristic data" of the property) shape preservation is the
   whole-curve theorem of C32 (C32/Whole.v), so the melt time is non-increasing in the switch current over the whole axis,
   for every pair lg / pw with the order contract of log10 / 10** *)
Theorem C29_fuse_pchip_time_antitone : forall (lg pw : Q -> Q),
  (forall y, 0 < y -> pw (lg y) == y) -> (forall a b, a <= b -> pw a <= pw b) ->
  (forall a b, 0 < a -> a <= b -> lg a <= lg b) -> (forall a b, 0 < a -> a < b -> lg a < lg b) ->
  forall (a : pt) (t : list pt), t <> [] -> positive (a :: t) -> sorted (a :: t) -> nonincreasing (a :: t) ->
  forall i1 i2, i1 <= i2 ->
  tle (ttime (fuse_at (fst a) (fst (last t a)) (melt lg pw (a :: t)) i2))
      (ttime (fuse_at (fst a) (fst (last t a)) (melt lg pw (a :: t)) i1)).
Proof. exact fuse_pchip_antitone. Qed.
Print Assumptions C29_fuse_pchip_time_antitone.
(* on [i_start, i_stop] the characteristic is defined and its value lies between the last and the first melting time *)
Theorem C29_fuse_pchip_curve_defined : forall (lg pw : Q -> Q),
  (forall y, 0 < y -> pw (lg y) == y) -> (forall a b, a <= b -> pw a <= pw b) ->
  (forall a b, 0 < a -> a <= b -> lg a <= lg b) -> (forall a b, 0 < a -> a < b -> lg a < lg b) ->
  forall (a : pt) (t : list pt), t <> [] -> positive (a :: t) -> sorted (a :: t) -> nonincreasing (a :: t) ->
  forall x, fst a <= x -> x <= fst (last t a) ->
  exists v, logspline lg pw (a :: t) x = Some v /\ snd (last t a) <= v /\ v <= snd a.
Proof. exact melt_defined. Qed.
Print Assumptions C29_fuse_pchip_curve_defined.
Example C29_fuse_pchip_nonvacuous :
  let l := [(100, 10); (200 # 1, 1); (400 # 1, 1 # 10)] in
  positive l /\ sorted l /\ nonincreasing l /\
  ttime (fuse_at 100 (400 # 1) (melt (fun y => y) (fun y => y) l) (15 # 100)) = TFin (2251 # 544).
Proof.
  cbv zeta. split.
  - intros p [<-|[<-|[<-|[]]]]; split; reflexivity.
  - split; [simpl; repeat split; reflexivity|]. split; [simpl; repeat split; discriminate|]. vm_compute. reflexivity.
Qed.

(* the fuse melts exactly when there is a current (not NaN) and it reaches the start value (in A) *)
Theorem C29_fuse_trip_iff : forall i_start i_stop cv (i : F),
  tripped (fuse i_start i_stop cv i) = true <-> exists x, i = Some x /\ i_start <= x * 1000.
Proof.
  intros i_start i_stop cv [x|].
  - rewrite (fuse_trip_iff i_start i_stop cv x). split.
    + intros H. exists x. split; [reflexivity | exact H].
    + intros (y & E & H). inversion E. exact H.
  - split; [discriminate | intros (y & E & _); discriminate].
Qed.
Print Assumptions C29_fuse_trip_iff.

(* fuse_old, the rule without the NaN test: a NaN current melts the fuse with time 0 *)
Theorem C29_fuse_trip_iff_old_refuted :
  exists i_start i_stop cv (i : F), tripped (fuse_old i_start i_stop cv i) = true /\
    ~ (exists x, i = Some x /\ i_start <= x * 1000).
Proof. exists 100, 1000, 1, None. split; [reflexivity|]. intros (x & E & _). discriminate. Qed.
Print Assumptions C29_fuse_trip_iff_old_refuted.

(* DTOC, consistent grading (t>> <= t>, or the I>> stage not above the I> stage): trip time non-increasing in the current *)
Theorem C29_dtoc_antitone : forall s i1 i2,
  (t_gg s <= t_g s \/ I_gg s <= I_g s) -> i1 <= i2 ->
  tle (ttime (dtoc s (Some i2))) (ttime (dtoc s (Some i1))).
Proof.
  intros s i1 i2 G H.
  destruct (dtoc_region s i1) as [(A1 & ->) | [(A1 & B1 & ->) | (A1 & B1 & ->)]]; cbn [ttime].
  - (* i1 in the I>> stage: so is i2 *)
    destruct (dtoc_region s i2) as [(A2 & ->) | [(A2 & _) | (A2 & _)]]; [apply tle_refl | lra | lra].
  - (* i1 in the I> stage below I>>: i2 there, or in the I>> stage, and then the grading gives t>> <= t> *)
    destruct (dtoc_region s i2) as [(A2 & ->) | [(A2 & B2 & ->) | (_ & B2 & _)]];
      [cbn; destruct G; lra | apply tle_refl | lra].
  - apply tle_inf.
Qed.
Print Assumptions C29_dtoc_antitone.

Theorem C29_dtoc_ungraded_refuted :
  exists s i1 i2, i1 <= i2 /\ ~ tle (ttime (dtoc s (Some i2))) (ttime (dtoc s (Some i1))).
Proof.
  exists {| I_g := 1; I_gg := 2; t_g := 1 # 10; t_gg := 1 |}, (3 # 2), 3.
  split; [vm_compute; discriminate|]. vm_compute. intros H. apply H. reflexivity.
Qed.
Print Assumptions C29_dtoc_ungraded_refuted.

Theorem C29_dtoc_trip_iff : forall s i, I_g s <= I_gg s -> (tripped (dtoc s (Some i)) = true <-> I_g s < i).
Proof.
  intros s i G. destruct (dtoc_region s i) as [(A & ->) | [(_ & B & ->) | (_ & B & ->)]]; cbn [tripped].
  - split; [intros _; lra | reflexivity].
  - split; [intros _; exact B | reflexivity].
  - split; [discriminate | lra].
Qed.
Print Assumptions C29_dtoc_trip_iff.

(* IDMT and IDTOC, for every power oracle pw (= (i/I_s)^alpha) that exceeds 1 above I_s and is non-decreasing there *)
Theorem C29_idmt_antitone : forall s (pw : Q -> Q),
  (forall i, I_s s < i -> 1 < pw i) ->
  (forall i1 i2, I_s s < i1 -> i1 <= i2 -> pw i1 <= pw i2) ->
  0 <= tms s * kk s ->
  forall i1 i2, i1 <= i2 -> tle (ttime (idmt s (pw i2) (Some i2))) (ttime (idmt s (pw i1) (Some i1))).
Proof. exact idmt_antitone. Qed.
Print Assumptions C29_idmt_antitone.

Theorem C29_idtoc_antitone : forall s (pw : Q -> Q),
  (forall i, I_s s < i -> 1 < pw i) ->
  (forall i1 i2, I_s s < i1 -> i1 <= i2 -> pw i1 <= pw i2) ->
  0 <= tms s * kk s ->
  forall d, I_s s <= I_g d -> I_g d <= I_gg d -> t_gg d <= t_g d ->
  (I_s s < I_g d -> tle (TFin (t_g d)) (idmt_time s (pw (I_g d)))) ->
  forall i1 i2, i1 <= i2 -> tle (ttime (idtoc d s (pw i2) (Some i2))) (ttime (idtoc d s (pw i1) (Some i1))).
Proof. exact idtoc_antitone. Qed.
Print Assumptions C29_idtoc_antitone.

Theorem C29_idmt_trip_iff : forall s p i, tripped (idmt s p (Some i)) = true <-> I_s s < i.
Proof.
  intros s p i. destruct (idmt_region s p i) as [(A & ->) | (A & ->)]; cbn [tripped].
  - split; [intros _; exact A | reflexivity].
  - split; [discriminate | lra].
Qed.
Print Assumptions C29_idmt_trip_iff.

Theorem C29_idtoc_trip_iff : forall s d, I_s s <= I_g d -> I_g d <= I_gg d ->
  forall p i, tripped (idtoc d s p (Some i)) = true <-> I_s s < i.
Proof.
  intros s d g1 g2 p i.
  destruct (idtoc_region d s p i) as [(A & ->) | [(_ & B & ->) | [(_ & _ & C & ->) | (_ & _ & C & ->)]]]; cbn [tripped].
  - split; [intros _; lra | reflexivity].
  - split; [intros _; lra | reflexivity].
  - split; [intros _; exact C | reflexivity].
  - split; [discriminate | lra].
Qed.
Print Assumptions C29_idtoc_trip_iff.

(* the reported activation value is the switch current of the chosen result table *)
Theorem C29_activation_value_is_switch_current : forall s a b v,
  select s a b = Some v -> (s = Sc /\ v = a) \/ (s = Pp /\ v = b).
Proof. intros s a b v. destruct s; cbn; intros H; inversion H; auto. Qed.
Print Assumptions C29_activation_value_is_switch_current.

(* where the relay gets its settings from (C29/Grading.v: time_grading + the reads of create_protection_function) ----
   DataFrame form (DTOC columns switch_id,t_gg,t_g / IDMT columns switch_id,tms,t_grade), read by the switch_id column: for
   EVERY frame with unique switch ids — any row order, any row labels — the relay of switch s holds the user's values of the
   row with switch_id = s *)
Theorem C29_frame_times_are_users : forall g c rows r, c = ColsDtoc \/ c = ColsIdmt -> NoDup (map sid rows) -> In r rows ->
  relay_times DTOC g (TFrame c rows) (sid r) = Ok {| r_tg := Some (c2 r); r_tgg := Some (c1 r); r_tms := None; r_tgrade := None |} /\
  relay_times IDMT g (TFrame c rows) (sid r) = Ok {| r_tg := None; r_tgg := None; r_tms := Some (c1 r); r_tgrade := Some (c2 r) |}.
Proof.
  intros g c rows r Hc Hn Hr. unfold relay_times, relay_times_with, time_grading. simpl bind.
  rewrite (frame_table c rows Hc). unfold setting_at. rewrite (by_sid_frame rows r Hn Hr). split; reflexivity.
Qed.
Print Assumptions C29_frame_times_are_users.
Example C29_frame_nonvacuous :
  let rows := [{| lbl := 7; sid := 1; c1 := 5 # 100; c2 := 4 # 5 |}; {| lbl := 3; sid := 0; c1 := 7 # 100; c2 := 1 # 2 |}] in
  NoDup (map sid rows) /\
  relay_times DTOC {| paths := []; par := []; lines := []; closed := [] |} (TFrame ColsDtoc rows) 1 =
    Ok {| r_tg := Some (4 # 5); r_tgg := Some (5 # 100); r_tms := None; r_tgrade := None |}.
Proof.
  simpl. split; [apply NoDup_by_nodup|]; reflexivity.
Qed.
(* relay_times_old reads the rows by ROW LABEL: correct only if every row is labelled with its switch id, and wrong otherwise *)
Theorem C29_frame_times_are_users_old_partial : forall g c rows r, c = ColsDtoc \/ c = ColsIdmt ->
  G29_frame_labels rows = true -> NoDup (map sid rows) -> In r rows ->
  relay_times_old DTOC g (TFrame c rows) (sid r) = Ok {| r_tg := Some (c2 r); r_tgg := Some (c1 r); r_tms := None; r_tgrade := None |} /\
  relay_times_old IDMT g (TFrame c rows) (sid r) = Ok {| r_tg := None; r_tgg := None; r_tms := Some (c1 r); r_tgrade := Some (c2 r) |}.
Proof.
  intros g c rows r Hc G Hn Hr. unfold relay_times_old, relay_times_with, time_grading. simpl bind.
  rewrite (frame_table c rows Hc). unfold series_at. rewrite (by_label_frame rows r G Hn Hr). split; reflexivity.
Qed.
Print Assumptions C29_frame_times_are_users_old_partial.
Theorem C29_frame_times_are_users_old_refuted : exists g c rows r, (c = ColsDtoc \/ c = ColsIdmt) /\ NoDup (map sid rows) /\ In r rows /\
  relay_times_old DTOC g (TFrame c rows) (sid r) <> Ok {| r_tg := Some (c2 r); r_tgg := Some (c1 r); r_tms := None; r_tgrade := None |}.
Proof.
  exists {| paths := []; par := []; lines := []; closed := [] |}, ColsDtoc,
    [{| lbl := 0; sid := 1; c1 := 1 # 100; c2 := 1 # 10 |}; {| lbl := 1; sid := 0; c1 := 4 # 100; c2 := 4 # 10 |}],
    {| lbl := 1; sid := 0; c1 := 4 # 100; c2 := 4 # 10 |}.
  split; [left; reflexivity|]. split.
  - apply NoDup_by_nodup. reflexivity.
  - split; [right; left; reflexivity|]. vm_compute. intros H. discriminate H.
Qed.
Print Assumptions C29_frame_times_are_users_old_refuted.

(* list form (topological grading), the code as it is: in every net with a unique switch index — open switches, gapped or shuffled
   switch ids included — the relay of a closed switch s holds the user's t>> and the stage time t> + depth * t_diff of ITS OWN line *)
Theorem C29_list_stage_time_is_own : forall g a b c s el v,
  NoDup (map fst (closed g)) -> In (s, el) (closed g) -> get (line_time g b c) el = Some v ->
  forall tab, grading_list g [a; b; c] = Ok tab ->
  relay_times DTOC g (TList [a; b; c]) s = Ok {| r_tg := Some v; r_tgg := Some a; r_tms := None; r_tgrade := None |}.
Proof.
  intros g a b c s el v Hn Hin Hget tab E.
  destruct (grading_list_rows g a b c tab E) as (rows & SR & ->).
  destruct (switch_rows_spec _ _ _ _ SR) as [K I].
  assert (ND : NoDup (map p_sid (relabel 0 (sort_sid rows)))).
  { rewrite relabel_sid. apply (Permutation_NoDup (l := map key rows)).
    - apply Permutation_map. apply Permutation_sym. apply sort_sid_perm.
    - rewrite K. exact Hn. }
  destruct (relabel_in (sort_sid rows) 0 s v a) as (k' & Ir); [apply sort_sid_in; apply (I s el v Hin Hget)|].
  set (r := {| p_lbl := k'; p_sid := s; p_tg := v; p_tgg := a |}) in *.
  pose proof (filter_key_unique p_sid _ r ND Ir) as F. change (p_sid r) with s in F.
  unfold relay_times, relay_times_with, time_grading. rewrite E. simpl bind.
  unfold setting_at, by_sid. rewrite F. reflexivity.
Qed.
Print Assumptions C29_list_stage_time_is_own.
Example C29_list_nonvacuous :
  let g := {| paths := [[0%Z]; [0%Z; 1%Z]]; par := []; lines := [0%Z; 1%Z]; closed := [(7%Z, 1%Z); (2%Z, 0%Z)] |} in
  NoDup (map fst (closed g)) /\ get (line_time g (1 # 2) (1 # 4)) 0%Z = Some (3 # 4) /\
  relay_times DTOC g (TList [1 # 16; 1 # 2; 1 # 4]) 2 = Ok {| r_tg := Some (3 # 4); r_tgg := Some (1 # 16); r_tms := None; r_tgrade := None |} /\
  relay_times DTOC g (TList [1 # 16; 1 # 2; 1 # 4]) 7 = Ok {| r_tg := Some (1 # 2); r_tgg := Some (1 # 16); r_tms := None; r_tgrade := None |}.
Proof.
  cbv zeta. split; [apply NoDup_by_nodup; reflexivity|].
  repeat split; vm_compute; reflexivity.
Qed.
(* whenever the relay can be constructed its t>> (DTOC) / tms (IDMT) IS the user's value *)
Theorem C29_list_tgg_is_users : forall g a b c s rt, relay_times DTOC g (TList [a; b; c]) s = Ok rt -> r_tgg rt = Some a.
Proof.
  intros g a b c s rt. unfold relay_times, relay_times_with, time_grading.
  destruct (grading_list g [a; b; c]) as [tab|] eqn:E; [|discriminate]. simpl bind.
  destruct (setting_at p_tg tab s) as [tg|]; [|discriminate]. simpl bind.
  destruct (setting_at p_tgg tab s) as [tgg|] eqn:E2; [|discriminate]. simpl bind. intros H. inversion H.
  rewrite (lookup_tgg g a b c tab s tgg E E2). reflexivity.
Qed.
Print Assumptions C29_list_tgg_is_users.
Theorem C29_list_tms_is_users : forall g a b s rt, relay_times IDMT g (TList [a; b]) s = Ok rt -> r_tms rt = Some a.
Proof.
  intros g a b s rt. unfold relay_times, relay_times_with, time_grading.
  rewrite grading_list_two.
  destruct (grading_list g [a; b; b]) as [tab|] eqn:E; [|discriminate]. simpl bind.
  destruct (setting_at p_tg tab s) as [tg|]; [|discriminate]. simpl bind.
  destruct (setting_at p_tgg tab s) as [tgg|] eqn:E2; [|discriminate]. simpl bind. intros H. inversion H.
  rewrite (lookup_tgg g a b b tab s tgg E E2). reflexivity.
Qed.
Print Assumptions C29_list_tms_is_users.
(* relay_times_old reads the table row at POSITION s (sorted by switch id): its own row only when the closed switches are
   0 .. n-1, another switch's stage time or a KeyError otherwise *)
Theorem C29_list_old_reads_row_at_position : forall g a b c s tab, grading_list g [a; b; c] = Ok tab -> (0 <= s)%Z ->
  exists l, tab = relabel 0 l /\
    relay_times_old DTOC g (TList [a; b; c]) s =
    match nth_error l (Z.to_nat s) with
    | Some (_, tg, tgg) => Ok {| r_tg := Some tg; r_tgg := Some tgg; r_tms := None; r_tgrade := None |}
    | None => Raise "KeyError"%string
    end.
Proof. exact list_old_reads_position. Qed.
Print Assumptions C29_list_old_reads_row_at_position.
Theorem C29_list_stage_time_is_own_old_partial : forall g a b c s el v,
  G29_list_positions g = true -> In (s, el) (closed g) -> get (line_time g b c) el = Some v ->
  forall tab, grading_list g [a; b; c] = Ok tab ->
  relay_times_old DTOC g (TList [a; b; c]) s = Ok {| r_tg := Some v; r_tgg := Some a; r_tms := None; r_tgrade := None |}.
Proof.
  intros g a b c s el v G Hin Hget tab E.
  destruct (grading_list_rows g a b c tab E) as (rows & SR & ->).
  destruct (switch_rows_spec _ _ _ _ SR) as [K I].
  unfold G29_list_positions, G29_positions in G. apply zlist_eqb_eq in G.
  set (n := List.length (map (fun r => fst (fst r)) (sort_sid (map (fun se : Z * Z => (fst se, 0, 0)) (closed g))))) in G.
  (* keys of the sorted rows are 0 .. n-1 *)
  assert (S1 : map strip rows = map (fun se : Z * Z => (fst se, 0, 0)) (closed g)).
  { rewrite <- (map_map fst (fun k => (k, 0, 0))). rewrite <- K. rewrite map_map. reflexivity. }
  assert (KS : map key (sort_sid rows) = zseq 0 n).
  { rewrite <- map_key_strip, sort_sid_strip, S1. exact G. }
  assert (Hs : In s (zseq 0 n)).
  { rewrite <- KS. apply in_map_iff. exists (s, v, a). split; [reflexivity|]. apply sort_sid_in. apply (I s el v Hin Hget). }
  apply zseq_in in Hs.
  assert (Ln : List.length (sort_sid rows) = n) by (rewrite <- (map_length key), KS, zseq_len; reflexivity).
  destruct (nth_error (sort_sid rows) (Z.to_nat s)) as [x|] eqn:N.
  2:{ apply nth_error_None in N. lia. }
  assert (Kx : key x = s).
  { assert (M : nth_error (map key (sort_sid rows)) (Z.to_nat s) = Some (key x)) by (rewrite nth_error_map, N; reflexivity).
    rewrite KS, zseq_nth in M by lia. inversion M. lia. }
  assert (X : x = (s, v, a)).
  { apply (nodup_key_inj (sort_sid rows)); [rewrite KS; apply zseq_nodup | apply (nth_error_In _ _ N) | | exact Kx].
    apply sort_sid_in. apply (I s el v Hin Hget). }
  rewrite (old_reads_position g a b c s (sort_sid rows) E), N, X by lia. reflexivity.
Qed.
Print Assumptions C29_list_stage_time_is_own_old_partial.
Theorem C29_list_stage_time_is_own_old_refuted : exists g a b c s el v rt, NoDup (map fst (closed g)) /\ In (s, el) (closed g) /\
  get (line_time g b c) el = Some v /\ relay_times_old DTOC g (TList [a; b; c]) s = Ok rt /\ r_tg rt <> Some v.
Proof.
  exists {| paths := [[0%Z]; [0%Z; 1%Z]]; par := []; lines := [0%Z; 1%Z]; closed := [(1%Z, 0%Z); (5%Z, 1%Z)] |},
    (1 # 16), (1 # 2), (1 # 4), 1%Z, 0%Z, (3 # 4).
  eexists. split; [apply NoDup_by_nodup; reflexivity|].
  split; [left; reflexivity|]. split; [vm_compute; reflexivity|]. split; [vm_compute; reflexivity|].
  simpl. intros H. inversion H.
Qed.
Print Assumptions C29_list_stage_time_is_own_old_refuted.

(* manual pick-up currents, the code as it is: the relay of switch s holds the user's row with switch_id = s (any order) *)
Theorem C29_pickup_is_users : forall rows r, NoDup (map k_sid rows) -> In r rows -> pickup_by_sid rows (k_sid r) = Ok r.
Proof. intros rows r Hn Hr. unfold pickup_by_sid. rewrite (filter_key_unique k_sid rows r Hn Hr). reflexivity. Qed.
Print Assumptions C29_pickup_is_users.
Theorem C29_pickup_is_users_sound : forall rows r s, pickup_by_sid rows s = Ok r -> In r rows /\ k_sid r = s.
Proof.
  intros rows r s. unfold pickup_by_sid.
  destruct (filter (fun r0 => Z.eqb (k_sid r0) s) rows) as [|x [|? ?]] eqn:F; try discriminate.
  intros H. inversion H; subst x.
  assert (I : In r (filter (fun r0 => Z.eqb (k_sid r0) s) rows)) by (rewrite F; left; reflexivity).
  apply filter_In in I. destruct I as [I1 I2]. apply Z.eqb_eq in I2. split; assumption.
Qed.
Print Assumptions C29_pickup_is_users_sound.
(* pickup_iloc reads them by row POSITION *)
Theorem C29_pickup_is_users_old_partial : forall rows r s, G29_positions (map k_sid rows) = true -> pickup_iloc rows s = Ok r -> k_sid r = s.
Proof.
  intros rows r s. unfold G29_positions, pickup_iloc. intros G. apply zlist_eqb_eq in G.
  destruct (Z.ltb s 0) eqn:E; [discriminate|]. apply Z.ltb_ge in E.
  destruct (nth_error rows (Z.to_nat s)) as [r'|] eqn:N; [|discriminate]. intros H. inversion H; subst r'.
  assert (M : nth_error (map k_sid rows) (Z.to_nat s) = Some (k_sid r)) by (rewrite nth_error_map, N; reflexivity).
  rewrite G in M. rewrite zseq_nth in M.
  - inversion M. lia.
  - rewrite map_length. apply nth_error_Some. rewrite N. discriminate.
Qed.
Print Assumptions C29_pickup_is_users_old_partial.
Theorem C29_pickup_is_users_old_refuted : exists rows r s, pickup_iloc rows s = Ok r /\ k_sid r <> s.
Proof.
  exists [{| k_sid := 1; k_Ig := 1; k_Igg := 2 # 1; k_Is := 1 # 10 |}; {| k_sid := 0; k_Ig := 1 # 2; k_Igg := 3 # 1; k_Is := 1 # 5 |}],
    {| k_sid := 1; k_Ig := 1; k_Igg := 2 # 1; k_Is := 1 # 10 |}, 0%Z.
  split; [reflexivity | discriminate].
Qed.
Print Assumptions C29_pickup_is_users_old_refuted.

Close Scope Q_scope.
Open Scope R_scope.

(* over the reals the true power function satisfies the two oracle hypotheses, and the IDMT curve
   tms*k / ((i/I_s)^alpha - 1) + t_grade is antitone in the current above the pick-up value *)
Theorem C29_power_oracle_hypotheses : forall Is alpha, 0 < Is -> 0 < alpha ->
  (forall i, Is < i -> 1 < pw Is alpha i) /\
  (forall i1 i2, Is < i1 -> i1 <= i2 -> pw Is alpha i1 <= pw Is alpha i2).
Proof. intros Is alpha H1 H2. split; [intros i; apply Rpw_gt1 | intros i1 i2; apply Rpw_mono]; assumption. Qed.
Print Assumptions C29_power_oracle_hypotheses.

Theorem C29_idmt_curve_antitone : forall Is alpha c tg i1 i2,
  0 < Is -> 0 < alpha -> 0 <= c -> Is < i1 -> i1 <= i2 ->
  idmt_curve Is alpha c tg i2 <= idmt_curve Is alpha c tg i1.
Proof. exact idmt_antitone_R. Qed.
Print Assumptions C29_idmt_curve_antitone.
