(* C20 — JSON save/load loses nothing: the cell codec (lemmas in C20/Proofs.v) and the column / table level (C20/ColumnProofs.v) *)
From Coq Require Import ZArith QArith Qabs List Bool String Lqa.
From PPV Require Import Base.QN C20.Model C20.Proofs C20.Column C20.ColumnProofs.
Import ListNotations.
Open Scope Q_scope.

(* floats in fixed notation (1e-15 <= |x| <= 1e16): the text carries x to within 0.5e-15 (bound of the property: 1e-14) *)
Theorem C20_float_roundtrip_within : forall q, Qabs (round_fixed q - q) <= (1 # 2) / p10 15.
Proof.
  intros q. unfold round_fixed. autorewrite with qn.
  pose proof (p10_pos 15) as P. pose proof (Qinv_lt_0_compat _ P) as P'.
  assert (E : q * p10 15 == q / / p10 15) by (field; lra).
  rewrite E. apply round_to_multiple. exact P'.
Qed.
Print Assumptions C20_float_roundtrip_within.
(* floats in exponent notation: 15 significant digits, |r - x| <= scale/2 with scale*1e14 <= |x| *)
Theorem C20_float_roundtrip_sig_within : forall q scale r, 0 < scale -> round_sig q scale = Some r ->
  Qabs (r - q) <= (1 # 2) * scale /\ scale * p10 14 <= Qabs q.
Proof.
  intros q scale r Hs. unfold round_sig.
  destruct (qleb (p10 14) (qdiv (qabs q) scale) && qltb (qdiv (qabs q) scale) (p10 15))%bool eqn:G; [|discriminate].
  intros [= <-]. apply andb_true_iff in G. destruct G as [G1 _]. apply qleb_le in G1. revert G1. autorewrite with qn. intros G1.
  split; [apply round_to_multiple; exact Hs|].
  rewrite qabs_correct in G1. apply (Qmult_le_compat_r _ _ scale) in G1; [|lra].
  assert (X : Qabs q / scale * scale == Qabs q) by (field; lra). rewrite X in G1. lra.
Qed.
Print Assumptions C20_float_roundtrip_sig_within.
Theorem C20_decode_float_ok : forall q, (q == 0 \/ min_normal <= Qabs q) -> decode DFloat (JNum q) = Some (CF q).
Proof.
  intros q [H|H]; unfold decode.
  - rewrite (proj2 (qeqb_eq q 0) H). reflexivity.
  - rewrite (proj2 (qltb_ge (qabs q) min_normal)), andb_false_r; [reflexivity | rewrite qabs_correct; exact H].
Qed.
Print Assumptions C20_decode_float_ok.
Example C20_float_nonvacuous : roundtrip DFloat 1 (CF (1 # 3)) = Some (CF (333333333333333 # 1000000000000000)).
Proof. exact fixed_nonvacuous. Qed.

(* ints, bools, None/NA, NaN of float columns and every string (incl. numeric-looking ones) come back identical,
   under the boolean guard G20_exact (not a float, not an infinity, no NaN inside an object column) *)
Theorem C20_cell_roundtrip_exact_partial : forall d scale c, fits d c = true -> G20_exact d c = true -> roundtrip d scale c = Some c.
Proof. intros d scale c H G. destruct d, c; try discriminate; reflexivity. Qed.
Print Assumptions C20_cell_roundtrip_exact_partial.
Theorem C20_str_roundtrip_full : forall s scale,
  roundtrip DObject scale (CS s) = Some (CS s) /\ roundtrip DString scale (CS s) = Some (CS s).
Proof. split; reflexivity. Qed.
Print Assumptions C20_str_roundtrip_full.
Theorem C20_missing_stays_missing : forall d scale c, fits d c = true -> (c = CNaN \/ c = CNone) ->
  exists c', roundtrip d scale c = Some c' /\ cell_equiv c c'.
Proof. intros d scale c H [-> | ->]; destruct d; try discriminate; eexists; split; try reflexivity; exact I. Qed.
Print Assumptions C20_missing_stays_missing.

(* the full statement is refuted: +-inf is written as null and read as NaN; a subnormal float is written with 15
   significant digits and the reader raises "Range error" *)
Theorem C20_inf_refuted : exists d scale c, fits d c = true /\ roundtrip d scale c = Some CNaN /\ ~ cell_equiv c CNaN.
Proof. exists DFloat, 1, (CInf false). repeat split. discriminate. Qed.
Print Assumptions C20_inf_refuted.
Theorem C20_subnormal_refuted : fits DFloat (CF q_sub) = true /\ roundtrip DFloat sc_sub (CF q_sub) = None.
Proof. split; vm_compute; reflexivity. Qed.
Print Assumptions C20_subnormal_refuted.

(* Column / table level (C20/Column.v): the writer stores per column the dtype string and the tokens of the cells; the
   reader [decode_col] infers a raw dtype from the tokens (DataFrame constructor), applies astype(stored dtype) (keeping
   the raw data when astype raises) and resets the nulls of object columns to None.  One round-trip theorem per stored
   dtype class the code distinguishes; [fitsall d cs] = the column can hold the cells. *)

(* int64 / bool / string / nullable Int64 columns: the dtype and every cell come back exactly, for every column content
   (also empty; an Int64 column with missing values travels as float64 and is converted back; an all-missing one as object) *)
Theorem C20_col_roundtrip_int : forall cs, fitsall DInt cs = true -> decode_col DInt (encode_col cs) = ColOk DInt (map snd cs).
Proof.
  intros cs. apply (col_roundtrip_exact DInt is_jint (fun t => match t with JInt z => CI z | _ => CNone end)).
  - reflexivity.
  - intros s [] ?; try discriminate; split; reflexivity.
  - intros [] ?; try discriminate; reflexivity.
  - intros ts T. rewrite (infer_all_int _ T). split; [destruct (nonempty ts); reflexivity|].
    intros [] ?; try discriminate. destruct (nonempty ts); reflexivity.
Qed.
Print Assumptions C20_col_roundtrip_int.
Theorem C20_col_roundtrip_bool : forall cs, fitsall DBool cs = true -> decode_col DBool (encode_col cs) = ColOk DBool (map snd cs).
Proof.
  intros cs. apply (col_roundtrip_exact DBool is_jbool (fun t => match t with JBool b => CB b | _ => CNone end)).
  - reflexivity.
  - intros s [] ?; try discriminate; split; reflexivity.
  - intros [] ?; try discriminate; reflexivity.
  - intros ts T. rewrite (infer_all_bool _ T). split; [destruct (nonempty ts); reflexivity|].
    intros [] ?; try discriminate. destruct (nonempty ts); reflexivity.
Qed.
Print Assumptions C20_col_roundtrip_bool.
Theorem C20_col_roundtrip_string : forall cs, fitsall DString cs = true -> decode_col DString (encode_col cs) = ColOk DString (map snd cs).
Proof.
  intros cs. apply (col_roundtrip_exact DString is_strnull (fun t => match t with JStr s => CS s | _ => CNone end)).
  - reflexivity.
  - intros s [] ?; try discriminate; split; reflexivity.
  - intros [] ?; try discriminate; reflexivity.
  - intros ts T. rewrite (infer_strnull _ T). split; [reflexivity|]. intros [] ?; try discriminate; reflexivity.
Qed.
Print Assumptions C20_col_roundtrip_string.
Theorem C20_col_roundtrip_nullint : forall cs, fitsall DNullInt cs = true ->
  decode_col DNullInt (encode_col cs) = ColOk DNullInt (map snd cs).
Proof.
  (* the tokens are all ints (raw int64), ints and nulls (raw float64: the ints travel as floats and are converted back)
     or all null (raw object) *)
  intros cs. apply (col_roundtrip_exact DNullInt is_inull (fun t => match t with JInt z => CI z | _ => CNone end)).
  - reflexivity.
  - intros s [] ?; try discriminate; split; reflexivity.
  - intros [] ?; try discriminate; reflexivity.
  - intros ts T. rewrite (infer_inull _ T).
    destruct (nonempty ts && forallb is_jint ts)%bool; [split; [reflexivity|]; intros [] ?; try discriminate; reflexivity|].
    destruct (existsb is_jnum ts); (split; [reflexivity|]); intros [q|z| | | |] ?; try discriminate; try reflexivity.
    apply conv_nullint_float.
Qed.
Print Assumptions C20_col_roundtrip_nullint.
Example C20_col_nullint_nonvacuous :
  decode_col DNullInt (encode_col [(1, CI 5); (1, CNone); (1, CI (-3))]) = ColOk DNullInt [CI 5; CNone; CI (-3)].
Proof. exact col_nullint_nonvacuous. Qed.

(* float64 column without a cell written as a subnormal: dtype float64 restored, same rows, every cell is the result of the
   per-cell codec (error bounds: C20_float_roundtrip_within / _sig_within; NaN stays NaN; +-inf -> NaN is the known finding) *)
Theorem C20_col_roundtrip_float_partial : forall cs, fitsall DFloat cs = true -> existsb is_err (encode_col cs) = false ->
  decode_col DFloat (encode_col cs) = ColOk DFloat (map fdec (encode_col cs)) /\
  map (fun p => roundtrip DFloat (fst p) (snd p)) cs = map Some (map fdec (encode_col cs)).
Proof.
  intros cs H He. unfold fitsall in H. rewrite forallb_forall in H.
  (* every written token is a number that is no range error, or null *)
  assert (T0 : forall p, In p cs -> is_fnull (encode (fst p) (snd p)) = true).
  { intros p Hp. pose proof (no_err_in cs p He Hp) as Hn. specialize (H p Hp).
    destruct (snd p); try discriminate; try reflexivity.
    cbn [encode] in *. unfold enc_float in *. destruct (qeqb q 0); [reflexivity|]. destruct (in_fixed_range q); [reflexivity|].
    destruct (round_sig q (fst p)); [reflexivity | discriminate]. }
  assert (T : forallb is_fnull (encode_col cs) = true).
  { apply forallb_forall. intros t Ht. apply in_map_iff in Ht. destruct Ht as [p [<- Hp]]. exact (T0 p Hp). }
  split.
  - rewrite (decode_col_ok DFloat (encode_col cs) fdec); [reflexivity | exact He | |];
      rewrite (infer_fnull _ T); [destruct (existsb is_jnum (encode_col cs)); reflexivity|].
    intros t Ht. rewrite forallb_forall in T. specialize (T t Ht).
    destruct t; try discriminate; destruct (existsb is_jnum (encode_col cs)); reflexivity.
  - apply cells_as_decoded. intros p Hp. pose proof (no_err_in cs p He Hp) as Hn. specialize (T0 p Hp).
    destruct (encode (fst p) (snd p)); try discriminate; [|reflexivity].
    cbn [is_err] in Hn. cbn [decode]. rewrite Hn. reflexivity.
Qed.
Print Assumptions C20_col_roundtrip_float_partial.
Example C20_col_float_inf_refuted :
  decode_col DFloat (encode_col [(1, CInf false); (1, CF (1 # 2))]) = ColOk DFloat [CNaN; CF (1 # 2)].
Proof. exact col_float_inf_refuted. Qed.

(* object column holding at least one string (names, types, ...): raw dtype object, dtype object restored, every cell is the
   result of the per-cell codec of class DObject (strings, bools, ints exact; NaN/None -> None by the null reset) *)
Theorem C20_col_roundtrip_object_partial : forall cs,
  existsb (fun p => match snd p with CS _ => true | _ => false end) cs = true -> existsb is_err (encode_col cs) = false ->
  decode_col DObject (encode_col cs) = ColOk DObject (map odec (encode_col cs)) /\
  map (fun p => roundtrip DObject (fst p) (snd p)) cs = map Some (map odec (encode_col cs)).
Proof.
  intros cs Hs He.
  assert (K : infer (encode_col cs) = RObj).
  { apply infer_robj_of. apply existsb_exists in Hs. destruct Hs as [p [Hp Hc]]. apply existsb_exists.
    exists (encode (fst p) (snd p)). split; [apply (in_map (fun p => encode (fst p) (snd p))); exact Hp|].
    destruct (snd p); try discriminate. reflexivity. }
  split.
  - rewrite (decode_col_ok DObject (encode_col cs) odec); [| exact He | rewrite K; reflexivity |].
    + cbn [post]. rewrite map_map. f_equal. apply map_ext. intros []; reflexivity.
    + intros t Ht. rewrite K. destruct t; reflexivity.
  - apply cells_as_decoded. intros p Hp. pose proof (no_err_in cs p He Hp) as Hn.
    destruct (encode (fst p) (snd p)); try reflexivity; try discriminate.
    cbn [is_err] in Hn. cbn [decode]. rewrite Hn. reflexivity.
Qed.
Print Assumptions C20_col_roundtrip_object_partial.
(* without a string the statement "ints stay ints" is false: an all-numeric object column with a missing value is parsed as
   float64, its ints come back as floats (class DObjNum of the cell codec, computed by col_class) *)
Example C20_col_objnum_refuted :
  decode_col DObject (encode_col [(1, CI 1); (1, CNone)]) = ColOk DObject [CF (inject_Z 1); CNone] /\
  col_class DObject [CI 1; CNone] = DObjNum.
Proof. exact col_objnum_ints_become_floats. Qed.

(* tables: the index labels, the column names and their order are those of the saved table; column i is decoded with its
   own stored dtype *)
Theorem C20_table_roundtrip_shape : forall t,
  fst (decode_table (encode_table t)) = t_index t /\
  map fst (snd (decode_table (encode_table t))) = map fst (t_cols t) /\
  List.length (snd (decode_table (encode_table t))) = List.length (t_cols t).
Proof.
  intros t. unfold decode_table, encode_table. cbn [fst snd j_index j_cols]. repeat split.
  - rewrite !map_map. reflexivity.
  - rewrite !map_length. reflexivity.
Qed.
Print Assumptions C20_table_roundtrip_shape.
Theorem C20_table_roundtrip_cols : forall t,
  snd (decode_table (encode_table t)) =
  map (fun c => (fst c, decode_col (fst (snd c)) (encode_col (snd (snd c))))) (t_cols t).
Proof. intros t. unfold decode_table, encode_table. cbn [fst snd j_cols]. rewrite map_map. reflexivity. Qed.
Print Assumptions C20_table_roundtrip_cols.
