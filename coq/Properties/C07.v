(* C07 — property theorems (supporting lemmas in Base/C07Graph.v, C07/UnionFind.v, C07/Proofs.v, C07/Aux.v).
   Model: C07/Model.v (power-flow connectivity on the ppc rows, result NaN rule, create_nxgraph + unsupplied_buses).
   Spec:  C07/Spec.v  (Supplied = the property text; SuppliedPF / SuppliedT = what the two modules implement). *)
From Coq Require Import List Bool Arith Lia QArith.
From PPV Require Import Base.Lists Base.C07Graph C07.Model C07.UnionFind C07.Spec C07.Proofs C07.Aux.
Import ListNotations.
Local Open Scope nat_scope.

(* ds_create of build_bus.py never loops: the disjoint-set forest exists for every net ... *)
Theorem C07_ds_find_terminates : forall n, exists ar, forest_of n = Some ar.
Proof. intros n. destruct (forest_of_some n) as [ar [H _]]. eauto. Qed.
Print Assumptions C07_ds_find_terminates.

(* ... and two buses share a ppc row iff they are connected by closed zero-impedance bus-bus switches between
   in-service buses (any chain, any order of the switch table, any root-selection flags) *)
Theorem C07_bus_lookup_fuses_exactly : forall n a b, rep n a = rep n b <-> upath (fuse_edges n) a b.
Proof. exact rep_iff_fused. Qed.
Print Assumptions C07_bus_lookup_fuses_exactly.

(* power flow: a bus has a finite (non-NaN) voltage row exactly when it is in service and SuppliedPF *)
Theorem C07_nan_iff_not_supplied_pf : forall n b,
  nan_bus n b = false <-> (bus_is n b = true /\ SuppliedPF n b).
Proof. intros n b. unfold nan_bus. apply nan_with_iff; [apply rep_iff_fused|apply rep_idem]. Qed.
Print Assumptions C07_nan_iff_not_supplied_pf.

(* topology module: unsupplied_buses(net) = the graph nodes that are not SuppliedT *)
Theorem C07_topo_unsupplied_iff : forall n b,
  In b (topo_unsupplied n) <-> (In b (nx_nodes n) /\ ~ SuppliedT n b).
Proof.
  intros n b.
  unfold topo_unsupplied. rewrite in_flat_map. split.
  - intros [c [C H]]. destruct (existsb _ _) eqn:E; [contradiction|].
    destruct (components_class nat Nat.eq_dec _ _ _ C) as [x [X Cl]].
    assert (Xb : upath (nx_edges n) x b) by now apply Cl.
    split; [eapply nx_path_nodes; eauto|].
    intros S. destruct (suppliedT_path _ _ S) as [s [A [Os P]]].
    assert (In s c). { apply Cl. eapply upath_trans; [exact Xb|]. now apply upath_sym. }
    assert (existsb (fun s0 => mem Nat.eq_dec s0 c) (topo_slacks n) = true).
    { apply existsb_exists. exists s. split; [now apply topo_slacks_iff|now apply mem_In]. }
    congruence.
  - intros [V NS]. destruct (components_cover nat Nat.eq_dec (nx_edges n) _ _ V) as [c [C B]].
    exists c. split; auto. destruct (existsb _ _) eqn:E; auto. exfalso. apply NS.
    apply existsb_exists in E. destruct E as [s [Ss M]]. apply mem_In in M. apply topo_slacks_iff in Ss.
    destruct (components_class nat Nat.eq_dec _ _ _ C) as [x [X Cl]].
    assert (Ps : upath (nx_edges n) s b).
    { eapply upath_trans; [apply upath_sym; apply Cl; exact M|now apply Cl]. }
    apply (nx_path_supplied n s b Ps). apply SB_slack; auto.
    assert (In s (nx_nodes n)). { eapply nx_path_nodes; [apply Cl; exact M|exact X]. }
    unfold nx_nodes in H. apply filter_In in H. destruct H as [_ H]. now apply negb_true_iff in H.
Qed.
Print Assumptions C07_topo_unsupplied_iff.

(* neither module loses a bus that the property text calls supplied *)
Theorem C07_supplied_is_solved : forall n b, Supplied n b -> nan_bus n b = false /\ ~ In b (topo_unsupplied n).
Proof.
  intros n b S. split.
  - apply C07_nan_iff_not_supplied_pf. split; [apply (supplied_ok _ _ _ _ S)|now apply supplied_supplied_pf].
  - intros U. apply C07_topo_unsupplied_iff in U. destruct U as [_ U]. apply U. now apply supplied_suppliedT.
Qed.
Print Assumptions C07_supplied_is_solved.

(* the property, under the guard G07 (no in-service dcline; references of in-service branches and closed bus-bus
   switches resolve) and distinct trafo3w terminals: for every bus of the bus table,
   finite voltage <=> Supplied, and reported by the topology module <=> in service and not Supplied *)
Theorem C07_unsupplied_nan_topology_partial : forall n, G07 n = true -> t3_distinct n = true ->
  forall b, bus_known n b = true ->
  (nan_bus n b = false <-> Supplied n b) /\
  (In b (topo_unsupplied n) <-> (bus_is n b = true /\ ~ Supplied n b)).
Proof.
  intros n.
  intros G Dt b K. split.
  - rewrite C07_nan_iff_not_supplied_pf. split.
    + intros [_ S]. now apply supplied_pf_supplied.
    + intros S. split; [apply (supplied_ok _ _ _ _ S)|now apply supplied_supplied_pf].
  - rewrite C07_topo_unsupplied_iff, (nx_nodes_known n b K). split; intros [A B]; split; auto; intros S; apply B.
    + now apply supplied_suppliedT.
    + now apply suppliedT_supplied.
Qed.
Print Assumptions C07_unsupplied_nan_topology_partial.

(* without the guard the full statement is false of the faithful model: a bus fed only through a dcline is NaN in the power flow but not reported by the topology module *)
Theorem C07_topo_eq_pf_refuted :
  exists n b, bus_is n b = true /\ nan_bus n b = true /\ ~ In b (topo_unsupplied n).
Proof. exists w_dcline, 2. repeat split; try (vm_compute; reflexivity). vm_compute. tauto. Qed.
Print Assumptions C07_topo_eq_pf_refuted.
(* regression witness: without the repair "the connectivity check does not walk through out-of-service buses" the power
   flow does not isolate an in-service bus behind an out-of-service bus (two impedances) *)
Theorem C07_pf_isolated_iff_supplied_old_refuted :
  exists n b, bus_is n b = true /\ nan_bus_old n b = false /\ ~ Supplied n b.
Proof.
  exists w_bridge, 3. repeat split; try (vm_compute; reflexivity).
  intros S. apply supplied_suppliedT in S.
  assert (U : In 3 (topo_unsupplied w_bridge)) by (vm_compute; auto).
  apply C07_topo_unsupplied_iff in U. tauto.
Qed.
Print Assumptions C07_pf_isolated_iff_supplied_old_refuted.
Example C07_bridge_now_isolated : nan_bus w_bridge 3 = true /\ G07 w_bridge = true.
Proof. vm_compute. split; reflexivity. Qed.
Print Assumptions C07_bridge_now_isolated.

Example C07_partial_nonvacuous :
  G07 w_ok = true /\ t3_distinct w_ok = true /\
  map (nan_bus w_ok) [0; 1; 2; 3; 4; 5; 6] = [false; false; true; true; true; false; false] /\
  topo_unsupplied w_ok = [4; 2] /\ rep w_ok 6 = rep w_ok 5.
Proof. exact c07_partial_nonvacuous. Qed.
Print Assumptions C07_partial_nonvacuous.

(* numbering: row k = k-th bus of net.bus; then one internal row per xward, then one star-point row per trafo3w
   (build_bus.py:341-353); the rows of _switch_branches / _branches_with_oos_buses follow (all_nodes); net._isolated_buses
   lists exactly the numbers of the rows the search does not reach *)
Theorem C07_row_of_bus : forall n rp k r, nth_error (buses n) k = Some r -> nth_error (all_nodes rp n) k = Some (L (NB (b_id r))).
Proof.
  intros n rp k r.
  intros H. unfold all_nodes. rewrite nth_error_app1.
  - exact (map_nth_error (fun r : bus => L (NB (b_id r))) k (buses n) H).
  - rewrite map_length. apply nth_error_Some. congruence.
Qed.
Print Assumptions C07_row_of_bus.
Theorem C07_row_of_xward : forall n rp j, j < length (xwards n) ->
  nth_error (all_nodes rp n) (length (buses n) + j) = Some (L (NXW j)).
Proof.
  intros n rp j H. unfold all_nodes. rewrite nth_error_app2; rewrite map_length; [|lia].
  replace (length (buses n) + j - length (buses n)) with j by lia.
  rewrite nth_error_app1; [|rewrite map_length, enum_length; exact H].
  exact (nth_map_enum _ _ (fun j => L (NXW j)) _ j H).
Qed.
Print Assumptions C07_row_of_xward.
Theorem C07_row_of_trafo3w : forall n rp j, j < length (trafo3ws n) ->
  nth_error (all_nodes rp n) (length (buses n) + length (xwards n) + j) = Some (L (NT3 j)).
Proof.
  intros n rp j H. unfold all_nodes. rewrite nth_error_app2; rewrite map_length; [|lia].
  rewrite nth_error_app2; rewrite map_length, enum_length; [|lia].
  replace (length (buses n) + length (xwards n) + j - length (buses n) - length (xwards n)) with j by lia.
  rewrite nth_error_app1; [|rewrite map_length, enum_length; exact H].
  exact (nth_map_enum _ _ (fun j => L (NT3 j)) _ j H).
Qed.
Print Assumptions C07_row_of_trafo3w.
Theorem C07_isolated_rows_exact : forall n rp R k,
  In k (isolated_rows_with rp R n) <-> exists x, nth_error (all_nodes rp n) k = Some x /\ isolated_in R x = true.
Proof.
  intros n rp R k. unfold isolated_rows_with. rewrite in_flat_map_if. split.
  - intros [[i x] [I [E <-]]]. exists x. split; auto. now apply enum_In_nth.
  - intros [x [H E]]. exists (k, x). repeat split; auto. now apply enum_In_nth.
Qed.
Print Assumptions C07_isolated_rows_exact.

(* an auxiliary row never changes the supplied set: the row of a bus is reached iff the bus is SuppliedPF (whatever
   auxiliary rows exist), and each auxiliary row is reached exactly when its element conducts to a reached bus row —
   xward internal bus: the xward is an in-service element at a SuppliedPF bus; *)
Theorem C07_bus_row_isolated_iff : forall n b, isolated n (L (NB (rep n b))) = false <-> SuppliedPF n b.
Proof. intros n b. rewrite isolated_false. apply bus_row_reached; [apply rep_iff_fused|apply rep_idem]. Qed.
Print Assumptions C07_bus_row_isolated_iff.
Theorem C07_xward_row_isolated_iff : forall n j,
  isolated n (L (NXW j)) = false <->
  exists x, In (j, x) (enum (xwards n)) /\ x_is x = true /\ bus_is n (x_bus x) = true /\ SuppliedPF n (x_bus x).
Proof. intros n j. rewrite isolated_false. apply aux_xward_row_reached; [apply rep_iff_fused|apply rep_idem]. Qed.
Print Assumptions C07_xward_row_isolated_iff.
(* trafo3w star point: the trafo3w is in service and some winding without open switch ends at a SuppliedPF bus that is
   not out of service; *)
Theorem C07_trafo3w_row_isolated_iff : forall n j,
  isolated n (L (NT3 j)) = false <->
  exists t s, In (j, t) (enum (trafo3ws n)) /\ t_is t = true /\ s < 3 /\
              t3_open_pf n t s = false /\ bus_oos n (t3_bus t s) = false /\ SuppliedPF n (t3_bus t s).
Proof. intros n j. rewrite isolated_false. apply aux_trafo3w_row_reached; [apply rep_iff_fused|apply rep_idem]. Qed.
Print Assumptions C07_trafo3w_row_isolated_iff.
(* auxiliary bus at an open line / trafo / trafo3w switch or at the out-of-service end of a line (D o kind j side p):
   it names the row l at the other end of its branch (o = Some l), and it is reached iff that branch is a status-1 branch
   of the search graph and l is reached; a branch re-routed at both ends (o = None) is never reached *)
Theorem C07_switch_row_isolated_iff : forall n o k j s p,
  isolated n (D o k j s p) = false <->
  exists l, o = Some l /\ In (D o k j s p, L l) (sym (ppc_edges (rep n) n)) /\ isolated n (L l) = false.
Proof.
  intros n o k j s p. rewrite isolated_false, (aux_switch_row_reached n (rep n) (rep_iff_fused n) (rep_idem n)).
  split; intros [l [A [B C]]]; exists l; repeat split; auto; now apply isolated_false.
Qed.
Print Assumptions C07_switch_row_isolated_iff.

Example C07_aux_rows_nonvacuous :
  all_nodes (rep w_ok) w_ok = [L (NB 0); L (NB 1); L (NB 2); L (NB 3); L (NB 4); L (NB 5); L (NB 6); L (NT3 0);
                               D (Some (NB 2)) 0 1 0 0; D (Some (NT3 0)) 2 0 1 2; D (Some (NB 2)) 3 2 1 0] /\
  map (isolated w_ok) (all_nodes (rep w_ok) w_ok) = [false; false; true; true; true; false; true; false; true; false; true] /\
  isolated_rows w_ok = [2; 3; 4; 6; 8; 10].
Proof. exact aux_rows_nonvacuous. Qed.
Print Assumptions C07_aux_rows_nonvacuous.

(* zero power of dead elements, ext_grid rows: an ext_grid that is not an in-service element reports exactly 0 *)
Theorem C07_ext_grid_zero : forall egs k e, nth_error egs k = Some e -> snd (fst e) = false ->
  nth_error (res_ext_grid_p egs) k = Some (Some 0%Q).
Proof.
  intros egs k e.
  unfold res_ext_grid_p. intros H D. rewrite nth_error_map, H. simpl. now rewrite D.
Qed.
Print Assumptions C07_ext_grid_zero.
(* regression witness: before the repair "res_ext_grid is written also when no ext_grid is in service" it reported NaN *)
Theorem C07_ext_grid_zero_old_refuted :
  exists egs k e, nth_error egs k = Some e /\ snd (fst e) = false /\ nth_error (res_ext_grid_p_old egs) k = Some None.
Proof. exists [(false, false, 0%Q)], 0%nat, (false, false, 0%Q). repeat split. Qed.
Print Assumptions C07_ext_grid_zero_old_refuted.
