(* C19 — state estimation: property theorems *)
From Coq Require Import ZArith QArith List Bool Permutation Lia Lqa.
From PPV Require Import Base.QN Base.QC C19.Model C19.Proofs C19.Jacobian.
Import ListNotations.
Open Scope Q_scope.

(* _merge_mask + boolean row selection: for the strictly increasing index lists produced by np.flatnonzero the
   Jacobian rows of the P (Q) measurements come out in exactly the order in which h(x) and z list them *)
Theorem C19_merge_mask_rows_aligned : forall m1 m2,
  strictly_sorted m1 = true -> strictly_sorted m2 = true ->
  rows_P m1 m2 = rows_hx m1 /\ rows_Q m1 m2 = rows_hx m2.
Proof.
  intros m1 m2 H1 H2. unfold rows_P, rows_Q, merge_mask, rows_hx.
  split; apply select_isin_mask; try assumption; intros x Hx; apply in_app_iff; auto.
Qed.
Print Assumptions C19_merge_mask_rows_aligned.

(* the invariant is needed: an unsorted mask would misalign H and h(x) *)
Theorem C19_merge_mask_unsorted_refuted : exists m1 m2, rows_P m1 m2 <> rows_hx m1.
Proof. exists [2; 1]%nat, []. vm_compute. discriminate. Qed.
Print Assumptions C19_merge_mask_unsorted_refuted.

Example C19_merge_mask_nonvacuous :
  strictly_sorted [0; 2; 5]%nat = true /\ strictly_sorted [1; 2]%nat = true /\
  rows_P [0; 2; 5]%nat [1; 2]%nat = [0; 2; 5]%nat.
Proof. vm_compute. repeat split. Qed.

(* bus-injection measurement function = sum of the branch-flow measurement functions at the bus + shunt term:
   exact power-flow values of all three kinds form one consistent (zero-residual) measurement set *)
Theorem C19_h_bus_is_sum_of_h_branch : forall V i ysh brs,
  S_bus V i (stamp_row i ysh brs) ==c
  Cadd (Cmul (nthC V i) (Cconj (Cmul ysh (nthC V i)))) (Csum (inj_S V i brs)).
Proof.
  intros V i ysh brs. unfold S_bus, Ibus_row, stamp_row. cbn [map fst snd]. rewrite Csum_cons.
  rewrite Ibus_stamp_branches, inj_S_of_I, <- Cmul_conj_Csum, Cconj_add. ring.
Qed.
Print Assumptions C19_h_bus_is_sum_of_h_branch.

(* z = h(x): the right-hand side H^T R^-1 r of the normal equations vanishes and the WLS objective attains its
   global minimum 0 *)
Theorem C19_zero_residual_rhs_zero : forall ms j,
  (forall m, In m ms -> res m == 0) -> rhs j ms == 0.
Proof. exact rhs_zero_residual. Qed.
Print Assumptions C19_zero_residual_rhs_zero.

Theorem C19_zero_residual_is_global_minimum : forall ms ms',
  (forall m, In m ms -> res m == 0) -> (forall m, In m ms' -> 0 <= wgt m) ->
  objective ms == 0 /\ objective ms <= objective ms'.
Proof.
  intros ms ms' H W. pose proof (objective_zero_residual ms H) as A. pose proof (objective_nonneg ms' W) as B.
  split; [exact A | rewrite A; exact B].
Qed.
Print Assumptions C19_zero_residual_is_global_minimum.

(* with a nonsingular gain matrix the step computed by the linear solver (oracle: G d = rhs) is zero: the
   power-flow state is a fixed point of the WLS iteration, the loop stops with current_error = 0 <= tolerance *)
Theorem C19_zero_residual_fixed_point : forall n ms d,
  (forall m, In m ms -> res m == 0) ->
  (forall j, (j < n)%nat -> gain_times n ms d j == rhs j ms) ->
  (forall d', (forall j, (j < n)%nat -> gain_times n ms d' j == 0) -> forall k, (k < n)%nat -> nth k d' 0 == 0) ->
  forall k, (k < n)%nat -> nth k d 0 == 0.
Proof. exact zero_residual_fixed_point. Qed.
Print Assumptions C19_zero_residual_fixed_point.

(* G, the right-hand side and the objective are sums over the measurements: any reordering leaves them unchanged *)
Theorem C19_normal_equations_order_invariant : forall ms ms' j k, Permutation ms ms' ->
  gain j k ms == gain j k ms' /\ rhs j ms == rhs j ms' /\ objective ms == objective ms'.
Proof.
  intros ms ms' j k P. unfold gain, rhs, objective.
  repeat split; apply qsum_perm; apply Permutation_map; exact P.
Qed.
Print Assumptions C19_normal_equations_order_invariant.

(* redundant readings of one quantity (values z_i, standard deviations s_i) are replaced by their weighted mean with
   std s = sqrt(1/sum(1/s_i^2)) (oracle: s*s == merged_var): same contribution to G and to the right-hand side *)
Theorem C19_redundant_measurements_equiv_merged : forall h hx zs s j k,
  ~ wsum zs == 0 -> s * s == merged_var zs ->
  gain j k (dup_meas h hx zs) == gain j k [merged_meas h hx zs s] /\
  rhs j (dup_meas h hx zs) == rhs j [merged_meas h hx zs s].
Proof.
  intros h hx zs s j k HW Hs.
  assert (Hv : merged_var zs == 1 / wsum zs) by (unfold merged_var; fold (wsum zs); qstrip; reflexivity).
  assert (Hs0 : ~ s * s == 0).
  { rewrite Hs, Hv. intro X. apply HW. assert (Y : wsum zs * (1 / wsum zs) == 1) by (field; exact HW).
    rewrite X in Y. lra. }
  assert (Hw : 1 / (s * s) == wsum zs) by (rewrite Hs, Hv; field; exact HW).
  rewrite dup_gain, dup_rhs. unfold gain, rhs, merged_meas. cbn [map]. rewrite !qsum_cons, !qsum_nil.
  unfold col. cbn [hrow wgt res]. unfold merged_value. fold (wsum zs) (wzsum zs). qstrip.
  split.
  - rewrite Hw. ring.
  - rewrite Hw. field. exact HW.
Qed.
Print Assumptions C19_redundant_measurements_equiv_merged.

Example C19_redundant_nonvacuous :
  let zs := [(1, 1 # 2); (3, 1 # 2); (1, 1 # 2); (3, 1 # 2)] in
  ~ wsum zs == 0 /\ (1 # 4) * (1 # 4) == merged_var zs /\ merged_value zs == 2.
Proof. vm_compute. repeat split; intro H; discriminate H. Qed.

(* "no bad data is flagged": the chi^2 / largest-normalised-residual tests read solver.r.  With
   "fix: WLS state estimation stores residual, Jacobian and gain matrix of the returned state" the stored residual is
   the residual z - h(x) of the returned state for every iteration history, hence 0 on exact data *)
Theorem C19_stored_residual_is_final : forall h z x0 steps,
  stored_residual h z x0 steps == z - h (final_state h z x0 steps).
Proof.
  intros. unfold stored_residual, final_state. destruct (wls_loop h z x0 0 steps) as [x r]. cbn [fst]. qstrip. reflexivity.
Qed.
Print Assumptions C19_stored_residual_is_final.

Theorem C19_stored_residual_zero_on_exact_data : forall h z x0 steps,
  z == h (final_state h z x0 steps) -> stored_residual h z x0 steps == 0.
Proof. intros h z x0 steps H. rewrite C19_stored_residual_is_final. lra. Qed.
Print Assumptions C19_stored_residual_zero_on_exact_data.

(* stored_residual_old (r of the last loop pass) violates it (regression witness) and is right only when the last
   increment is exactly zero *)
Theorem C19_stored_residual_old_refuted :
  exists (h : Q -> Q) z x0 steps,
    z - h (final_state h z x0 steps) == 0 /\ ~ stored_residual_old h z x0 steps == z - h (final_state h z x0 steps).
Proof.
  exists (fun x => x), 1, 0, [1]. vm_compute. split; [reflexivity | intro H; discriminate H].
Qed.
Print Assumptions C19_stored_residual_old_refuted.

Theorem C19_stored_residual_old_partial : forall h z x0 steps,
  (forall a b, a == b -> h a == h b) ->
  G19_last_step_zero steps = true ->
  stored_residual_old h z x0 steps == z - h (final_state h z x0 steps).
Proof.
  intros h z x0 steps Hh G. unfold G19_last_step_zero in G.
  destruct (rev steps) as [|d l] eqn:E; [discriminate|].
  assert (steps = rev l ++ [d]) as -> by (rewrite <- (rev_involutive steps), E; reflexivity).
  apply qeqb_eq in G. unfold stored_residual_old, final_state. rewrite wls_loop_app. cbn [fst snd]. qstrip.
  apply Qplus_inj_l. apply Qopp_comp. apply Hh. rewrite qadd_correct, G. ring.
Qed.
Print Assumptions C19_stored_residual_old_partial.

Example C19_stored_residual_nonvacuous : G19_last_step_zero [1 # 2; 1 # 4; 0] = true.
Proof. reflexivity. Qed.

(* d^T G d = sum_i w_i (h_i . d)^2 : with positive weights G d = 0 forces h_i . d = 0 for every measurement, so for a
   Jacobian of full column rank (observable system) the zero-residual state is a fixed point without assuming anything
   about G itself *)
Theorem C19_gain_quadratic_form : forall n ms d,
  qf_l n (seq 0 n) ms d == qsum (map (fun m => qmul (wgt m) (qmul (hd n m d) (hd n m d))) ms).
Proof. exact quadratic_form. Qed.
Print Assumptions C19_gain_quadratic_form.

Theorem C19_zero_residual_fixed_point_full_rank : forall n ms d,
  (forall m, In m ms -> res m == 0) ->
  (forall m, In m ms -> 0 < wgt m) ->
  (forall j, (j < n)%nat -> gain_times n ms d j == rhs j ms) ->
  (forall d', (forall m, In m ms -> hd n m d' == 0) -> forall k, (k < n)%nat -> nth k d' 0 == 0) ->
  forall k, (k < n)%nat -> nth k d 0 == 0.
Proof.
  intros n ms d Hr Hw Hs Hrank k Hk. apply Hrank; [|exact Hk].
  apply gain_kernel; [exact Hw|]. intros j Hj. rewrite (Hs j Hj). apply rhs_zero_residual. exact Hr.
Qed.
Print Assumptions C19_zero_residual_fixed_point_full_rank.

Example C19_full_rank_nonvacuous :
  let ms := [{| hrow := [1; 0]; wgt := 4; res := 0 |}; {| hrow := [1; 1]; wgt := 1; res := 0 |}] in
  (forall m, In m ms -> 0 < wgt m) /\ (forall m, In m ms -> res m == 0) /\
  (forall d', (forall m, In m ms -> hd 2 m d' == 0) -> forall k, (k < 2)%nat -> nth k d' 0 == 0).
Proof.
  cbv zeta. split; [|split].
  - intros m [<-|[<-|[]]]; reflexivity.
  - intros m [<-|[<-|[]]]; reflexivity.
  - intros d' H k Hk.
    pose proof (H _ (or_introl eq_refl)) as A. pose proof (H _ (or_intror (or_introl eq_refl))) as B.
    unfold hd, hd_l, col in A, B. cbn [seq map hrow nth] in A, B. rewrite !qsum_cons, qsum_nil in A, B. qnorm.
    destruct k as [|[|k]]; [lra | lra | lia].
Qed.

(* the Jacobian rows of a branch are the derivatives of h
   Model: C19.Model.dS_dth_s/dS_dth_e/dS_dvm_s/dS_dvm_e (= _dSbr_dv, real part = dP row, imaginary part = dQ row) and
   dIm_dth/dIm_dvm (= _dImbr_dV), for the "own side" bus s and the other end e of one branch (from side: ys = yff,
   ye = yft; to side: ys = ytt, ye = ytf).  S_side ys ye Vs Ve = Vs*conj(ys*Vs + ye*Ve) is the measurement function
   of create_hx.  Polar state of a bus: pol = (vm, cos th, sin th), the pair being an oracle; an angle increment delta is
   given by the oracle pair (cd, sd) = (cos delta, sin delta); move p cd sd dv is the state (th + delta, vm + dv).
   DS is the real-linear differential of S in rectangular coordinates; lin p sd dv = sd*(j*V) + dv*(V/|V|) is the
   first-order displacement of V and rho the rest of it. *)

(* rectangular form: S is a quadratic form; the expansion is exact and the remainder is the quadratic form of the increment *)
Theorem C19_S_rectangular_expansion : forall ys ye Vs Ve dVs dVe,
  S_side ys ye (Cadd Vs dVs) (Cadd Ve dVe) ==c
  Cadd (Cadd (S_side ys ye Vs Ve) (DS ys ye Vs Ve dVs dVe)) (S_side ys ye dVs dVe).
Proof. intros. unfold S_side, DS. rewrite I_side_add, Cconj_add. ring. Qed.
Print Assumptions C19_S_rectangular_expansion.

Theorem C19_S_remainder_is_quadratic : forall ys ye t dVs dVe,
  S_side ys ye (Cscale t dVs) (Cscale t dVe) ==c Cscale (t * t) (S_side ys ye dVs dVe).
Proof. intros. unfold S_side, I_side. push_conj. ring. Qed.
Print Assumptions C19_S_remainder_is_quadratic.

(* the four entries of a _dSbr_dv row are the differential applied to the tangent vectors of the polar parametrisation:
   d/dth_k -> j*V_k, d/dvm_k -> V_k/|V_k| *)
Theorem C19_dSbr_entries_are_partial_derivatives : forall ys ye s e,
  dS_dth_s ys ye s e ==c DS ys ye (Vof s) (Vof e) (Cmul Cj (Vof s)) C0 /\
  dS_dth_e ys ye s e ==c DS ys ye (Vof s) (Vof e) C0 (Cmul Cj (Vof e)) /\
  dS_dvm_s ys ye s e ==c DS ys ye (Vof s) (Vof e) (Vn s) C0 /\
  dS_dvm_e ys ye s e ==c DS ys ye (Vof s) (Vof e) C0 (Vn e).
Proof. exact dS_entries_are_DS. Qed.
Print Assumptions C19_dSbr_entries_are_partial_derivatives.

(* the polar parametrisation: exact displacement of V, the moved pair is again a unit pair, and rho is of second order
   (every term carries sd*sd or dv*sd) *)
Theorem C19_polar_displacement : forall p cd sd dv,
  Vof (move p cd sd dv) ==c Cadd (Cadd (Vof p) (lin p sd dv)) (rho p cd sd dv).
Proof. intros. rewrite move_displacement. apply Cadd_assoc. Qed.
Print Assumptions C19_polar_displacement.

Theorem C19_polar_move_keeps_unit : forall p cd sd dv,
  unit (pc p) (ps p) -> unit cd sd -> unit (pc (move p cd sd dv)) (ps (move p cd sd dv)).
Proof.
  intros p cd sd dv H1 H2. unfold unit, move in *. cbn [pc ps]. qstrip.
  setoid_replace ((pc p * cd - ps p * sd) * (pc p * cd - ps p * sd) + (ps p * cd + pc p * sd) * (ps p * cd + pc p * sd))
    with ((pc p * pc p + ps p * ps p) * (cd * cd + sd * sd)) by ring.
  rewrite H1, H2. ring.
Qed.
Print Assumptions C19_polar_move_keeps_unit.

Theorem C19_polar_rest_is_second_order : forall p cd sd dv, unit cd sd -> ~ 1 + cd == 0 ->
  rho p cd sd dv ==c
  Cadd (Cscale (- (sd * sd) / (1 + cd)) (Cadd (Vof p) (Cscale dv (Vn p)))) (Cscale (dv * sd) (Cmul Cj (Vn p))).
Proof.
  intros p cd sd dv H N.
  assert (E : cd - 1 == - (sd * sd) / (1 + cd)).
  { rewrite <- (one_minus_cos cd sd H). field. exact N. }
  rewrite <- E. unfold rho. generalize (Vof p) (Vn p). intros V n. cstrip; ring.
Qed.
Print Assumptions C19_polar_rest_is_second_order.

(* power-flow rows: h(x (+) d) - h(x) - J*d equals, exactly, the differential of the second-order rest plus the quadratic
   form of the whole displacement - no first-order term is left, for every state, every increment, every branch *)
Theorem C19_dSbr_first_order_exact : forall ys ye s e cds sds dvs cde sde dve,
  let s' := move s cds sds dvs in let e' := move e cde sde dve in
  Csub (Csub (S_side ys ye (Vof s') (Vof e')) (S_side ys ye (Vof s) (Vof e))) (Jd_S ys ye s e sds sde dvs dve) ==c
  Cadd (DS ys ye (Vof s) (Vof e) (rho s cds sds dvs) (rho e cde sde dve))
       (S_side ys ye (Cadd (lin s sds dvs) (rho s cds sds dvs)) (Cadd (lin e sde dve) (rho e cde sde dve))).
Proof.
  intros ys ye s e cds sds dvs cde sde dve s' e'. unfold s', e'.
  rewrite !move_displacement, C19_S_rectangular_expansion, DS_add, Jd_S_is_DS_lin. ring.
Qed.
Print Assumptions C19_dSbr_first_order_exact.

(* current-magnitude rows: J*d is the linear form re(conj(I)/|I| * dI_lin) ... *)
Theorem C19_dImbr_entries_are_partial_derivatives : forall ys ye s e m sds sde dvs dve,
  Jd_I ys ye s e m sds sde dvs dve ==
  re (Cmul (Inorm ys ye s e m) (I_side ys ye (lin s sds dvs) (lin e sde dve))).
Proof.
  intros. unfold Jd_I, dIm_dth, dIm_dvm, I_side, lin.
  generalize (Inorm ys ye s e m) (Vof s) (Vof e) (Vn s) (Vn e). intros n Vs Ve Ns Ne. cunfold. qstrip. ring.
Qed.
Print Assumptions C19_dImbr_entries_are_partial_derivatives.

(* ... and with the oracles m = |I(x)|, m' = |I(x (+) d)| (constrained by their squares) the deviation m' - m - J*d times
   the positive number m' + m is a sum of second-order terms (|dI|^2, (J*d + r2)*(m' - m), r2*(m' + m) with r2 linear in rho) *)
Theorem C19_dImbr_first_order_exact : forall ys ye s e cds sds dvs cde sde dve m m',
  let s' := move s cds sds dvs in let e' := move e cde sde dve in
  let I := I_side ys ye (Vof s) (Vof e) in
  let dI := I_side ys ye (Cadd (lin s sds dvs) (rho s cds sds dvs)) (Cadd (lin e sde dve) (rho e cde sde dve)) in
  ~ m == 0 -> m * m == cnorm2 I -> m' * m' == cnorm2 (I_side ys ye (Vof s') (Vof e')) ->
  let Jd := Jd_I ys ye s e m sds sde dvs dve in
  let r2 := re (Cmul (Inorm ys ye s e m) (I_side ys ye (rho s cds sds dvs) (rho e cde sde dve))) in
  (m' - m - Jd) * (m' + m) == cnorm2 dI - (Jd + r2) * (m' - m) + r2 * (m' + m).
Proof.
  intros ys ye s e cds sds dvs cde sde dve m m' s' e' I dI Hm H1 H2 Jd r2.
  unfold s', e' in H2. rewrite !move_displacement, I_side_add in H2. fold I dI in H2.
  pose proof (abs_taylor I dI m m' Hm H1 H2) as T. cbv zeta in T.
  (* the linear term of abs_taylor splits along dI = I(lin) + I(rho) into Jd + r2; the rest is linear in T *)
  assert (EJ : re (Cmul (Cscale (1 / m) (Cconj I)) dI) == Jd + r2).
  { unfold Jd, r2, dI. rewrite C19_dImbr_entries_are_partial_derivatives, I_side_add, Cmul_add_distr.
    unfold Inorm. rewrite (qdiv_correct 1 m). apply qadd_correct. }
  rewrite EJ in T. clearbody I dI Jd r2. lra.
Qed.
Print Assumptions C19_dImbr_first_order_exact.

(* non-vacuity: a series branch y = 3-4j between V_s = 1.1*(3/5+4/5j) and V_e = 1.0*(3/5+4/5j), both angles advanced by
   (cos, sin) = (12/13, 5/13), vm_s raised by 0.1: unit pairs, |I| = 1/2 before and 1 after, 1 + cd <> 0 *)
Example C19_jacobian_nonvacuous :
  let ys := mkC 3 (-4) in let ye := mkC (-3) 4 in
  let s := {| vm := 11 # 10; pc := 3 # 5; ps := 4 # 5 |} in let e := {| vm := 1; pc := 3 # 5; ps := 4 # 5 |} in
  let s' := move s (12 # 13) (5 # 13) (1 # 10) in let e' := move e (12 # 13) (5 # 13) 0 in
  unit (pc s) (ps s) /\ unit (12 # 13) (5 # 13) /\ ~ 1 + (12 # 13) == 0 /\
  ~ (1 # 2) == 0 /\ (1 # 2) * (1 # 2) == cnorm2 (I_side ys ye (Vof s) (Vof e)) /\
  1 * 1 == cnorm2 (I_side ys ye (Vof s') (Vof e')) /\
  ~ Jd_S ys ye s e (5 # 13) (5 # 13) (1 # 10) 0 ==c C0.
Proof.
  vm_compute. repeat split; try (intro H; discriminate H). intros [H _]. discriminate H.
Qed.
