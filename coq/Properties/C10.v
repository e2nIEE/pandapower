(* C10 — distributed slack: property theorems (lemmas in C10/Proofs.v and C10/Islands.v; split model of C01).
   n : net with the gen rows' reference flags widened (rows with SL_FAC != 0), ref : reference buses widened by the
   buses with SL_FAC_BUS != 0 (run_newton_raphson_pf.py:77-90);  s : the slack variable of the Newton iteration;
   ds_mism = Newton P mismatch of the bus + w_bus*s*baseMVA (zero on convergence);  dev = PG after pfsoln - PG setpoint.
   The model follows the repaired code (weights paired with the bus of their own xward, per-bus weighted xward shares,
   pfsoln adds the demand the solver used); the rules before the repairs are kept as *_old and refuted. *)
From Coq Require Import ZArith QArith Qabs List Bool Lia Lqa.
From PPV Require Import Base.QN Base.QC C01.Model C01.Proofs C01.Balance C10.Model C10.Proofs C10.Islands.
From PPV Require Base.C07Graph.
Import ListNotations.
Open Scope Q_scope.

(* every participating (or reference) gen / ext_grid row deviates by  - s*baseMVA * w_g / W : the same value per unit
   of weight on every bus, whatever the mix of rows and loads (ZIP included) at its bus *)
Theorem C10_gen_share : forall n ref k v sinj wb s W g,
  memn k ref = true -> In g (gens_on_at n k) -> g_ref g = true ->
  ((1 < length (gens_on_at n k))%nat -> 0 < sumf g_w (filter g_ref (gens_on_at n k))) ->
  wb * W == sumf g_w (filter g_ref (gens_on_at n k)) ->
  ds_mism n k v sinj wb s == 0 ->
  dev n ref g v sinj * W == - (s * base n) * g_w g.
Proof.
  intros n ref k v sinj wb s W g.
  intros Hr Hin Hg Hsw HW Hm.
  pose proof (split_ok_ref _ _ _ Hin Hg) as Hs.
  pose proof (bus_deviation n ref k v sinj wb s Hr Hs Hm) as HD. rewrite (gen_p_sum _ _ _ _ _ Hr Hs) in HD.
  unfold dev. rewrite qsub_correct.
  destruct (Nat.ltb 1 (length (gens_on_at n k))) eqn:L.
  - (* several rows: weighted split; the bus deviation -(wb s base) is shared out by w / sw, and sw = wb W *)
    apply Nat.ltb_lt in L. specialize (Hsw L).
    rewrite (pg_after_weighted _ _ _ _ _ _ Hin Hr Hg L Hsw).
    rewrite (sumf_partition g_ref g_pg (gens_on_at n k)) in HD.
    set (sw := sumf g_w (filter g_ref (gens_on_at n k))) in *.
    set (A := sumf g_pg (filter g_ref (gens_on_at n k))) in *.
    set (B := sumf g_pg (filter (fun x => negb (g_ref x)) (gens_on_at n k))) in *.
    setoid_replace (p_bus n k v sinj - B - A) with (- (wb * s * base n)) by (rewrite <- HD; ring).
    transitivity (- (s * base n) * g_w g * (wb * W / sw)); [field; lra | rewrite HW; field; lra].
  - (* a single row takes the whole bus deviation *)
    apply Nat.ltb_ge in L.
    destruct (length_one (gens_on_at n k)) as [g0 E0]; [destruct (gens_on_at n k); [destruct Hin | cbn in *; lia]|].
    rewrite E0 in Hin. destruct Hin as [<-|[]].
    rewrite (pg_after_single _ _ _ _ _ _ E0 Hr).
    rewrite E0, sumf_cons, sumf_nil in HD.
    rewrite E0, (filter_single _ _ Hg), sumf_cons, sumf_nil in HW.
    setoid_replace (g_w g0) with (wb * W) by (rewrite HW; ring).
    setoid_replace (p_bus n k v sinj - g_pg g0) with (- (wb * s * base n)) by (rewrite <- HD; ring).
    ring.
Qed.
Print Assumptions C10_gen_share.

Theorem C10_equal_ratio : forall n ref s W v1 v2 sinj1 sinj2 g1 g2,
  ~ W == 0 ->
  dev n ref g1 v1 sinj1 * W == - (s * base n) * g_w g1 ->
  dev n ref g2 v2 sinj2 * W == - (s * base n) * g_w g2 ->
  dev n ref g1 v1 sinj1 * g_w g2 == dev n ref g2 v2 sinj2 * g_w g1.
Proof.
  intros n ref s W v1 v2 sinj1 sinj2 g1 g2.
  intros HW H1 H2.
  assert (E1 : dev n ref g1 v1 sinj1 == - (s * base n) * g_w g1 / W) by (rewrite <- H1; field; exact HW).
  assert (E2 : dev n ref g2 v2 sinj2 == - (s * base n) * g_w g2 / W) by (rewrite <- H2; field; exact HW).
  rewrite E1, E2. field. exact HW.
Qed.
Print Assumptions C10_equal_ratio.

Theorem C10_non_participants_keep_setpoints : forall n ref g v sinj,
  memn (g_bus g) ref = false \/ (g_ref g = false /\ (1 < length (gens_on_at n (g_bus g)))%nat) ->
  dev n ref g v sinj == 0.
Proof. intros n ref g v sinj. intros H. unfold dev. rewrite (pg_after_keeps _ _ _ _ _ H), qsub_correct. ring. Qed.
Print Assumptions C10_non_participants_keep_setpoints.

(* xwards (consumption up = generation down): every participating xward gets  w_bus*s*baseMVA * w_x / (weight of its bus),
   for any number of xwards and any other elements on the bus; with w_bus * W = weight of the bus this is the same
   s*baseMVA/W per unit of weight as for the gens.  Non-participating xwards keep ps. *)
Theorem C10_xward_share : forall n ref vs xws x sinj wb s,
  memn (xr_k x) ref = true -> has_gen n (xr_k x) = false ->
  ~ xw_weight x == 0 -> ~ xw_bus_weight xws (xr_k x) == 0 ->
  ds_mism n (xr_k x) (vof vs (xr_k x)) sinj wb s == 0 ->
  (xward_row n vs (fun k => PD_after n ref k sinj) xws x - qmul (xr_ps x) (b2q (xr_on x))) * xw_bus_weight xws (xr_k x)
  == wb * s * base n * xw_weight x.
Proof.
  intros n ref vs xws x sinj wb s.
  intros Hr Hg Hw Hwb Hm. unfold xward_row.
  destruct (qeqb (xw_weight x) 0) eqn:E0; [apply qeqb_eq in E0; contradiction|].
  destruct (qeqb (xw_bus_weight xws (xr_k x)) 0) eqn:E1; [apply qeqb_eq in E1; contradiction|].
  unfold PD_after. rewrite Hr. unfold has_gen in Hg. apply negb_false_iff in Hg. rewrite Hg. cbn [andb].
  unfold ds_mism in Hm. rewrite qadd_correct, !qmul_correct, mism_p_eq in Hm.
  apply Nat.eqb_eq, length_zero_iff_nil in Hg. rewrite Hg, sumf_nil in Hm.
  set (SL := re (Sload n (xr_k x) (vof vs (xr_k x)))) in *.
  qstrip. field_simplify_eq; [|exact Hwb]. nra.
Qed.
Print Assumptions C10_xward_share.
Theorem C10_xward_non_participants_keep_setpoints : forall n vs pd xws x,
  xw_weight x == 0 -> xward_row n vs pd xws x == qmul (xr_ps x) (b2q (xr_on x)).
Proof. intros n vs pd xws x. intros H. unfold xward_row. apply qeqb_eq in H. rewrite H. qstrip. ring. Qed.
Print Assumptions C10_xward_non_participants_keep_setpoints.

(* weight normalisation on one island: the written bus weights sum to 1 and each is the island-normalised sum of the
   weights paired with that bus; the j-th xward weight is paired with the PQ bus of the j-th in-service xward *)
Theorem C10_weights_normalised : forall buses ws sub bw,
  norm_loop buses ws [sub] [] = NOk bw -> sumf snd bw == 1.
Proof.
  intros buses ws sub bw.
  cbn [norm_loop]. destruct (qleb _ CLOSE0) eqn:E0; [discriminate|]. destruct (qltb _ 0); [discriminate|].
  intros H. injection H as <-. cbn [app]. rewrite group_sum, masked_sum_scale. field. exact (close0_nonzero _ E0).
Qed.
Print Assumptions C10_weights_normalised.
Theorem C10_bus_weight_formula : forall buses ws sub bw b q,
  norm_loop buses ws [sub] [] = NOk bw -> In (b, q) bw ->
  q == sumf snd (filter (fun p => Nat.eqb (fst p) b) (filter (fun p => memn (fst p) sub) (combine buses ws)))
       / masked_sum buses ws sub.
Proof.
  intros buses ws sub bw b q.
  cbn [norm_loop]. set (s := masked_sum buses ws sub).
  destruct (qleb (Qabs s) CLOSE0) eqn:E0; [discriminate|].
  destruct (qltb s 0) eqn:E1; [discriminate|].
  intros H. injection H as <-. cbn [app]. unfold group_weights. intros Hin.
  apply in_map_iff in Hin. destruct Hin as (b' & E & _). injection E as <- <-.
  rewrite combine_map_r, (filter_map_fst (fun w => qdiv w s) (fun x => memn x sub)).
  rewrite (filter_map_fst (fun w => qdiv w s) (fun x => Nat.eqb x b')).
  apply sumf_snd_map_scale.
Qed.
Print Assumptions C10_bus_weight_formula.
Theorem C10_xward_weight_pairing : forall xws j b,
  nth_error (xward_pq_buses xws) j = Some b <-> exists x, nth_error (filter x_on xws) j = Some x /\ x_pq x = b.
Proof.
  intros xws j b.
  unfold xward_pq_buses. rewrite nth_error_map. destruct (nth_error (filter x_on xws) j) as [x|]; cbn; split.
  - intros H. injection H as <-. exists x. tauto.
  - intros (y & E & <-). injection E as <-. reflexivity.
  - discriminate.
  - intros (y & E & _). discriminate.
Qed.
Print Assumptions C10_xward_weight_pairing.

(* the island search (_subnetworks) as part of the normalisation.
   subnetworks brs bt = Base.C07Graph.components over the in-service branch rows between in-service buses, started at the
   reference buses in bus order (auxiliary.py:907-940).  Spec of the search: every island is the undirected-path class of a
   reference bus, the islands are pairwise disjoint and every reference bus lies in one. *)
Theorem C10_subnetworks_partition : forall brs bt,
  (forall isl, In isl (subnetworks brs bt) ->
     exists x, In x (slack_buses bt) /\ forall y, In y isl <-> C07Graph.upath (island_arcs brs bt) x y) /\
  C07Graph.pairwise_disjoint (subnetworks brs bt) /\
  (forall x, In x (slack_buses bt) -> exists isl, In isl (subnetworks brs bt) /\ In x isl).
Proof.
  intros brs bt.
  split; [|split].
  - intros isl H. apply (C07Graph.components_class nat Nat.eq_dec _ _ _ H).
  - apply C07Graph.components_disjoint.
  - intros x Hx. apply (C07Graph.components_cover nat Nat.eq_dec _ _ _ Hx).
Qed.
Print Assumptions C10_subnetworks_partition.
(* the normalisation loop on ANY pairwise disjoint island list (any number of islands): the bus weights written on the buses of
   every island sum to one (the in-place division of ALL weights by each island's sum does not disturb the islands already
   written, later assignments do not overwrite them) *)
Theorem C10_weights_normalised_per_island : forall buses subs ws bw,
  C07Graph.pairwise_disjoint subs -> (forall sub, In sub subs -> NoDup sub) ->
  norm_loop buses ws subs [] = NOk bw ->
  forall sub, In sub subs -> sumf (bw_lookup bw) sub == 1.
Proof. intros buses subs ws bw Hd Hn H. apply (norm_loop_per_island buses subs ws [] bw Hd Hn); [intros; reflexivity | exact H]. Qed.
Print Assumptions C10_weights_normalised_per_island.
(* _normalise_slack_weights with its own island search: success means exactly one island, whose bus weights sum to one and
   which has a participant (non-zero paired weight sum) *)
Theorem C10_normalise_computed_partition : forall gens xws brs bt bw,
  wf_branches brs bt = true -> normalise_net gens xws brs bt = NOk bw ->
  length (subnetworks brs bt) = 1%nat /\
  forall isl, In isl (subnetworks brs bt) -> sumf (bw_lookup bw) isl == 1 /\ ~ island_weight gens xws isl == 0.
Proof.
  intros gens xws brs bt bw.
  intros W H. unfold normalise_net, normalise in H.
  destruct (normalise_one_island xward_pq_buses gens xws (subnetworks brs bt) (length bt) bw) as [L S]; try exact H.
  - apply C07Graph.components_disjoint.
  - intros; eapply island_NoDup; eauto.
  - intros sub k Hs Hk. eapply island_lt; eauto.
  - split; [exact L|]. intros isl Hi. split; [apply S; exact Hi|].
    intros Z. destruct (normalise_zero_island xward_pq_buses gens xws (subnetworks brs bt) (length bt) isl Hi) as [e E].
    + unfold island_weight, pairing in Z. exact Z.
    + rewrite E in H. discriminate.
Qed.
Print Assumptions C10_normalise_computed_partition.
(* error otherwise: an island in which every paired weight is zero (no participant), or more than one island / none *)
Theorem C10_island_without_participant_is_an_error : forall gens xws brs bt isl,
  In isl (subnetworks brs bt) ->
  (forall b w, In (b, w) (pairing gens xws) -> In b isl -> w == 0) ->
  exists e, normalise_net gens xws brs bt = NErr e.
Proof.
  intros gens xws brs bt isl.
  intros Hi Hn. apply (normalise_zero_island xward_pq_buses gens xws _ _ isl Hi).
  apply (no_participant_zero gens xws isl Hn).
Qed.
Print Assumptions C10_island_without_participant_is_an_error.
Theorem C10_several_islands_is_an_error : forall gens xws brs bt,
  wf_branches brs bt = true -> length (subnetworks brs bt) <> 1%nat -> exists e, normalise_net gens xws brs bt = NErr e.
Proof.
  intros gens xws brs bt.
  intros W L. destruct (normalise_net gens xws brs bt) as [e|bw] eqn:E; [eexists; reflexivity|].
  destruct (C10_normalise_computed_partition _ _ _ _ _ W E) as [L1 _]. contradiction.
Qed.
Print Assumptions C10_several_islands_is_an_error.
(* non-vacuity: 0 -- 1 | 2 -- 3 with reference buses 0 and 3: two islands, each sums to one inside the loop, the zone check
   rejects; the second island without participant is a ValueError; with the middle branch closed one island is accepted *)
Example C10_islands_nonvacuous :
  subnetworks wit_brs wit_bt = [[1; 0]; [2; 3]]%nat /\
  (exists bw, norm_loop [0; 3]%nat [1; 3] (subnetworks wit_brs wit_bt) [] = NOk bw /\ bw_lookup bw 0 == 1 /\ bw_lookup bw 3 == 1) /\
  normalise_net [mkW 0 1 false; mkW 3 3 false] [] wit_brs wit_bt = NErr 1 /\
  normalise_net [mkW 0 1 false; mkW 3 0 false] [] wit_brs wit_bt = NErr 3 /\
  (exists bw, normalise_net [mkW 0 1 false; mkW 3 3 false] [] [mkPbr 0 1 true; mkPbr 1 2 true; mkPbr 2 3 true] wit_bt = NOk bw /\
              bw_lookup bw 0 == 1 # 4 /\ bw_lookup bw 3 == 3 # 4).
Proof.
  split; [vm_compute; reflexivity|]. split; [eexists; split; [vm_compute; reflexivity|split; vm_compute; reflexivity]|].
  split; [vm_compute; reflexivity|]. split; [vm_compute; reflexivity|].
  eexists; split; [vm_compute; reflexivity|split; vm_compute; reflexivity].
Qed.
Print Assumptions C10_islands_nonvacuous.

(* the rules before the repairs are refuted by witnesses: sorted-unique pairing swapped the weights of two xwards,
   the old extraction gave two xwards each other's variable part; under the old guard G10x it was right *)
Theorem C10_old_xward_weight_pairing_refuted :
  G10w wit_xwb = false /\
  (exists bw, normalise_old wit_wsrc wit_xwb [[0; 1; 2; 3]%nat] 4 = NOk bw /\ bw_lookup bw 3 == 2 # 4 /\ bw_lookup bw 2 == 1 # 4) /\
  (exists bw, normalise wit_wsrc wit_xwb [[0; 1; 2; 3]%nat] 4 = NOk bw /\ bw_lookup bw 3 == 1 # 4 /\ bw_lookup bw 2 == 2 # 4).
Proof. split; [reflexivity|]. split; eexists; (split; [vm_compute; reflexivity|]); split; vm_compute; reflexivity. Qed.
Print Assumptions C10_old_xward_weight_pairing_refuted.
Theorem C10_old_xward_extraction_refuted :
  exists pd, xward_p_old pd [] wit_x2 = XOk [Some (5 + (pd 3%nat - 5) + (pd 2%nat - 3)); Some (3 + (pd 3%nat - 5) + (pd 2%nat - 3))]%Q
             /\ pd 3%nat = 6 /\ pd 2%nat = 5.
Proof. exists (fun k => match k with 3%nat => 6 | 2%nat => 5 | _ => 0 end). vm_compute. repeat split. Qed.
Print Assumptions C10_old_xward_extraction_refuted.
Theorem C10_old_xward_extraction_partial : forall n others x pd,
  G10x n others [x] = true ->
  exists r, xward_p_old pd others [x] = XOk [Some r] /\ r == xr_ps x + (pd (xr_k x) - PD n (xr_k x)).
Proof.
  intros n others x pd.
  unfold G10x. intros H.
  apply andb_true_iff in H. destruct H as [H Hraw]. apply andb_true_iff in H. destruct H as [H Hw].
  apply andb_true_iff in H. destruct H as [Hins Hon]. apply qltb_lt in Hw. apply qeqb_eq in Hraw.
  assert (Hw0 : qeqb (xr_w x) 0 = false).
  { destruct (qeqb (xr_w x) 0) eqn:E; [|reflexivity]. apply qeqb_eq in E. rewrite E in Hw. discriminate Hw. }
  unfold xward_p_old. cbn [existsb map]. rewrite Hon, Hw0. cbn [negb andb orb xw_loop].
  unfold xw_step. cbn [filter]. rewrite Hins, Nat.eqb_refl. cbn [andb map].
  assert (Ha : qeqb (sumf Qabs [xr_w x]) 0 = false).
  { destruct (qeqb (sumf Qabs [xr_w x]) 0) eqn:E; [|reflexivity]. apply qeqb_eq in E.
    rewrite sumf_cons, sumf_nil, (Qabs_pos (xr_w x)) in E by (apply Qlt_le_weak; exact Hw). lra. }
  rewrite Ha, Hw0. cbn [bcast_add map oadd]. eexists. split; [reflexivity|].
  cbn [b2q]. qstrip. rewrite (Qabs_pos (xr_w x)) by (apply Qlt_le_weak; exact Hw).
  rewrite <- Hraw. field. lra.
Qed.
Print Assumptions C10_old_xward_extraction_partial.

(* enforce_q_lims: the rule before the repair restored the whole PD column after a q-limit pass, so the xward lost its share *)
Theorem C10_old_qlims_xward_share_refuted :
  xward_row witql_net [1;1;1;1] (fun k => PD_after_qlims_old witql_net [3%nat] k (mkC (-6) 0) true) [witql_x] witql_x == 5 /\
  xward_row witql_net [1;1;1;1] (fun k => PD_after witql_net [3%nat] k (mkC (-6) 0)) [witql_x] witql_x == 6.
Proof. vm_compute. split; reflexivity. Qed.
Print Assumptions C10_old_qlims_xward_share_refuted.

(* non-vacuity: two participating xwards on one bus next to a ZIP load satisfy the hypotheses of C10_xward_share *)
Example C10_nonvacuous :
  let xws := [mkXw 2 2 5 (1#2) true true; mkXw 2 2 3 1 true true] in
  ~ xw_weight (mkXw 2 2 5 (1#2) true true) == 0 /\ xw_bus_weight xws 2 == 3 # 2.
Proof. split; [intros E; discriminate E | vm_compute; reflexivity]. Qed.
Print Assumptions C10_nonvacuous.
