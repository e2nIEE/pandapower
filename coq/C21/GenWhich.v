(* C21 — the regrouped generator classification of from_ppc._gen_to_which (Model.gen_which: rows regrouped by
   bus type 3,2,1,4, duplicated() over that order, sort_index) equals the direct "first gen row of its bus in
   the ORIGINAL order" classification (Model.gen_which_spec) whenever the bus type is a function of the bus —
   which holds in the implementation because the type column is ppc["bus"][bus_pos, BUS_TYPE]. *)
From Coq Require Import ZArith QArith List Bool Lia Arith.
From PPV Require Import Base.QN C21.Model C21.Proofs.
Import ListNotations.

Definition busp (p : nat * grow) : Z := g_bus (snd p).
Definition typ_is (t : Z) (p : nat * grow) : bool := Z.eqb (g_type (snd p)) t.

(* the hypothesis: all gen rows of one bus carry the same bus type *)
Definition type_of_bus_consistent (l : list grow) : Prop :=
  forall g g', In g l -> In g' l -> g_bus g = g_bus g' -> g_type g = g_type g'.

Lemma enum_app : forall {A} (l1 l2 : list A) n, enum n (l1 ++ l2) = enum n l1 ++ enum (n + length l1) l2.
Proof.
  induction l1 as [|a l1 IH]; intros l2 n; cbn [enum app length].
  - rewrite Nat.add_0_r. reflexivity.
  - rewrite IH. do 3 f_equal. lia.
Qed.
Lemma enum_keys_range : forall {A} (l : list A) n p, In p (enum n l) -> (n <= fst p < n + length l)%nat.
Proof.
  induction l as [|a l IH]; intros n p H; cbn [enum length] in *; [contradiction|].
  destruct H as [<-|H]; [cbn; lia|]. apply IH in H. lia.
Qed.
Lemma enum_snd_in : forall {A} (l : list A) n p, In p (enum n l) -> In (snd p) l.
Proof.
  induction l as [|a l IH]; intros n p H; cbn [enum] in *; [contradiction|].
  destruct H as [<-|H]; [left; reflexivity | right; eapply IH; exact H].
Qed.
(* every enumerated row splits the list at its position *)
Lemma enum_split : forall {A} (l : list A) n k a, In (k, a) (enum n l) ->
  exists l1 l2, l = l1 ++ a :: l2 /\ k = (n + length l1)%nat.
Proof.
  induction l as [|x l IH]; intros n k a H; cbn [enum] in *; [contradiction|].
  destruct H as [E|H].
  - inversion E; subst. exists [], l. split; [reflexivity | cbn; lia].
  - apply IH in H. destruct H as (l1 & l2 & -> & ->). exists (x :: l1), l2. split; [reflexivity | cbn; lia].
Qed.
Lemma map_snd_enum : forall {A} (l : list A) n, map snd (enum n l) = l.
Proof. induction l; intros; cbn; [reflexivity | rewrite IHl; reflexivity]. Qed.

Lemma memz_app : forall b l1 l2, memz b (l1 ++ l2) = memz b l1 || memz b l2.
Proof. intros. unfold memz. apply existsb_app. Qed.
Lemma memz_false_iff : forall b l, memz b l = false <-> ~ In b l.
Proof.
  intros b l. unfold memz. split.
  - intros H I. assert (existsb (Z.eqb b) l = true) by (apply existsb_exists; exists b; split; [assumption | apply Z.eqb_refl]). congruence.
  - intros N. destruct (existsb (Z.eqb b) l) eqn:E; [|reflexivity].
    apply existsb_exists in E. destruct E as (x & I & E). apply Z.eqb_eq in E. subst. contradiction.
Qed.

(* rows of bus b all have type t  =>  filtering on type t keeps all of them *)
Lemma memz_filter_same : forall b t (e : list (nat * grow)),
  (forall p, In p e -> busp p = b -> g_type (snd p) = t) ->
  memz b (map busp (filter (typ_is t) e)) = memz b (map busp e).
Proof.
  intros b t e. induction e as [|p e IH]; intros H; [reflexivity|].
  cbn [filter map]. unfold typ_is at 1.
  destruct (Z.eqb_spec (g_type (snd p)) t) as [E|N].
  - cbn [map]. unfold memz in *. cbn [existsb]. rewrite IH; [reflexivity|]. intros; apply H; [right|]; assumption.
  - rewrite IH by (intros; apply H; [right|]; assumption).
    unfold memz. cbn [existsb]. destruct (Z.eqb_spec b (busp p)) as [E|_]; [|reflexivity].
    exfalso. apply N. apply H; [left; reflexivity | congruence].
Qed.
Lemma filter_split : forall {A} (f : A -> bool) l1 x l2, f x = true ->
  filter f (l1 ++ x :: l2) = filter f l1 ++ x :: filter f l2.
Proof. intros. rewrite filter_app. cbn [filter]. rewrite H. reflexivity. Qed.

(* duplicated() over an order [pre ++ (k,g) :: post] whose keys before the row differ from k:
   the flag looked up for k is "bus of g not seen before" *)
Lemma find_flag : forall (pre : list (nat * grow)) k g post seen,
  (forall p, In p pre -> fst p <> k) ->
  find (fun p : (nat * grow) * bool => Nat.eqb (fst (fst p)) k)
       (combine (pre ++ (k, g) :: post) (first_flags_aux seen (map busp (pre ++ (k, g) :: post))))
  = Some ((k, g), negb (memz (g_bus g) seen || memz (g_bus g) (map busp pre))).
Proof.
  induction pre as [|p pre IH]; intros k g post seen H.
  - cbn [app map first_flags_aux combine find fst snd busp]. rewrite Nat.eqb_refl.
    unfold memz. cbn [map existsb]. rewrite orb_false_r. reflexivity.
  - cbn [app map first_flags_aux combine find fst snd].
    assert (Nat.eqb (fst p) k = false) as -> by (apply Nat.eqb_neq; apply H; left; reflexivity).
    rewrite IH by (intros; apply H; right; assumption).
    do 3 f_equal. unfold memz. cbn [map existsb].
    destruct (Z.eqb (g_bus g) (busp p)); destruct (existsb (Z.eqb (g_bus g)) seen);
      destruct (existsb (Z.eqb (g_bus g)) (map busp pre)); reflexivity.
Qed.

Lemma flag_of_split : forall ord pre k g post,
  ord = pre ++ (k, g) :: post -> (forall p, In p pre -> fst p <> k) ->
  flag_of k ord (first_flags (map (fun p => g_bus (snd p)) ord)) = negb (memz (g_bus g) (map busp pre)).
Proof.
  intros ord pre k g post -> H. unfold flag_of, first_flags.
  change (fun p : nat * grow => g_bus (snd p)) with busp.
  rewrite (find_flag pre k g post [] H). reflexivity.
Qed.

(* the row (k, g) of e = e1 ++ (k, g) :: e2 when the order is  front ++ (the rows of g's type t, in the order of e) ++ back
   and every row of g's bus has type t: no row of that bus is in front, and those before g in its group are those of e1 *)
Lemma flag_in_group : forall ord front e1 k g e2 back t,
  ord = front ++ filter (typ_is t) (e1 ++ (k, g) :: e2) ++ back -> g_type g = t ->
  (forall p, In p front \/ In p e1 -> fst p <> k) ->
  (forall p, In p front -> busp p <> g_bus g) ->
  (forall p, In p e1 -> busp p = g_bus g -> g_type (snd p) = t) ->
  flag_of k ord (first_flags (map (fun p => g_bus (snd p)) ord)) = negb (memz (g_bus g) (map busp e1)).
Proof.
  intros ord front e1 k g e2 back t -> T Hk Hf Hs.
  rewrite (flag_of_split _ (front ++ filter (typ_is t) e1) k g (filter (typ_is t) e2 ++ back)).
  - rewrite map_app, memz_app, (memz_filter_same _ _ _ Hs).
    replace (memz (g_bus g) (map busp front)) with false; [reflexivity|].
    symmetry. apply memz_false_iff. intros I. apply in_map_iff in I. destruct I as (p & E & I). exact (Hf p I E).
  - rewrite (filter_split (typ_is t)) by (unfold typ_is; cbn [snd]; rewrite T; apply Z.eqb_refl).
    rewrite <- !app_assoc. reflexivity.
  - intros p I. apply Hk. apply in_app_or in I. destruct I as [I|I]; [left; exact I | right; apply filter_In in I; apply I].
Qed.

Lemma regroup_flag : forall l l1 g l2, type_of_bus_consistent l -> l = l1 ++ g :: l2 ->
  g_type g = 3%Z \/ g_type g = 2%Z ->
  flag_of (length l1) (regroup l) (first_flags (map (fun p => g_bus (snd p)) (regroup l)))
  = negb (memz (g_bus g) (map g_bus l1)).
Proof.
  intros l l1 g l2 Hc -> Ht. set (k := length l1).
  assert (He : enum 0 (l1 ++ g :: l2) = enum 0 l1 ++ (k, g) :: enum (S k) l2).
  { rewrite enum_app. cbn [enum]. reflexivity. }
  (* same bus => same type as g *)
  assert (Hall : forall p, In p (enum 0 (l1 ++ g :: l2)) -> busp p = g_bus g -> g_type (snd p) = g_type g).
  { intros p I E. apply Hc; [eapply enum_snd_in; exact I | apply in_or_app; right; left; reflexivity | exact E]. }
  assert (Hpre : forall p, In p (enum 0 l1) -> busp p = g_bus g -> g_type (snd p) = g_type g).
  { intros p I. apply Hall. rewrite He. apply in_or_app. left. exact I. }
  assert (Hk : forall p, In p (enum 0 l1) -> fst p <> k).
  { intros p I. apply enum_keys_range in I. unfold k. lia. }
  replace (map g_bus l1) with (map busp (enum 0 l1))
    by (unfold busp; rewrite <- (map_map snd g_bus), map_snd_enum; reflexivity).
  set (e := enum 0 (l1 ++ g :: l2)) in *.
  destruct Ht as [T|T].
  - (* slack bus: the row sits in the first group *)
    apply (flag_in_group _ [] (enum 0 l1) k g (enum (S k) l2)
             (filter (typ_is 2) e ++ filter (typ_is 1) e ++ filter (typ_is 4) e) 3).
    + unfold regroup. fold e (typ_is 3) (typ_is 2) (typ_is 1) (typ_is 4). rewrite He at 1. reflexivity.
    + exact T.
    + intros p [[]|I]. exact (Hk p I).
    + intros p [].
    + intros p I E. rewrite <- T. exact (Hpre p I E).
  - (* PV bus: the row sits in the second group; the first group holds no row of its bus, nor one with key k *)
    apply (flag_in_group _ (filter (typ_is 3) e) (enum 0 l1) k g (enum (S k) l2)
             (filter (typ_is 1) e ++ filter (typ_is 4) e) 2).
    + unfold regroup. fold e (typ_is 3) (typ_is 2) (typ_is 1) (typ_is 4). rewrite He at 2. reflexivity.
    + exact T.
    + intros p [I|I]; [|exact (Hk p I)]. apply filter_In in I. destruct I as (I & Tp).
      (* a row of type 3 with key k would be the row g itself, which has type 2 *)
      intros Ek. rewrite He in I. apply in_app_or in I. destruct I as [I|[I|I]].
      * apply (Hk p I Ek).
      * subst p. unfold typ_is in Tp. cbn [snd] in Tp. rewrite T in Tp. discriminate.
      * apply enum_keys_range in I. lia.
    + intros p I E. apply filter_In in I. destruct I as (I & Tp).
      unfold typ_is in Tp. rewrite (Hall p I E), T in Tp. discriminate.
    + intros p I E. rewrite <- T. exact (Hpre p I E).
Qed.

Lemma spec_as_enum_aux : forall l pre seen,
  (forall b, memz b seen = memz b (map g_bus pre)) ->
  map (fun pf : grow * bool => class_of (g_type (fst pf)) (snd pf)) (combine l (first_flags_aux seen (map g_bus l)))
  = map (fun p : nat * grow => class_of (g_type (snd p)) (negb (memz (g_bus (snd p)) (map g_bus (firstn (fst p) (pre ++ l))))))
        (enum (length pre) l).
Proof.
  induction l as [|g l IH]; intros pre seen Hs; [reflexivity|].
  cbn [map first_flags_aux combine enum fst snd].
  f_equal.
  - rewrite firstn_app, Nat.sub_diag, firstn_all. cbn [firstn]. rewrite app_nil_r.
    fold (memz (g_bus g) seen). rewrite Hs. reflexivity.
  - specialize (IH (pre ++ [g]) (g_bus g :: seen)).
    rewrite app_length in IH. cbn [length] in IH. rewrite Nat.add_1_r in IH.
    rewrite IH.
    + apply map_ext. intros p. rewrite <- app_assoc. reflexivity.
    + intros b. rewrite map_app, memz_app. cbn [map]. unfold memz in *. cbn [existsb]. rewrite Hs.
      rewrite orb_false_r. apply orb_comm.
Qed.

Lemma spec_as_enum : forall l,
  gen_which_spec l =
  map (fun p : nat * grow => class_of (g_type (snd p)) (negb (memz (g_bus (snd p)) (map g_bus (firstn (fst p) l)))))
      (enum 0 l).
Proof. intros. unfold gen_which_spec, first_flags. apply (spec_as_enum_aux l [] []). reflexivity. Qed.

(* class_of ignores the flag for bus types other than 3 and 2 *)
Lemma class_of_flag_irrelevant : forall t f f', t <> 3%Z -> t <> 2%Z -> class_of t f = class_of t f'.
Proof.
  intros t f f' H3 H2. unfold class_of.
  assert (Z.eqb t 3 = false) as -> by (apply Z.eqb_neq; assumption).
  assert (Z.eqb t 2 = false) as -> by (apply Z.eqb_neq; assumption).
  reflexivity.
Qed.

Theorem gen_which_eq_spec : forall l, type_of_bus_consistent l -> gen_which l = gen_which_spec l.
Proof.
  intros l Hc. rewrite spec_as_enum. unfold gen_which.
  apply map_ext_in. intros [k g] I. cbn [fst snd].
  destruct (enum_split l 0 k g I) as (l1 & l2 & El & Ek). cbn in Ek. subst k.
  destruct (Z.eq_dec (g_type g) 3) as [T3|N3]; [| destruct (Z.eq_dec (g_type g) 2) as [T2|N2]].
  - rewrite (regroup_flag l l1 g l2 Hc El (or_introl T3)).
    rewrite El, firstn_app, Nat.sub_diag, firstn_all. cbn [firstn]. rewrite app_nil_r. reflexivity.
  - rewrite (regroup_flag l l1 g l2 Hc El (or_intror T2)).
    rewrite El, firstn_app, Nat.sub_diag, firstn_all. cbn [firstn]. rewrite app_nil_r. reflexivity.
  - apply class_of_flag_irrelevant; assumption.
Qed.

(* consequence for the implementation's classification itself (k, ty as in gen_spec_one_per_bus) *)
Lemma gen_which_one_per_bus : forall b ty k l, type_of_bus_consistent l ->
  (k = 0%nat /\ ty = 3%Z) \/ (k = 1%nat /\ ty = 2%Z) ->
  (forall g, In g l -> g_bus g = b -> g_type g = ty) ->
  count_class b k l (gen_which l) = if memz b (map g_bus l) then 1%nat else 0%nat.
Proof. intros b ty k l Hc Hk H. rewrite (gen_which_eq_spec l Hc). exact (gen_spec_one_per_bus b ty k l Hk H). Qed.

(* non-vacuity: a consistent list with several rows per bus, all four bus types, first rows not in type order *)
Definition gw_example : list grow :=
  [ {| g_bus := 5; g_type := 1; g_pg := 0; g_vg := 1 |}; {| g_bus := 2; g_type := 2; g_pg := 0; g_vg := 1 |};
    {| g_bus := 7; g_type := 3; g_pg := 0; g_vg := 1 |}; {| g_bus := 2; g_type := 2; g_pg := 0; g_vg := 1 |};
    {| g_bus := 7; g_type := 3; g_pg := 0; g_vg := 1 |}; {| g_bus := 9; g_type := 4; g_pg := 0; g_vg := 1 |};
    {| g_bus := 3; g_type := 2; g_pg := 0; g_vg := 1 |} ].
Lemma gw_example_consistent : type_of_bus_consistent gw_example.
Proof.
  (* the type is a function of the bus *)
  assert (F : forall g, In g gw_example -> g_type g = match g_bus g with 5 => 1 | 7 => 3 | 9 => 4 | _ => 2 end%Z).
  { intros g I. unfold gw_example in I. cbn [In] in I. repeat (destruct I as [<-|I]; [reflexivity|]). contradiction. }
  intros g g' I I' E. rewrite (F g I), (F g' I'), E. reflexivity.
Qed.
Lemma gw_example_value : gen_which gw_example = [2; 1; 0; 2; 2; 3; 1]%nat.
Proof. vm_compute. reflexivity. Qed.
