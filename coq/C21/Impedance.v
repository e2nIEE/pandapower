(* C21 — impedance-class branches: ppc row -> net.impedance (from_ppc.py:299-324) -> ppc row (build_branch.py:1022-1031) *)
From Coq Require Import ZArith QArith List Bool Lqa.
From PPV Require Import Base.QN C21.Model.
Open Scope Q_scope.

(* from_impedance_old keeps a NaN rating as sn_mva: every entry of the converted impedance and of the re-converted row is NaN *)
Lemma impedance_old_nan_rating : forall S r x b g,
  let i := from_impedance_old S r x b g None in
  i_sn i = None /\ i_rft i = None /\ i_xft i = None /\ ir_r (to_impedance S i) = None /\ ir_x (to_impedance S i) = None.
Proof. intros. repeat split. Qed.

