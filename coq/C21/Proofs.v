(* C21 — the from_ppc / to_ppc round trip: line rows, transformer rows (vk / vkr / i0 / pfe), generator classification *)
From Coq Require Import ZArith QArith Qabs List Bool Lia Lqa Setoid.
From PPV Require Import Base.QN C21.Model.
Import ListNotations.
Open Scope Q_scope.

(* both conversions of a line, unfolded in the goal down to plain rational arithmetic *)
Ltac unfold_line_conv :=
  cbv zeta; unfold to_line, from_line, from_line_old, sq, q1e9, q1e6;
  cbn [br_r br_x br_b br_g l_r l_x l_c l_g l_len l_par]; qstrip.

Lemma ppc_line_roundtrip_old : forall pif S vn r,
  ~ pif == 0 -> ~ S == 0 -> ~ vn == 0 ->
  let r' := to_line pif S vn (from_line_old pif S vn r) in
  br_r r' == br_r r /\ br_x r' == br_x r /\ br_b r' == br_b r /\ br_g r' == br_g r / 2.
Proof.
  intros pif S vn r Hp HS Hv. unfold_line_conv.
  (* r, x, b, g: each is divided by the base impedance vn^2 / S and multiplied by it again, b also by pi f *)
  split; [|split; [|split]]; field.
  - exact (conj HS Hv).
  - exact (conj HS Hv).
  - exact (conj HS (conj Hv Hp)).
  - exact (conj HS Hv).
Qed.

Lemma qabs_sign : forall a, qabs a * qsign a == a.
Proof.
  intros a. unfold qabs, qsign.
  destruct (qltb a 0) eqn:A; qstrip.
  - ring.
  - destruct (qltb 0 a) eqn:B; [ring|]. apply qltb_ge in A. apply qltb_ge in B. lra.
Qed.
Lemma qabs_nonneg : forall a, 0 <= qabs a.
Proof. intros a. unfold qabs. destruct (qltb a 0) eqn:A; qstrip; [apply qltb_lt in A | apply qltb_ge in A]; lra. Qed.
Lemma qabs_zero : forall a, qltb 0 (qmul (qabs a) q100) = false -> a == 0.
Proof.
  intros a H. apply qltb_ge in H. pose proof (qabs_nonneg a) as N. pose proof (qabs_sign a) as E.
  unfold q100 in H. qstrip_in H. assert (Z : qabs a == 0) by lra. rewrite Z in E. lra.
Qed.
Lemma qsign_pos : forall a, 0 < a -> qsign a == 1.
Proof. intros a H. unfold qsign. destruct (qltb a 0) eqn:A; [apply qltb_lt in A; lra|].
  destruct (qltb 0 a) eqn:B; [reflexivity| apply qltb_ge in B; lra]. Qed.
Lemma qsign_neg : forall a, a < 0 -> qsign a == -1.
Proof. intros a H. unfold qsign. destruct (qltb a 0) eqn:A; [reflexivity| apply qltb_ge in A; lra]. Qed.

(* a value outside the tolerance of np.isclose(., 0) is not zero; so the rating from_ppc stores is never zero *)
Lemma isclose0_false : forall a, isclose0 a = false -> ~ a == 0.
Proof.
  intros a E H. unfold isclose0 in E. assert (X : qleb (qabs a) (1 # 100000000) = true); [| congruence].
  apply qleb_le. unfold qabs. destruct (qltb a 0) eqn:A; [apply qltb_lt in A; lra | rewrite H; discriminate].
Qed.
Lemma rate_sn_pos : forall ra, 0 <= ra -> 0 < (if isclose0 ra then MAX_VAL else ra).
Proof.
  intros ra H. destruct (isclose0 ra) eqn:E; [reflexivity|]. apply isclose0_false in E. lra.
Qed.

(* from_ppc stores a per-unit value a as a * sn * 100 / S; to_ppc reads it back as ./100/sn * tap_lv, and tap_lv = S
   when the low voltage is the base voltage of its bus *)
Lemma pu_back : forall a sn S vl, 0 < sn -> 0 < S -> 0 < vl ->
  qmul (qdiv (qdiv (qdiv (qmul (qmul a sn) q100) S) q100) sn) (qmul (sq (qdiv vl vl)) S) == a.
Proof. intros. unfold sq, q100. qstrip. field. repeat split; lra. Qed.

(* x = sign(z) sqrt(z^2 - r^2) with z = sign(x) |z| *)
Lemma x_back : forall x r zk zz sq_x, ~ x == 0 -> 0 <= zk -> zk * zk == r * r + x * x -> zz == qsign x * zk ->
  0 <= sq_x -> sq_x * sq_x == zz * zz - r * r -> qsign zz * sq_x == x.
Proof.
  intros x r zk zz sq_x Hx Z0 Z1 Hzz X0 X1.
  destruct (Qlt_le_dec x 0) as [L|L].
  - rewrite (qsign_neg x L) in Hzz. assert (N : zz < 0) by nra. rewrite (qsign_neg zz N).
    assert (E : sq_x == - x) by (apply sqrt_unique; [assumption | lra | rewrite X1, Hzz; lra]).
    rewrite E. ring.
  - assert (P : 0 < x) by lra. rewrite (qsign_pos x P) in Hzz. assert (N : 0 < zz) by nra. rewrite (qsign_pos zz N).
    assert (E : sq_x == x) by (apply sqrt_unique; [assumption | lra | rewrite X1, Hzz; lra]).
    rewrite E. ring.
Qed.

(* b = - sqrt(max(ym^2 - g^2, 0)) (in MW: times S) for b <= 0 *)
Lemma b_back : forall S b g ym d sq_b, 0 < S -> b <= 0 -> ym * ym == b * b + g * g ->
  d == (ym * S) * (ym * S) - (g * S) * (g * S) ->
  0 <= sq_b -> sq_b * sq_b == (if qltb d 0 then 0 else d) -> sq_b == - (S * b).
Proof.
  intros S b g ym d sq_b HS Hb Y1 Hd B0 B1.
  assert (Hd' : d == (S * b) * (S * b)) by (rewrite Hd; nra).
  destruct (qltb d 0) eqn:D; [apply qltb_lt in D; nra|].
  apply sqrt_unique; [assumption | nra | rewrite B1, Hd'; ring].
Qed.

Section TrafoRoundTrip.
  Variables S fvn tvn zk ym r x b g tap shift rate : Q.
  Variables sq_vn sq_x sq_b : Q.
  Hypothesis HS : 0 < S.
  Hypothesis Htv : 0 < tvn.
  Hypothesis Hle : tvn <= fvn.                 (* hv side is the from bus: no swap *)
  Hypothesis Htap0 : isclose0 tap = false.
  Hypothesis Htap : 0 < tap.
  Hypothesis Hx : ~ x == 0.
  Hypothesis Hb : b <= 0.
  Hypothesis Hrate : 0 <= rate.
  (* oracle contracts of from_ppc *)
  Hypothesis Hzk : 0 <= zk /\ zk * zk == r * r + x * x.
  Hypothesis Hym : 0 <= ym /\ ym * ym == b * b + g * g.
  Let t := fst (from_trafo S fvn tvn zk ym r x b g tap shift (Some rate)).
  (* oracle contracts of to_ppc on the converted transformer *)
  Hypothesis Hvn : 0 <= sq_vn /\ sq_vn * sq_vn == tap_arg t * tap_arg t.
  Hypothesis Hsx : is_sqrt sq_x (x_arg S tvn sq_vn t).
  Hypothesis Hsb : is_sqrt sq_b (b_arg t).

  Let sn := if isclose0 rate then MAX_VAL else rate.

  Definition t_expl : trafo :=
    {| t_sn := Some sn; t_vnh := fvn; t_vnl := tvn;
       t_vk := Some (qdiv (qmul (qmul (qmul (qsign x) zk) sn) q100) S);
       t_vkr := Some (qdiv (qmul (qmul r sn) q100) S);
       t_pfe := qmul (qmul g S) q1e3;
       t_i0 := Some (qdiv (qmul (qmul ym q100) S) sn);
       t_shift := shift; t_tap_hv := true; t_neutral := 0;
       t_pos := qsign (qsub tap 1); t_step := qmul (qabs (qsub tap 1)) q100;
       t_ratio := qltb 0 (qmul (qabs (qsub tap 1)) q100);
       t_par := 1; t_df := 1; t_ml := Some q100 |}.
  Lemma t_is : t = t_expl.
  Proof.
    unfold t, t_expl, from_trafo. rewrite Htap0.
    replace (negb (qleb tvn fvn)) with false; [reflexivity|]. symmetry. apply negb_false_iff, qleb_le, Hle.
  Qed.

  (* the one Ratio step from_ppc stores gives back the tap ratio *)
  Lemma tap_arg_val : tap_arg t_expl == fvn * tap.
  Proof.
    unfold tap_arg, t_expl. cbn [t_tap_hv t_vnh t_step t_pos t_neutral].
    pose proof (qabs_sign (qsub tap 1)) as A. revert A. generalize (qsub_correct tap 1). generalize (qsub tap 1).
    intros a Ha A. unfold q100. qstrip.
    transitivity (fvn + fvn * (qabs a * qsign a)); [field | rewrite A, Ha; ring].
  Qed.

  Lemma vn_adjusted : exists vnh, tap_adjust t_expl sq_vn = (vnh, tvn) /\ vnh == fvn * tap.
  Proof.
    pose proof tap_arg_val as TA. destruct Hvn as [V0 V1]. rewrite t_is in V1.
    unfold tap_adjust, t_expl. cbn [t_ratio t_tap_hv t_vnh t_vnl].
    destruct (qltb 0 (qmul (qabs (qsub tap 1)) q100)) eqn:E.
    - exists sq_vn. split; [reflexivity|].
      apply sqrt_unique; [assumption | apply Qmult_le_0_compat; lra | rewrite V1, TA; ring].
    - exists fvn. split; [reflexivity|]. apply qabs_zero in E. qstrip_in E.
      assert (T : tap == 1) by lra. rewrite T. ring.
  Qed.

  Theorem trafo_roundtrip_sec :
    let row := to_trafo S fvn tvn sq_vn sq_x sq_b t in
    feq (tr_r row) r /\ feq (tr_x row) x /\ feq (tr_g row) g /\ feq (tr_b row) b /\
    tr_tap row == tap /\ tr_shift row == shift.
  Proof.
    intros row. assert (Hrow : row = to_trafo S fvn tvn sq_vn sq_x sq_b t) by reflexivity. clearbody row.
    destruct vn_adjusted as (vnh & E & Hv). pose proof (rate_sn_pos rate Hrate) as Hsn. fold sn in Hsn.
    destruct Hzk as [Z0 Z1]. destruct Hym as [Y0 Y1].
    pose proof (pu_back (qmul (qsign x) zk) sn S tvn Hsn HS Htv) as Hzz.
    pose proof (pu_back r sn S tvn Hsn HS Htv) as Hrr.
    (* the row and the two oracle arguments, computed once; the per-unit values z and r become variables *)
    revert Hrow. generalize Hsx Hsb. rewrite t_is. unfold x_arg, b_arg, to_trafo. rewrite E. unfold t_expl.
    cbn [t_sn t_vnh t_vnl t_vk t_vkr t_pfe t_i0 t_shift t_par t_df t_ml fmap fmap2 is_sqrt].
    revert Hzz Hrr. match goal with |- ?z == _ -> ?r' == _ -> _ => generalize z r' end.
    intros zz rr Hzz Hrr. qstrip_in Hzz.
    assert (Hlt : qltb (sq zz) (sq rr) = false).
    { apply qltb_ge. unfold sq. qstrip. rewrite Hzz, Hrr.
      assert (Hs : qsign x * zk * (qsign x * zk) == zk * zk).
      { destruct (Qlt_le_dec x 0) as [L|L]; [rewrite (qsign_neg x L) | rewrite (qsign_pos x) by lra]; ring. }
      rewrite Hs, Z1. pose proof (sq_nonneg x). lra. }
    rewrite Hlt. intros [X0 X1] [B0 B1] ->. unfold sq in X1. qstrip_in X1. rewrite Hrr in X1.
    cbn [tr_r tr_x tr_g tr_b tr_tap tr_shift feq fmap fmap2].
    split; [| split; [| split; [| split; [| split]]]].
    - qstrip. rewrite Hrr. field.
    - qstrip. rewrite (x_back x r zk zz sq_x Hx Z0 Z1 Hzz X0 X1). field.
    - unfold sq, q1e3. qstrip. field. lra.
    - assert (Bb : sq_b == - (S * b)).
      { refine (b_back S b g ym _ sq_b HS Hb Y1 _ B0 B1). unfold sq, q100, q1e3. qstrip. field. lra. }
      unfold sq. qstrip. rewrite Bb. field. lra.
    - qstrip. rewrite Hv. field. lra.
    - reflexivity.
  Qed.
End TrafoRoundTrip.

Fixpoint count_first (b : Z) (l : list Z) (fl : list bool) : nat :=
  match l, fl with
  | x :: l', f :: fl' => ((if Z.eqb x b && f then 1 else 0) + count_first b l' fl')%nat
  | _, _ => 0%nat
  end.
Definition memz (b : Z) (l : list Z) : bool := existsb (Z.eqb b) l.

Lemma count_first_aux : forall b l seen,
  count_first b l (first_flags_aux seen l) =
  if memz b seen then 0%nat else if memz b l then 1%nat else 0%nat.
Proof.
  intros b l. induction l as [|x l IH]; intros seen; cbn [first_flags_aux count_first].
  - destruct (memz b seen); reflexivity.
  - rewrite IH. unfold memz. cbn [existsb].
    destruct (Z.eqb_spec x b) as [->|N].
    + rewrite Z.eqb_refl. cbn [orb andb].
      destruct (existsb (Z.eqb b) seen); cbn; reflexivity.
    + assert (Z.eqb b x = false) as -> by (apply Z.eqb_neq; congruence).
      cbn [orb andb]. destruct (existsb (Z.eqb b) seen); reflexivity.
Qed.

(* every bus that has a gen row has exactly one row flagged as "first" *)
Lemma first_flags_one_per_bus : forall b l,
  count_first b l (first_flags l) = if memz b l then 1%nat else 0%nat.
Proof. intros. unfold first_flags. rewrite count_first_aux. reflexivity. Qed.

Lemma first_flags_length : forall l seen, length (first_flags_aux seen l) = length l.
Proof. induction l; intros; cbn; [reflexivity | rewrite IHl; reflexivity]. Qed.

(* classification counts of the direct specification *)
Fixpoint count_class (b : Z) (k : nat) (l : list grow) (cl : list nat) : nat :=
  match l, cl with
  | g :: l', c :: cl' => ((if Z.eqb (g_bus g) b && Nat.eqb c k then 1 else 0) + count_class b k l' cl')%nat
  | _, _ => 0%nat
  end.
Lemma count_class_spec_aux : forall b ty k l seen,
  (forall g, In g l -> g_bus g = b -> g_type g = ty) ->
  (k = 0%nat /\ ty = 3%Z) \/ (k = 1%nat /\ ty = 2%Z) ->
  count_class b k l
    (map (fun pf : grow * bool => class_of (g_type (fst pf)) (snd pf))
      (combine l (first_flags_aux seen (map g_bus l)))) =
  count_first b (map g_bus l) (first_flags_aux seen (map g_bus l)).
Proof.
  intros b ty k l. induction l as [|g l IH]; intros seen Hty Hk; [reflexivity|].
  cbn [map first_flags_aux combine count_class count_first fst snd].
  rewrite IH; [| intros; apply Hty; [right|]; assumption | assumption].
  f_equal.
  destruct (Z.eqb_spec (g_bus g) b) as [e|n]; cbn [andb]; [|reflexivity].
  rewrite (Hty g (or_introl eq_refl) e).
  destruct (negb (existsb (Z.eqb (g_bus g)) seen)); destruct Hk as [[-> ->]|[-> ->]]; reflexivity.
Qed.

(* k = 0, ty = 3: one ext_grid per slack bus with a gen row;  k = 1, ty = 2: one gen per PV bus *)
Lemma gen_spec_one_per_bus : forall b ty k l,
  (k = 0%nat /\ ty = 3%Z) \/ (k = 1%nat /\ ty = 2%Z) ->
  (forall g, In g l -> g_bus g = b -> g_type g = ty) ->
  count_class b k l (gen_which_spec l) = if memz b (map g_bus l) then 1%nat else 0%nat.
Proof.
  intros b ty k l Hk H. unfold gen_which_spec, first_flags.
  rewrite (count_class_spec_aux b ty k l [] H Hk), count_first_aux. reflexivity.
Qed.
