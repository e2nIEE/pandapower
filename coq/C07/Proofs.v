(* C07/Proofs.v — the rows isolated by the power flow are exactly the buses that are not SuppliedPF;
   the topology module reports exactly the buses that are not SuppliedT; under G07 both coincide with the
   property text's Supplied; without the guard both deviate (witnesses). *)
From Coq Require Import List Bool Arith Lia.
From PPV Require Import Base.Lists Base.C07Graph C07.Model C07.UnionFind C07.Spec.
Import ListNotations.
Local Open Scope nat_scope.

Lemma nth_combine_seq X (l : list X) : forall k j,
  nth_error (combine (seq k (length l)) l) j = option_map (fun x => (k + j, x)) (nth_error l j).
Proof.
  induction l as [|a l IH]; intros k j; simpl.
  - destruct j; reflexivity.
  - destruct j; simpl; [now rewrite Nat.add_0_r|]. rewrite IH. destruct (nth_error l j); simpl; [|reflexivity].
    now rewrite Nat.add_succ_r.
Qed.
Lemma nth_enum X (l : list X) j : nth_error (enum l) j = option_map (fun x => (j, x)) (nth_error l j).
Proof. unfold enum. now rewrite nth_combine_seq. Qed.
Lemma enum_In_nth X (l : list X) i x : In (i, x) (enum l) <-> nth_error l i = Some x.
Proof.
  split.
  - intros H. apply In_nth_error in H. destruct H as [m H]. rewrite nth_enum in H.
    destruct (nth_error l m) eqn:E; simpl in H; [|discriminate]. inversion H; subst. exact E.
  - intros H. apply (nth_error_In (enum l) i). rewrite nth_enum, H. reflexivity.
Qed.
Lemma enum_In_snd X (l : list X) j x : In (j, x) (enum l) -> In x l.
Proof. apply in_combine_r. Qed.
Lemma enum_In_ex X (l : list X) x : In x l -> exists j, In (j, x) (enum l).
Proof. intros H. apply In_nth_error in H. destruct H as [j H]. exists j. now apply enum_In_nth. Qed.
Lemma enum_fun X (l : list X) j x y : In (j, x) (enum l) -> In (j, y) (enum l) -> x = y.
Proof. rewrite !enum_In_nth. congruence. Qed.

Lemma existsb_false X (f : X -> bool) l : existsb f l = false <-> forall x, In x l -> f x = false.
Proof.
  rewrite <- not_true_iff_false, existsb_exists. split.
  - intros H x I. apply not_true_iff_false. intros E. apply H. eauto.
  - intros H [x [I E]]. rewrite (H x I) in E. discriminate.
Qed.
Lemma swet_eqb_eq a b : swet_eqb a b = true -> a = b.
Proof. destruct a, b; simpl; auto; discriminate. Qed.

Definition sw_cond (et : swet) (el : nat) (ok : switch -> bool) (s : switch) : bool :=
  negb (s_closed s) && swet_eqb (s_et s) et && Nat.eqb (s_el s) el && ok s.

Lemma fold_last_none (c : switch -> bool) (l : list (nat * switch)) : forall acc,
  fold_left (fun acc ps => let '(p, s) := ps in if c s then Some p else acc) l acc = None
  <-> acc = None /\ forall ps, In ps l -> c (snd ps) = false.
Proof.
  induction l as [|[p s] t IH]; simpl; intros acc.
  - split; [intros ->; split; auto; intros ? []|tauto].
  - rewrite IH. destruct (c s) eqn:E; split.
    + intros [H _]. discriminate.
    + intros [_ H]. specialize (H (p, s) (or_introl eq_refl)). simpl in H. congruence.
    + intros [-> H]. split; auto. intros ps [<-|I]; auto.
    + intros [-> H]. split; auto.
Qed.

Lemma last_open_none n et el ok :
  last_open n et el ok = None <-> forall s, In s (switches n) -> sw_cond et el ok s = false.
Proof.
  unfold last_open. rewrite (fold_last_none (sw_cond et el ok)). split.
  - intros [_ H] s I. destruct (enum_In_ex _ _ _ I) as [j J]. apply (H (j, s) J).
  - intros H. split; auto. intros [j s] I. apply H. eapply enum_In_snd; eauto.
Qed.

Lemma open_sw_false n et el :
  open_sw n et el = false <-> forall s, In s (switches n) -> sw_cond et el (fun _ => true) s = false.
Proof.
  unfold open_sw, sw_cond. rewrite existsb_false.
  split; intros H s I; specialize (H s I); now rewrite andb_true_r in *.
Qed.

(* a two-sided branch: no open switch on either side iff no open switch at the element at all *)
Lemma two_sides_none n et el (ok : switch -> bool) :
  (last_open n et el ok = None /\ last_open n et el (fun s => negb (ok s)) = None) <-> open_sw n et el = false.
Proof.
  rewrite !last_open_none, open_sw_false. unfold sw_cond. split.
  - intros [H1 H2] s I. specialize (H1 s I). specialize (H2 s I). rewrite andb_true_r.
    destruct (negb (s_closed s) && swet_eqb (s_et s) et && Nat.eqb (s_el s) el); auto.
    simpl in *. destruct (ok s); simpl in *; congruence.
  - intros H. split; intros s I; specialize (H s I); rewrite andb_true_r in H; rewrite H; reflexivity.
Qed.

Lemma line_sw_none n l : (line_sw n l 0 = None /\ line_sw n l 1 = None) <-> open_sw n ETl (r_id l) = false.
Proof.
  unfold line_sw. simpl. rewrite <- (two_sides_none n ETl (r_id l) (fun s => Nat.eqb (r_t l) (s_bus s))). tauto.
Qed.
Lemma trafo_sw_none n t : (trafo_sw n t 0 = None /\ trafo_sw n t 1 = None) <-> open_sw n ETt (r_id t) = false.
Proof.
  unfold trafo_sw. simpl. rewrite <- (two_sides_none n ETt (r_id t) (fun s => Nat.eqb (r_f t) (s_bus s))). tauto.
Qed.
Lemma t3_sw_none n t side : t3_sw n t side = None <-> t3_open_pf n t side = false.
Proof. unfold t3_sw, t3_open_pf. rewrite last_open_none, existsb_false. reflexivity. Qed.

Lemma bus_is_not_oos n b : bus_is n b = true -> bus_oos n b = false.
Proof. unfold bus_oos. intros ->. apply andb_false_r. Qed.

Section PF.
Variable n : net.
Variable rp : nat -> nat.

(* the status-1 branches by kind: what membership in ppc_edges_old says *)
Inductive raw_edge (e : node * node) : Prop :=
| RE_line j l : In (j, l) (enum (lines n)) -> r_is l = true -> line_ends rp n j l = e -> raw_edge e
| RE_trafo j t : In (j, t) (enum (trafos n)) -> r_is t = true -> trafo_ends rp n j t = e -> raw_edge e
| RE_t3 j t side : In (j, t) (enum (trafo3ws n)) -> t_is t = true -> side < 3 -> t3_ends rp n j t side = e -> raw_edge e
| RE_imp i : In i (imps n) -> r_is i = true -> (L (NB (rp (r_f i))), L (NB (rp (r_t i)))) = e -> raw_edge e
| RE_xward j x : In (j, x) (enum (xwards n)) -> x_is x && bus_is n (x_bus x) = true ->
    (L (NB (rp (x_bus x))), L (NXW j)) = e -> raw_edge e
| RE_zswitch s : In s (switches n) -> zswitch n s = true -> (L (NB (rp (s_bus s))), L (NB (rp (s_el s)))) = e -> raw_edge e.

Lemma raw_edge_iff e : In e (ppc_edges_old rp n) <-> raw_edge e.
Proof.
  unfold ppc_edges_old. split.
  - intros H. repeat (apply in_app_or in H; destruct H as [H|H]).
    + apply in_flat_map_if in H. destruct H as [[j l] [I [S E]]]. eapply RE_line; eauto.
    + apply in_flat_map_if in H. destruct H as [[j t] [I [S E]]]. eapply RE_trafo; eauto.
    + apply in_flat_map in H. destruct H as [[j t] [I H]]. simpl in H. destruct (t_is t) eqn:S; [|contradiction].
      destruct H as [H|[H|[H|[]]]]; [apply (RE_t3 _ j t 0)|apply (RE_t3 _ j t 1)|apply (RE_t3 _ j t 2)]; auto.
    + apply in_flat_map_if in H. destruct H as [i [I [S E]]]. eapply RE_imp; eauto.
    + apply in_flat_map_if in H. destruct H as [[j x] [I [S E]]]. eapply RE_xward; eauto.
    + apply in_flat_map_if in H. destruct H as [s [I [S E]]]. eapply RE_zswitch; eauto.
  - intros [j l I S E|j t I S E|j t side I S Hs E|i I S E|j x I S E|s I S E].
    + apply in_or_app. left. apply in_flat_map_if. exists (j, l). auto.
    + apply in_or_app. right. apply in_or_app. left. apply in_flat_map_if. exists (j, t). auto.
    + do 2 (apply in_or_app; right). apply in_or_app. left. apply in_flat_map. exists (j, t). split; [exact I|].
      simpl. rewrite S. destruct side as [|[|[|side]]]; simpl; auto; lia.
    + do 3 (apply in_or_app; right). apply in_or_app. left. apply in_flat_map_if. exists i. auto.
    + do 4 (apply in_or_app; right). apply in_or_app. left. apply in_flat_map_if. exists (j, x). auto.
    + do 5 (apply in_or_app; right). apply in_flat_map_if. exists s. auto.
Qed.

Lemma ppc_edges_iff a b :
  In (a, b) (ppc_edges rp n) <-> raw_edge (a, b) /\ none_row n a = false /\ none_row n b = false.
Proof.
  unfold ppc_edges. rewrite filter_In, raw_edge_iff. simpl. rewrite andb_true_iff, !negb_true_iff. tauto.
Qed.

Hypothesis Hrp : forall a b, rp a = rp b <-> upath (fuse_edges n) a b.
Hypothesis Hidem : forall a, rp (rp a) = rp a.

Notation SP := (SuppliedPF n).

Lemma sp_link u v : link_pf n u v -> (SP u <-> SP v).
Proof. intros H. split; intros S; eapply SB_link; eauto. Qed.

(* a closed bus-bus switch between in-service buses, fusing (z = no impedance) or a branch of its own (z = impedance) *)
Lemma bb_switch_link s (z : bool) : In s (switches n) ->
  s_closed s && swet_eqb (s_et s) ETb && z && bus_is n (s_bus s) && bus_is n (s_el s) = true ->
  bus_is n (s_bus s) = true /\ bus_is n (s_el s) = true /\ link_pf n (s_bus s) (s_el s).
Proof.
  intros I F. repeat (apply andb_prop in F; destruct F as [F ?]).
  repeat split; auto. apply LP_sw; auto. now apply swet_eqb_eq.
Qed.

Lemma fuse_edge_is u v : In (u, v) (fuse_edges n) -> bus_is n u = true /\ bus_is n v = true /\ link_pf n u v.
Proof.
  unfold fuse_edges, fuse_edges_of. rewrite in_flat_map_if. intros [s [I [F E]]]. inversion E; subst.
  exact (bb_switch_link s _ I F).
Qed.
Lemma fuse_edge_link u v : In (u, v) (fuse_edges n) -> link_pf n u v.
Proof. intros H. now apply fuse_edge_is in H. Qed.

(* fused buses are in service: a class with more than one member consists of in-service buses *)
Lemma fuse_path_is a b : upath (fuse_edges n) a b -> a = b \/ (bus_is n a = true /\ bus_is n b = true).
Proof.
  intros H. induction H as [x y E| |x y z _ IH1 _ IH2]; auto.
  - right. apply sym_In in E. destruct E as [E|E]; apply fuse_edge_is in E; tauto.
  - destruct IH1 as [->|[A B]]; auto. destruct IH2 as [<-|[C D]]; auto.
Qed.
Lemma oos_rp a : bus_oos n (rp a) = bus_oos n a.
Proof.
  assert (U : upath (fuse_edges n) (rp a) a) by (apply Hrp; apply Hidem).
  destruct (fuse_path_is _ _ U) as [->|[A B]]; auto. now rewrite !bus_is_not_oos.
Qed.

Lemma sp_class a b : rp a = rp b -> SP a -> SP b.
Proof.
  intros E. apply Hrp in E. revert E. apply (upath_invariant nat (fuse_edges n) SP).
  intros u v I. apply sp_link. now apply fuse_edge_link.
Qed.

(* invariant of reached rows *)
Definition InvB (r : nat) : Prop := forall b, rp b = r -> SP b.
Definition InvL (x : lnode) : Prop :=
  match x with
  | NB r => InvB r
  | NT3 j => exists t s, In (j, t) (enum (trafo3ws n)) /\ t_is t = true /\ s < 3 /\ t3_open_pf n t s = false /\
                         bus_oos n (t3_bus t s) = false /\ SP (t3_bus t s)
  | NXW j => forall x, In (j, x) (enum (xwards n)) -> SP (x_bus x)
  end.
Definition InvN (x : node) : Prop :=
  match x with L l => InvL l | D (Some l) _ _ _ _ => InvL l | D None _ _ _ _ => False end.

Lemma invB_of u : SP u -> InvB (rp u).
Proof. intros S b E. apply (sp_class u b); auto. Qed.
Lemma invB_at u : InvB (rp u) -> SP u.
Proof. intros H. now apply H. Qed.
Lemma link_inv u v : link_pf n u v -> (InvB (rp u) <-> InvB (rp v)).
Proof.
  intros K. split; intros H; apply invB_of; apply invB_at in H.
  - apply (proj1 (sp_link u v K)); auto.
  - apply (proj2 (sp_link u v K)); auto.
Qed.

Lemma line_live l : In l (lines n) -> r_is l = true -> line_dead n l 0 = None -> line_dead n l 1 = None ->
  bus_oos n (r_f l) = false -> bus_oos n (r_t l) = false -> link_pf n (r_f l) (r_t l).
Proof.
  unfold line_dead, line_oos. simpl. intros I S. rewrite S. simpl. intros A B Of Ot. rewrite Of, Ot in *. simpl in *.
  destruct (line_sw n l 0) eqn:E0; try discriminate; destruct (line_sw n l 1) eqn:E1; try discriminate.
  apply LP_line; auto. apply line_sw_none; auto.
Qed.

Lemma trafo_live t : In t (trafos n) -> r_is t = true ->
  option_map (fun p => (1, p)) (trafo_sw n t 0) = None -> option_map (fun p => (1, p)) (trafo_sw n t 1) = None ->
  bus_oos n (r_f t) = false -> bus_oos n (r_t t) = false -> link_pf n (r_f t) (r_t t).
Proof.
  intros I S A B Of Ot. destruct (trafo_sw n t 0) eqn:E0; [discriminate|]. destruct (trafo_sw n t 1) eqn:E1; [discriminate|].
  apply LP_trafo; auto. apply trafo_sw_none; auto.
Qed.

(* a two-terminal branch built by mk_pair2 whose ends are not NONE rows *)
Lemma pair_inv j u v fd td a b :
  mk_pair2 j (NB (rp u)) (NB (rp v)) fd td = (a, b) -> none_row n a = false -> none_row n b = false ->
  (fd = None -> td = None -> bus_oos n u = false -> bus_oos n v = false -> link_pf n u v) -> (InvN a <-> InvN b).
Proof.
  unfold mk_pair2. intros H Na Nb K. destruct fd as [[k p]|], td as [[k' p']|]; inversion H; subst; simpl; try tauto.
  simpl in Na, Nb. rewrite oos_rp in Na, Nb. apply link_inv. now apply K.
Qed.

Lemma t3_edge_inv j t side a b : In (j, t) (enum (trafo3ws n)) -> t_is t = true -> side < 3 ->
  t3_ends rp n j t side = (a, b) -> none_row n a = false -> none_row n b = false -> (InvN a <-> InvN b).
Proof.
  intros I S Hs H Na Nb.
  assert (B : t3_sw n t side = None -> bus_oos n (t3_bus t side) = false -> (InvB (rp (t3_bus t side)) <-> InvL (NT3 j))).
  { intros E O. apply t3_sw_none in E. split.
    - intros H0. exists t, side. repeat split; auto; try (now apply invB_at).
    - intros [t0 [s0 [I0 [S0 [L0 [O0 [N0 P0]]]]]]]. assert (t0 = t) by (eapply enum_fun; eauto). subst t0.
      apply invB_of. eapply SB_link; [exact P0| |exact Logic.I]. left.
      apply LP_t3; auto. eapply enum_In_snd; eauto. }
  unfold t3_ends in H. destruct (t3_sw n t side) eqn:E; destruct (Nat.eqb side 0); inversion H; subst; simpl; try tauto;
    simpl in Na, Nb; try rewrite oos_rp in Na; try rewrite oos_rp in Nb; try (apply B; auto); try (symmetry; apply B; auto).
Qed.

(* every branch of the search graph joins two rows with equivalent invariants *)
Lemma edge_inv a b : In (a, b) (ppc_edges rp n) -> (InvN a <-> InvN b).
Proof.
  intros H. apply ppc_edges_iff in H. destruct H as [[j l I S E|j t I S E|j t side I S Hs E|i I S E|j x I S E|s I S E] [Na Nb]].
  - apply (pair_inv j (r_f l) (r_t l) _ _ a b E Na Nb).
    intros A B Of Ot. apply line_live; auto. eapply enum_In_snd; eauto.
  - apply (pair_inv j (r_f t) (r_t t) _ _ a b E Na Nb).
    intros A B Of Ot. apply trafo_live; auto. eapply enum_In_snd; eauto.
  - exact (t3_edge_inv j t side a b I S Hs E Na Nb).
  - inversion E; subst. simpl in *. rewrite oos_rp in Na, Nb. apply link_inv. now apply LP_imp.
  - inversion E; subst. simpl. split.
    + intros B x' I'. assert (x' = x) by (eapply enum_fun; eauto). subst. now apply invB_at.
    + intros B. apply invB_of. now apply B.
  - inversion E; subst. simpl. apply link_inv. now apply (bb_switch_link s _ I S).
Qed.

Lemma ref_inv x : In x (ref_nodes rp n) -> InvN x.
Proof.
  unfold ref_nodes. rewrite in_flat_map_if. intros [i [I [S <-]]]. simpl.
  apply andb_prop in S. destruct S as [S1 S2]. apply invB_of. apply SB_slack; auto. exists i. auto.
Qed.

Lemma reached_inv x : In x (reached_with rp n) -> InvN x.
Proof.
  unfold reached_with. intros H. apply reach_iff in H. destruct H as [s [Hs P]].
  apply (closed_contains_reach node (sym (ppc_edges rp n)) InvN) with (u := s); auto.
  - intros u v E. apply sym_In in E. destruct E as [E|E]; apply edge_inv in E; tauto.
  - now apply ref_inv.
Qed.

(* ---- completeness: every SuppliedPF bus has a reached row *)
Lemma live_edge u v : raw_edge (L (NB (rp u)), L (NB (rp v))) -> bus_oos n u = false -> bus_oos n v = false ->
  upath (ppc_edges rp n) (L (NB (rp u))) (L (NB (rp v))).
Proof. intros E Ou Ov. apply upath_edge, ppc_edges_iff. simpl. now rewrite !oos_rp. Qed.

(* a winding of an in-service trafo3w without open switch, at a bus that is not out of service, joins the row of that
   bus and the star-point row *)
Lemma t3_winding_edge j t s : In (j, t) (enum (trafo3ws n)) -> t_is t = true -> s < 3 ->
  t3_open_pf n t s = false -> bus_oos n (t3_bus t s) = false ->
  In (L (NB (rp (t3_bus t s))), L (NT3 j)) (sym (ppc_edges rp n)).
Proof.
  intros I S Hs O Oo. apply t3_sw_none in O.
  assert (E : raw_edge (t3_ends rp n j t s)) by (eapply RE_t3; eauto).
  unfold t3_ends in E. rewrite O in E. apply sym_In.
  destruct (Nat.eqb s 0); [left|right]; apply ppc_edges_iff; simpl; now rewrite oos_rp.
Qed.

Lemma link_path u v : link_pf n u v -> upath (ppc_edges rp n) (L (NB (rp u))) (L (NB (rp v))).
Proof.
  intros K. destruct K.
  - destruct (enum_In_ex _ _ _ H) as [j J]. apply live_edge; auto. apply (RE_line _ j l); auto.
    apply line_sw_none in H1. destruct H1 as [A B]. unfold line_ends, line_dead, line_oos. simpl.
    rewrite A, B, H0, H2, H3. reflexivity.
  - destruct (enum_In_ex _ _ _ H) as [j J]. apply live_edge; auto. apply (RE_trafo _ j t); auto.
    apply trafo_sw_none in H1. destruct H1 as [A B]. unfold trafo_ends. rewrite A, B. reflexivity.
  - apply live_edge; auto. now apply (RE_imp _ i).
  - destruct (enum_In_ex _ _ _ H) as [j J].
    apply path_trans with (L (NT3 j)); [|apply upath_sym]; apply path_step; now apply t3_winding_edge.
  - destruct (s_zpos s) eqn:Z.
    + apply live_edge; try (now apply bus_is_not_oos). apply (RE_zswitch _ s); auto.
      unfold zswitch. now rewrite H0, H1, H2, H3, Z.
    + assert (E : rp (s_bus s) = rp (s_el s)).
      { apply Hrp. apply upath_edge. unfold fuse_edges, fuse_edges_of. apply in_flat_map_if. exists s.
        unfold fuses. now rewrite H0, H1, H2, H3, Z. }
      rewrite E. apply upath_refl.
Qed.

Lemma supplied_reached b : SP b -> In (L (NB (rp b))) (reached_with rp n).
Proof.
  intros S. unfold reached_with. apply reach_iff. induction S as [s [i [I [A [B <-]]]] _|u v S IH K _].
  - exists (L (NB (rp (i_bus i)))). split; [|apply path_refl].
    unfold ref_nodes. apply in_flat_map_if. exists i. now rewrite A, B.
  - destruct IH as [s [Hs P]]. exists s. split; auto. eapply path_trans; [exact P|].
    destruct K as [K|K]; [|apply upath_sym]; now apply link_path.
Qed.

Theorem nan_with_iff b :
  nan_with rp (reached_with rp n) n b = false <-> (bus_is n b = true /\ SP b).
Proof.
  unfold nan_with, isolated_in. rewrite orb_false_iff, !negb_false_iff, mem_In. split.
  - intros [A B]. split; auto. apply reached_inv in B. simpl in B. now apply B.
  - intros [A B]. split; auto. now apply supplied_reached.
Qed.
End PF.

Lemma supplied_ok lk ok slack b : SuppliedBy lk ok slack b -> ok b.
Proof. induction 1; auto. Qed.

(* from one notion of supply to another: admissible slacks stay admissible slacks, links between admissible buses
   stay links between admissible buses *)
Lemma supplied_mono (lk lk' : nat -> nat -> Prop) (ok ok' sl sl' : nat -> Prop) :
  (forall s, sl s -> ok s -> sl' s /\ ok' s) ->
  (forall u v, ok u -> ok v -> lk u v -> lk' u v /\ ok' u /\ ok' v) ->
  forall b, SuppliedBy lk ok sl b -> SuppliedBy lk' ok' sl' b.
Proof.
  intros Hs Hl b S. induction S as [s A O|u v S IH K O].
  - destruct (Hs s A O). now apply SB_slack.
  - pose proof (supplied_ok _ _ _ _ S) as Ou.
    destruct K as [K|K]; [destruct (Hl u v Ou O K) as [K' [_ Ov]]|destruct (Hl v u O Ou K) as [K' [Ov _]]];
      eapply SB_link; eauto.
Qed.

Lemma t3_side_bus t b k : t3_side t b = Some k -> t3_bus t k = b /\ k < 3.
Proof.
  unfold t3_side. destruct (Nat.eqb (t_hv t) b) eqn:A; [intros H; inversion H; apply Nat.eqb_eq in A; simpl; split; auto; lia|].
  destruct (Nat.eqb (t_mv t) b) eqn:B; [intros H; inversion H; apply Nat.eqb_eq in B; simpl; split; auto; lia|].
  destruct (Nat.eqb (t_lv t) b) eqn:C; [intros H; inversion H; apply Nat.eqb_eq in C; simpl; split; auto; lia|discriminate].
Qed.

(* the first-match side of the power flow is implied open by the (index, bus) rule of the topology module ... *)
Lemma open_pf_open_t3 n t s : t3_open_pf n t s = true -> open_t3 n (t_id t) (t3_bus t s) = true.
Proof.
  unfold t3_open_pf, open_t3. intros H. apply existsb_exists in H. destruct H as [w [I H]].
  apply existsb_exists. exists w. split; auto.
  repeat (apply andb_prop in H; destruct H as [H ?]).
  destruct (t3_side t (s_bus w)) eqn:E; [|discriminate]. apply Nat.eqb_eq in H0. subst n0.
  apply t3_side_bus in E. destruct E as [E _]. rewrite H, H2, H1, E. simpl. now rewrite Nat.eqb_refl.
Qed.
(* ... and conversely when the three terminals are distinct buses *)
Lemma open_t3_open_pf n t s : In t (trafo3ws n) -> t3_distinct n = true -> s < 3 ->
  open_t3 n (t_id t) (t3_bus t s) = true -> t3_open_pf n t s = true.
Proof.
  intros It Dn Hs H. unfold t3_distinct in Dn. rewrite forallb_forall in Dn. specialize (Dn t It).
  repeat (apply andb_prop in Dn; destruct Dn as [Dn ?]).
  apply negb_true_iff in Dn, H0, H1. apply Nat.eqb_neq in Dn, H0, H1.
  unfold open_t3 in H. apply existsb_exists in H. destruct H as [w [I H]].
  unfold t3_open_pf. apply existsb_exists. exists w. split; auto.
  repeat (apply andb_prop in H; destruct H as [H ?]). apply Nat.eqb_eq in H2.
  rewrite H, H4, H3. simpl. rewrite H2. unfold t3_side.
  destruct s as [|[|[|s]]]; simpl; try lia.
  - now rewrite Nat.eqb_refl.
  - destruct (Nat.eqb (t_hv t) (t_mv t)) eqn:Q; [apply Nat.eqb_eq in Q; congruence|]. now rewrite Nat.eqb_refl.
  - destruct (Nat.eqb (t_hv t) (t_lv t)) eqn:Q; [apply Nat.eqb_eq in Q; congruence|].
    destruct (Nat.eqb (t_mv t) (t_lv t)) eqn:Q'; [apply Nat.eqb_eq in Q'; congruence|]. now rewrite Nat.eqb_refl.
Qed.

Lemma bus_is_known n b : bus_is n b = true -> bus_known n b = true.
Proof.
  unfold bus_is, bus_known. intros H. apply existsb_exists in H. destruct H as [r [I H]].
  apply existsb_exists. exists r. split; auto. apply andb_prop in H. tauto.
Qed.
Lemma known_not_oos_is n b : bus_known n b = true -> bus_oos n b = false -> bus_is n b = true.
Proof. unfold bus_oos. intros ->. simpl. intros H. now apply negb_false_iff in H. Qed.

(* Supplied -> SuppliedPF (always) *)
Lemma link_link_pf n u v : link n u v -> bus_is n u = true -> bus_is n v = true -> link_pf n u v.
Proof.
  intros K Hu Hv. pose proof (bus_is_not_oos _ _ Hu) as Ou. pose proof (bus_is_not_oos _ _ Hv) as Ov. destruct K.
  - now apply LP_line.
  - now apply LP_trafo.
  - now apply LP_imp.
  - apply LP_t3; auto.
    + destruct (t3_open_pf n t s1) eqn:E; auto. apply open_pf_open_t3 in E. congruence.
    + destruct (t3_open_pf n t s2) eqn:E; auto. apply open_pf_open_t3 in E. congruence.
  - now apply LP_sw.
Qed.

Theorem supplied_supplied_pf n b : Supplied n b -> SuppliedPF n b.
Proof.
  apply supplied_mono.
  - intros s [i [I [A [B E]]]] O. split; auto. exists i. unfold inj_is. rewrite A, E, O. auto.
  - intros u v Ou Ov K. split; auto. now apply link_link_pf.
Qed.

(* SuppliedPF -> Supplied under G07 *)
Section Guard.
Variable n : net.
Hypothesis G : G07 n = true.
Hypothesis Dt : t3_distinct n = true.

Lemma G_parts :
  (forall d, In d (dclines n) -> r_is d = false) /\
  (forall t, In t (trafos n) -> r_is t = true -> bus_known n (r_f t) = true /\ bus_known n (r_t t) = true) /\
  (forall t, In t (imps n) -> r_is t = true -> bus_known n (r_f t) = true /\ bus_known n (r_t t) = true) /\
  (forall t, In t (trafo3ws n) -> t_is t = true -> forall s, bus_known n (t3_bus t s) = true) /\
  (forall l, In l (lines n) -> r_is l = true -> bus_known n (r_f l) = true /\ bus_known n (r_t l) = true) /\
  (forall s, In s (switches n) -> s_et s = ETb -> s_closed s = true -> bus_known n (s_bus s) = true /\ bus_known n (s_el s) = true).
Proof.
  pose proof G as G0. unfold G07 in G0.
  apply andb_prop in G0. destruct G0 as [G0 Gsw]. apply andb_prop in G0. destruct G0 as [G0 Gln].
  apply andb_prop in G0. destruct G0 as [G0 Gt3]. apply andb_prop in G0. destruct G0 as [G0 Gim].
  apply andb_prop in G0. destruct G0 as [Gdc Gtr].
  rewrite forallb_forall in Gsw, Gln, Gt3, Gim, Gdc, Gtr.
  split; [|split; [|split; [|split; [|split]]]].
  - intros d I. specialize (Gdc d I). now apply negb_true_iff in Gdc.
  - intros t I S. specialize (Gtr t I). rewrite S in Gtr. simpl in Gtr. apply andb_prop in Gtr. tauto.
  - intros t I S. specialize (Gim t I). rewrite S in Gim. simpl in Gim. apply andb_prop in Gim. tauto.
  - intros t I S s. specialize (Gt3 t I). rewrite S in Gt3. simpl in Gt3.
    apply andb_prop in Gt3. destruct Gt3 as [Gt3 A3]. apply andb_prop in Gt3. destruct Gt3 as [A1 A2].
    destruct s as [|[|s]]; simpl; auto.
  - intros l I S. specialize (Gln l I). rewrite S in Gln. simpl in Gln. apply andb_prop in Gln. tauto.
  - intros w I E C. specialize (Gsw w I). rewrite E, C in Gsw. simpl in Gsw. apply andb_prop in Gsw. tauto.
Qed.

(* a power-flow link is a link of the property text between in-service buses *)
Lemma link_pf_link u v : link_pf n u v -> link n u v /\ bus_is n u = true /\ bus_is n v = true.
Proof.
  destruct G_parts as [Gd [Gt [Gi [G3 [Gl Gs]]]]].
  intros K. destruct K.
  - destruct (Gl l H H0). split; [now apply LK_line|]. split; now apply known_not_oos_is.
  - destruct (Gt t H H0). split; [now apply LK_trafo|]. split; now apply known_not_oos_is.
  - destruct (Gi i H H0). split; [now apply LK_imp|]. split; now apply known_not_oos_is.
  - split; [|split; apply known_not_oos_is; auto]. apply LK_t3; auto.
    + destruct (open_t3 n (t_id t) (t3_bus t s1)) eqn:E; auto. apply open_t3_open_pf in E; auto. congruence.
    + destruct (open_t3 n (t_id t) (t3_bus t s2)) eqn:E; auto. apply open_t3_open_pf in E; auto. congruence.
  - split; auto. now apply LK_sw.
Qed.

Theorem supplied_pf_supplied b : SuppliedPF n b -> Supplied n b.
Proof.
  apply supplied_mono.
  - intros s [i [I [A [B E]]]] _. unfold inj_is in A. apply andb_prop in A. destruct A as [A1 A2].
    split; [exists i; auto|now rewrite <- E].
  - intros u v _ _. apply link_pf_link.
Qed.
End Guard.

Lemma nx_raw_link n u v : In (u, v) (nx_edges_raw n) -> linkT n u v.
Proof.
  unfold nx_edges_raw. intros H. repeat (apply in_app_or in H; destruct H as [H|H]).
  - apply in_flat_map_if in H. destruct H as [l [I [S E]]]. inversion E; subst.
    apply andb_prop in S. destruct S as [S1 S2]. apply negb_true_iff in S2. apply LT_link. now apply LK_line.
  - apply in_flat_map_if in H. destruct H as [l [I [S E]]]. inversion E; subst. apply LT_link. now apply LK_imp.
  - apply in_flat_map_if in H. destruct H as [l [I [S E]]]. inversion E; subst. now apply LT_dcline.
  - apply in_flat_map_if in H. destruct H as [l [I [S E]]]. inversion E; subst.
    apply andb_prop in S. destruct S as [S1 S2]. apply negb_true_iff in S2. apply LT_link. now apply LK_trafo.
  - apply in_flat_map in H. destruct H as [t [I H]]. apply in_flat_map in H. destruct H as [[f t'] [P H]].
    destruct (t_is t && negb (open_t3 n (t_id t) (t3_bus t f)) && negb (open_t3 n (t_id t) (t3_bus t t'))) eqn:E; [|contradiction].
    destruct H as [H|[]]. inversion H; subst.
    apply andb_prop in E. destruct E as [E E3]. apply andb_prop in E. destruct E as [E1 E2].
    apply negb_true_iff in E2, E3. apply LT_link.
    assert (f < 3 /\ t' < 3) as [Hf Ht].
    { simpl in P. destruct P as [P|[P|[P|[]]]]; inversion P; subst; lia. }
    now apply LK_t3.
  - apply in_flat_map_if in H. destruct H as [s [I [S E]]]. inversion E; subst.
    apply andb_prop in S. destruct S as [S1 S2]. apply LT_link. apply LK_sw; auto. now apply swet_eqb_eq.
Qed.

Lemma nx_raw_t3 n t a b : In t (trafo3ws n) -> t_is t = true -> In (a, b) [(0, 1); (0, 2); (1, 2)] ->
  open_t3 n (t_id t) (t3_bus t a) = false -> open_t3 n (t_id t) (t3_bus t b) = false ->
  In (t3_bus t a, t3_bus t b) (nx_edges_raw n).
Proof.
  intros I S P Oa Ob. unfold nx_edges_raw. do 4 (apply in_or_app; right). apply in_or_app. left.
  apply in_flat_map. exists t. split; auto. apply in_flat_map. exists (a, b). split; auto.
  rewrite S, Oa, Ob. now left.
Qed.
Lemma link_nx_raw n u v : linkT n u v -> u = v \/ In (u, v) (nx_edges_raw n) \/ In (v, u) (nx_edges_raw n).
Proof.
  intros K. destruct K as [u v [l I S O|t I S O|i I S|t s1 s2 I S L1 L2 O1 O2|s I T C]|d I S].
  4: { destruct s1 as [|[|[|s1]]]; try lia; destruct s2 as [|[|[|s2]]]; try lia; auto;
         try (right; left; apply nx_raw_t3; simpl; auto; fail); right; right; apply nx_raw_t3; simpl; auto. }
  all: right; left; unfold nx_edges_raw.
  - apply in_or_app. left. apply in_flat_map_if. exists l. now rewrite S, O.
  - do 3 (apply in_or_app; right). apply in_or_app. left. apply in_flat_map_if. exists t. now rewrite S, O.
  - apply in_or_app. right. apply in_or_app. left. apply in_flat_map_if. exists i. auto.
  - do 5 (apply in_or_app; right). apply in_flat_map_if. exists s. now rewrite T, C.
  - do 2 (apply in_or_app; right). apply in_or_app. left. apply in_flat_map_if. exists d. auto.
Qed.

Lemma nx_edge_iff n u v :
  In (u, v) (nx_edges n) <-> In (u, v) (nx_edges_raw n) /\ bus_oos n u = false /\ bus_oos n v = false.
Proof.
  unfold nx_edges. rewrite filter_In. simpl. rewrite andb_true_iff, !negb_true_iff. tauto.
Qed.

Lemma nx_edge_nodes n u v : In (u, v) (nx_edges n) -> In u (nx_nodes n) /\ In v (nx_nodes n).
Proof.
  intros H. apply nx_edge_iff in H. destruct H as [H [Ou Ov]]. unfold nx_nodes.
  split; apply filter_In; (split; [|now apply negb_true_iff]); apply dedup_In; apply in_or_app; right;
    unfold nodes_of; apply in_flat_map; exists (u, v); simpl; auto.
Qed.

Lemma nx_path_nodes n x y : upath (nx_edges n) x y -> In x (nx_nodes n) -> In y (nx_nodes n).
Proof.
  apply (upath_invariant nat (nx_edges n) (fun z => In z (nx_nodes n))).
  intros u v E. apply nx_edge_nodes in E. tauto.
Qed.

Lemma nx_path_supplied n x y : upath (nx_edges n) x y -> SuppliedT n x -> SuppliedT n y.
Proof.
  apply (upath_invariant nat (nx_edges n) (SuppliedT n)).
  intros u v E. apply nx_edge_iff in E. destruct E as [E [Ou Ov]]. apply nx_raw_link in E.
  split; intros S; eapply SB_link; eauto.
Qed.

Lemma suppliedT_path n b : SuppliedT n b ->
  exists s, slack_at n s /\ bus_oos n s = false /\ upath (nx_edges n) s b.
Proof.
  induction 1 as [s A O|u v S IH K O].
  - exists s. repeat split; auto. apply upath_refl.
  - destruct IH as [s [A [Os P]]]. exists s. repeat split; auto. eapply upath_trans; [exact P|].
    pose proof (supplied_ok _ _ _ _ S) as Ou. simpl in Ou.
    assert (W : forall a b, linkT n a b -> bus_oos n a = false -> bus_oos n b = false -> upath (nx_edges n) a b).
    { intros a b' K' Oa Ob. destruct (link_nx_raw _ _ _ K') as [->|[E|E]].
      - apply upath_refl.
      - apply upath_edge. apply nx_edge_iff. auto.
      - apply upath_sym. apply upath_edge. apply nx_edge_iff. auto. }
    destruct K as [K|K]; [|apply upath_sym]; apply W; auto.
Qed.

Lemma topo_slacks_iff n s : In s (topo_slacks n) <-> slack_at n s.
Proof.
  unfold topo_slacks, slack_at. rewrite in_flat_map_if. split; intros [i [I H]]; exists i.
  - destruct H as [E <-]. apply andb_prop in E. tauto.
  - destruct H as [A [B <-]]. now rewrite A, B.
Qed.

Lemma nx_nodes_known n b : bus_known n b = true -> (In b (nx_nodes n) <-> bus_is n b = true).
Proof.
  intros K. unfold nx_nodes. rewrite filter_In, negb_true_iff. split.
  - intros [_ O]. now apply known_not_oos_is.
  - intros I. split; [|now apply bus_is_not_oos]. apply dedup_In. apply in_or_app. left.
    unfold bus_known in K. apply existsb_exists in K. destruct K as [r [R E]]. apply Nat.eqb_eq in E. subst b.
    now apply in_map.
Qed.

(* Supplied -> SuppliedT always; the converse under G07 for buses of the bus table *)
Theorem supplied_suppliedT n b : Supplied n b -> SuppliedT n b.
Proof.
  apply supplied_mono.
  - intros s A O. split; auto. now apply bus_is_not_oos.
  - intros u v Ou Ov K. repeat split; [now apply LT_link| |]; now apply bus_is_not_oos.
Qed.

Section GuardT.
Variable n : net.
Hypothesis G : G07 n = true.

Lemma link_known u v : link n u v -> bus_known n u = true /\ bus_known n v = true.
Proof.
  destruct (G_parts n G) as [Gd [Gt [Gi [G3 [Gl Gs]]]]]. intros K. destruct K.
  - now apply Gl.
  - now apply Gt.
  - now apply Gi.
  - split; now apply G3.
  - now apply Gs.
Qed.

Theorem suppliedT_supplied b : SuppliedT n b -> bus_known n b = true -> Supplied n b.
Proof.
  destruct (G_parts n G) as [Gd _].
  induction 1 as [s A O|u v S IH K O]; intros Kn.
  - apply SB_slack; auto. now apply known_not_oos_is.
  - assert (L : link n u v \/ link n v u).
    { destruct K as [K|K]; inversion K; subst; auto; rewrite (Gd _ H) in H0; discriminate. }
    assert (Ku : bus_known n u = true) by (destruct L as [L|L]; apply link_known in L; tauto).
    eapply SB_link; [apply IH; auto|exact L|now apply known_not_oos_is].
Qed.
End GuardT.

(* witness nets of Properties/C07.v *)
Definition mkbus i s := {| b_id := i; b_is := s |}.
Definition mkbr i f t s := {| r_id := i; r_f := f; r_t := t; r_is := s |}.
Definition eg b := {| i_bus := b; i_is := true; i_pv := true; i_slack := true |}.
(* bus 2 fed only through a dcline: NaN in the power flow, not reported by the topology module (C07_topo_eq_pf_refuted) *)
Definition w_dcline : net :=
  {| buses := [mkbus 0 true; mkbus 1 true; mkbus 2 true]; lines := [mkbr 0 0 1 true]; trafos := []; trafo3ws := [];
     imps := []; dclines := [mkbr 0 1 2 true]; xwards := []; switches := [];
     injs := [eg 0; {| i_bus := 2; i_is := true; i_pv := true; i_slack := false |};
              {| i_bus := 1; i_is := true; i_pv := true; i_slack := false |}] |}.
(* bus 3 behind the out-of-service bus 2, joined by two impedances: isolated only with the repair "the connectivity check
   does not walk through out-of-service buses" (C07_pf_isolated_iff_supplied_old_refuted) *)
Definition w_bridge : net :=
  {| buses := [mkbus 0 true; mkbus 1 true; mkbus 2 false; mkbus 3 true]; lines := [mkbr 0 0 1 true]; trafos := [];
     trafo3ws := []; imps := [mkbr 0 1 2 true; mkbr 1 2 3 true]; dclines := []; xwards := []; switches := [];
     injs := [eg 0] |}.

(* non-vacuity: a net satisfying the guard with a supplied, an unsupplied and an out-of-service bus, fused buses,
   an open line switch and a trafo3w *)
Definition w_ok : net :=
  {| buses := [mkbus 0 true; mkbus 1 true; mkbus 2 true; mkbus 3 false; mkbus 4 true; mkbus 5 true; mkbus 6 true];
     lines := [mkbr 0 0 1 true; mkbr 1 1 2 true; mkbr 2 2 3 true];
     trafos := []; trafo3ws := [{| t_id := 0; t_hv := 1; t_mv := 4; t_lv := 5; t_is := true |}];
     imps := []; dclines := []; xwards := [];
     switches := [{| s_bus := 1; s_el := 1; s_et := ETl; s_closed := false; s_zpos := false |};
                  {| s_bus := 5; s_el := 6; s_et := ETb; s_closed := true; s_zpos := false |};
                  {| s_bus := 4; s_el := 0; s_et := ETt3; s_closed := false; s_zpos := false |}];
     injs := [eg 0] |}.
Example c07_partial_nonvacuous :
  G07 w_ok = true /\ t3_distinct w_ok = true /\
  map (nan_bus w_ok) [0; 1; 2; 3; 4; 5; 6] = [false; false; true; true; true; false; false] /\
  topo_unsupplied w_ok = [4; 2] /\ rep w_ok 6 = rep w_ok 5.
Proof. vm_compute. repeat split. Qed.
