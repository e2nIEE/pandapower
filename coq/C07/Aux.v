(* C07/Aux.v — the auxiliary ppc rows (internal bus of an xward, star point of a trafo3w, auxiliary bus at an open branch
   switch or at the out-of-service end of a line): their row numbers, and when _check_connectivity reaches them.  Every
   auxiliary row is a dead end that hangs on its element: it is reached exactly when the element conducts to a reached
   bus row, so net._isolated_buses restricted to auxiliary rows is a function of the supplied set of the ordinary buses. *)
From Coq Require Import List Bool Arith Lia Relations.
From PPV Require Import Base.Lists Base.C07Graph C07.Model C07.UnionFind C07.Spec C07.Proofs.
Import ListNotations.
Local Open Scope nat_scope.

Lemma path_last A (g : list (A * A)) s x : path g s x -> s = x \/ exists u, path g s u /\ In (u, x) g.
Proof.
  intros P. apply clos_rt_rtn1 in P. destruct P as [|y z S P]; [now left|].
  right. exists y. split; auto. now apply clos_rtn1_rt.
Qed.
Lemma reach_step A (eq_dec : forall x y : A, {x = y} + {x <> y}) g S x :
  In x (reach eq_dec g S) <-> In x S \/ exists u, In u (reach eq_dec g S) /\ In (u, x) g.
Proof.
  rewrite reach_iff. split.
  - intros [s [Hs P]]. destruct (path_last A g s x P) as [->|[u [Pu E]]]; auto.
    right. exists u. split; auto. apply reach_iff. exists s. auto.
  - intros [H|[u [U E]]].
    + exists x. split; auto. apply path_refl.
    + apply reach_iff in U. destruct U as [s [Hs P]]. exists s. split; auto.
      eapply path_trans; [exact P|now apply path_step].
Qed.

Lemma enum_length X (l : list X) : length (enum l) = length l.
Proof. unfold enum. rewrite combine_length, seq_length. apply Nat.min_id. Qed.
(* the rows of a table that gets one row per element, in table order *)
Lemma nth_map_enum X Y (f : nat -> Y) (l : list X) j :
  j < length l -> nth_error (map (fun jx => f (fst jx)) (enum l)) j = Some (f j).
Proof.
  intros H. destruct (nth_error l j) as [x|] eqn:E; [|apply nth_error_None in E; lia].
  apply (map_nth_error (fun jx : nat * X => f (fst jx)) j (enum l) (d := (j, x))). now rewrite nth_enum, E.
Qed.

Section AuxPF.
Variable n : net.
Variable rp : nat -> nat.
Hypothesis Hrp : forall a b, rp a = rp b <-> upath (fuse_edges n) a b.
Hypothesis Hidem : forall a, rp (rp a) = rp a.

Notation SP := (SuppliedPF n).
Notation R := (reached_with rp n).
Notation E := (sym (ppc_edges rp n)).

Lemma ref_is_bus x : In x (ref_nodes rp n) -> exists r, x = L (NB r).
Proof. unfold ref_nodes. rewrite in_flat_map_if. intros [i [_ [_ <-]]]. eauto. Qed.
Lemma reached_closed a b : In (a, b) E -> (In a R <-> In b R).
Proof.
  intros H. unfold reached_with. split; intros I; apply reach_step; right.
  - exists a. auto.
  - exists b. split; auto. now apply sym_swap.
Qed.

(* the ordinary rows: the row of (the representative of) a bus is reached iff the bus is SuppliedPF *)
Theorem bus_row_reached b : In (L (NB (rp b))) R <-> SP b.
Proof.
  split.
  - intros H. apply (reached_inv n rp Hrp Hidem) in H. simpl in H. now apply H.
  - apply (supplied_reached n rp Hrp Hidem).
Qed.

(* every auxiliary row D carries the name of the only row it can be adjacent to *)
Definition names_other (a b : node) : Prop :=
  match a with
  | D (Some l) _ _ _ _ => b = L l
  | D None _ _ _ _ => exists k j s p, b = D None k j s p
  | L _ => True
  end.
Definition no_xw (x : node) : Prop := match x with L (NXW _) => False | _ => True end.
(* the ends of a two-winding branch between bus rows, and of a trafo3w winding: each names the other, neither is the
   internal bus of an xward *)
Definition ends_ok (a b : node) : Prop := (names_other a b /\ names_other b a) /\ no_xw a /\ no_xw b.
Lemma pair_ends j u v fd td a b : mk_pair2 j (NB u) (NB v) fd td = (a, b) -> ends_ok a b.
Proof.
  unfold mk_pair2. destruct fd as [[k p]|], td as [[k' p']|]; intros H; inversion H; subst; unfold ends_ok; simpl; repeat split; eauto.
Qed.
Lemma t3_ends_ok j t side a b : t3_ends rp n j t side = (a, b) -> ends_ok a b.
Proof.
  unfold t3_ends. destruct (t3_sw n t side); destruct (Nat.eqb side 0); intros H; inversion H; subst; unfold ends_ok; simpl; repeat split; auto.
Qed.
Lemma edge_names a b : raw_edge n rp (a, b) -> names_other a b /\ names_other b a.
Proof.
  intros [j l _ _ E|j t _ _ E|j t side _ _ _ E|i _ _ E|j x _ _ E|s _ _ E].
  1, 2: exact (proj1 (pair_ends _ _ _ _ _ _ _ E)).
  1: exact (proj1 (t3_ends_ok _ _ _ _ _ E)).
  all: inversion E; simpl; auto.
Qed.
Lemma sym_names a b : In (a, b) E -> names_other a b.
Proof.
  intros H. apply sym_In in H.
  destruct H as [H|H]; apply ppc_edges_iff in H; destruct H as [H _]; apply edge_names in H; tauto.
Qed.

(* auxiliary bus at an open switch / at the out-of-service end of a line: reached iff it names a row, an in-service
   branch joins it to that row, and that row is reached; a row between two re-routed ends (D None) is never reached *)
Theorem aux_switch_row_reached o k j s p :
  In (D o k j s p) R <-> exists l, o = Some l /\ In (D o k j s p, L l) E /\ In (L l) R.
Proof.
  split.
  - intros H. pose proof H as H0. unfold reached_with in H. apply reach_step in H. destruct H as [H|[u [U Ed]]].
    { apply ref_is_bus in H. destruct H as [r H]. discriminate. }
    apply sym_swap in Ed. pose proof (sym_names _ _ Ed) as N. destruct o as [l|]; simpl in N.
    + subst u. exists l. auto.
    + destruct N as [k' [j' [s' [p' ->]]]]. apply (reached_inv n rp Hrp Hidem) in U. contradiction.
  - intros [l [-> [Ed I]]]. apply (reached_closed _ _ Ed). exact I.
Qed.

(* internal bus of an xward: reached iff the xward is an in-service element and the row of its bus is reached *)
Lemma xward_edges a b j : raw_edge n rp (a, b) -> a = L (NXW j) \/ b = L (NXW j) ->
  exists x, In (j, x) (enum (xwards n)) /\ x_is x = true /\ bus_is n (x_bus x) = true /\
            a = L (NB (rp (x_bus x))) /\ b = L (NXW j).
Proof.
  intros [i l _ _ E|i t _ _ E|i t side _ _ _ E|i _ _ E|i x I S E|s _ _ E] X.
  1, 2: apply pair_ends in E.
  3: apply t3_ends_ok in E.
  1-3: destruct E as [_ E]; destruct X as [-> | ->]; simpl in E; tauto.
  all: inversion E; subst; try (destruct X; discriminate).
  apply andb_prop in S. destruct S as [S1 S2].
  destruct X as [X|X]; [discriminate|]. inversion X; subst. exists x. auto.
Qed.
Theorem aux_xward_row_reached j :
  In (L (NXW j)) R <-> exists x, In (j, x) (enum (xwards n)) /\ x_is x = true /\ bus_is n (x_bus x) = true /\ SP (x_bus x).
Proof.
  split.
  - intros H. unfold reached_with in H. apply reach_step in H. destruct H as [H|[u [U Ed]]].
    { apply ref_is_bus in H. destruct H as [r H]. discriminate. }
    apply sym_In in Ed. destruct Ed as [Ed|Ed]; apply ppc_edges_iff in Ed; destruct Ed as [Ed _].
    + destruct (xward_edges _ _ j Ed (or_intror eq_refl)) as [x [I [S1 [S2 [-> _]]]]].
      exists x. repeat split; auto. now apply bus_row_reached.
    + destruct (xward_edges _ _ j Ed (or_introl eq_refl)) as [x [_ [_ [_ [X _]]]]]. discriminate.
  - intros [x [I [S1 [S2 S]]]]. apply bus_row_reached in S.
    apply (reached_closed (L (NB (rp (x_bus x)))) (L (NXW j))); auto. apply sym_In. left.
    apply ppc_edges_iff. simpl. rewrite (oos_rp n rp Hrp Hidem), (bus_is_not_oos n _ S2).
    repeat split. apply (RE_xward _ _ _ j x); auto. now rewrite S1, S2.
Qed.

(* star point of a trafo3w: reached iff the trafo3w is in service and some winding without an open switch ends at a
   bus that is not out of service and SuppliedPF *)
Theorem aux_trafo3w_row_reached j :
  In (L (NT3 j)) R <-> exists t s, In (j, t) (enum (trafo3ws n)) /\ t_is t = true /\ s < 3 /\
                        t3_open_pf n t s = false /\ bus_oos n (t3_bus t s) = false /\ SP (t3_bus t s).
Proof.
  split.
  - intros H. apply (reached_inv n rp Hrp Hidem) in H. exact H.
  - intros [t [s [I [S [Hs [O [Oo P]]]]]]]. apply bus_row_reached in P.
    apply (reached_closed (L (NB (rp (t3_bus t s)))) (L (NT3 j))); auto.
    now apply (t3_winding_edge n rp Hrp Hidem).
Qed.
End AuxPF.

Lemma isolated_false n x : isolated n x = false <-> In x (reached_with (rep n) n).
Proof. unfold isolated, isolated_in, reached. now rewrite negb_false_iff, mem_In. Qed.

(* non-vacuity on the witness net of C07_partial_nonvacuous:
   rows 0-6 buses, 7 the trafo3w star point, 8 the auxiliary bus at the open switch of line 1 (names bus row 2), 9 the one
   at the open mv switch of the trafo3w (names the star point), 10 the one at the out-of-service end of line 2 *)
Example aux_rows_nonvacuous :
  all_nodes (rep w_ok) w_ok = [L (NB 0); L (NB 1); L (NB 2); L (NB 3); L (NB 4); L (NB 5); L (NB 6); L (NT3 0);
                               D (Some (NB 2)) 0 1 0 0; D (Some (NT3 0)) 2 0 1 2; D (Some (NB 2)) 3 2 1 0] /\
  map (isolated w_ok) (all_nodes (rep w_ok) w_ok) = [false; false; true; true; true; false; true; false; true; false; true] /\
  isolated_rows w_ok = [2; 3; 4; 6; 8; 10].
Proof. vm_compute. repeat split. Qed.
