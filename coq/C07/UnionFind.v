(* C07/UnionFind.v — the disjoint-set forest of build_bus.py:36-125 (ds_find / ds_union / ds_create):
   ds_find never runs out of fuel (the `while True` loop terminates: the parent array stays a forest whose
   depth is bounded by the number of unions), and two buses get the same root iff they are connected by
   fusing switches.  This is the `fuse_lookup` theorem of C05 and the basis of C07. *)
From Coq Require Import List Bool Arith Lia.
From PPV Require Import Base.C07Graph C07.Model.
Import ListNotations.
Local Open Scope nat_scope.

Inductive rootd (ar : forest) : nat -> nat -> nat -> Prop :=
| rd0 x : ar_get ar x = x -> rootd ar x x 0
| rdS x r d : ar_get ar x <> x -> rootd ar (ar_get ar x) r d -> rootd ar x r (S d).

Lemma rootd_fix ar x r d : rootd ar x r d -> ar_get ar r = r.
Proof. induction 1; auto. Qed.

Lemma rootd_fun ar x r d : rootd ar x r d -> forall r' d', rootd ar x r' d' -> r = r' /\ d = d'.
Proof.
  induction 1 as [x Hx|x r d Hx H IH]; intros r' d' H'; inversion H' as [y Hy|y r0 d0 Hy H0]; subst; auto; try congruence.
  destruct (IH _ _ H0). subst. auto.
Qed.

Lemma find_of_rootd ar x r d : rootd ar x r d -> forall fuel, d < fuel -> ds_find fuel ar x = Some r.
Proof.
  induction 1; intros fuel Hf; destruct fuel; try lia; simpl.
  - rewrite H. now rewrite Nat.eqb_refl.
  - destruct (Nat.eqb (ar_get ar x) x) eqn:E; [apply Nat.eqb_eq in E; congruence|].
    apply IHrootd. lia.
Qed.

(* hanging root a below root c: the nodes below a get root c one step further away, the others keep root and depth *)
Definition relink (a c r : nat) : nat := if Nat.eqb r a then c else r.
Lemma ar_get_other a c ar x : a <> x -> ar_get ((a, c) :: ar) x = ar_get ar x.
Proof. intros N. simpl. apply Nat.eqb_neq in N. now rewrite N. Qed.
Lemma rootd_link ar a c : a <> c -> ar_get ar a = a -> ar_get ar c = c ->
  forall x r d, rootd ar x r d -> exists d', rootd ((a, c) :: ar) x (relink a c r) d' /\ d' <= S d.
Proof.
  intros Hac Ha Hc x r d H. induction H as [x Hx|x r d Hx H [d' [IH Hd]]].
  - unfold relink. destruct (Nat.eqb_spec x a) as [->|N].
    + exists 1. split; [|lia]. apply rdS; simpl; rewrite Nat.eqb_refl; [auto|]. apply rd0. now rewrite ar_get_other.
    + exists 0. split; [|lia]. apply rd0. rewrite ar_get_other; auto.
  - exists (S d'). split; [|lia]. assert (a <> x) by congruence. apply rdS; rewrite ar_get_other; auto.
Qed.

Definition fuse_edges_of (n : net) (sw : list switch) : list (nat * nat) :=
  flat_map (fun s => if fuses n s then [(s_bus s, s_el s)] else []) sw.
Definition fuse_edges (n : net) : list (nat * nat) := fuse_edges_of n (switches n).

Record Inv (ar : forest) (k : nat) (E : list (nat * nat)) : Prop := {
  inv_root : forall x, exists r d, rootd ar x r d /\ d <= k;
  inv_sound : forall x r d, rootd ar x r d -> upath E x r;
  inv_compl : forall u v, In (u, v) E -> exists r du dv, rootd ar u r du /\ rootd ar v r dv }.

Lemma inv_init : Inv [] 0 [].
Proof.
  constructor.
  - intros x. exists x, 0. split; auto. now apply rd0.
  - intros x r d H. inversion H; subst; [apply upath_refl|]. simpl in H0. congruence.
  - intros ? ? [].
Qed.

Lemma sound_app ar E e :
  (forall x r d, rootd ar x r d -> upath E x r) -> forall x r d, rootd ar x r d -> upath (E ++ [e]) x r.
Proof. intros S x r d H. eapply upath_mono; [apply incl_appl, incl_refl|eapply S; eauto]. Qed.

Lemma inv_same_root ar k E b1 b2 r d1 d2 :
  Inv ar k E -> rootd ar b1 r d1 -> rootd ar b2 r d2 -> Inv ar k (E ++ [(b1, b2)]).
Proof.
  intros [I1 I2 I3] H1 H2. constructor; auto.
  - now apply sound_app.
  - intros u v H. apply in_app_or in H. destruct H as [H|[H|[]]]; auto.
    inversion H; subst. eauto.
Qed.

Lemma inv_link ar k E b1 b2 r1 r2 d1 d2 a c :
  Inv ar k E -> rootd ar b1 r1 d1 -> rootd ar b2 r2 d2 -> r1 <> r2 ->
  ((a = r1 /\ c = r2) \/ (a = r2 /\ c = r1)) -> Inv ((a, c) :: ar) (S k) (E ++ [(b1, b2)]).
Proof.
  intros [I1 I2 I3] H1 H2 Hne Hac.
  assert (Hr1 := rootd_fix _ _ _ _ H1). assert (Hr2 := rootd_fix _ _ _ _ H2).
  assert (Hne' : a <> c) by (destruct Hac as [[-> ->]|[-> ->]]; auto).
  assert (Ha : ar_get ar a = a) by (destruct Hac as [[-> ->]|[-> ->]]; auto).
  assert (Hc : ar_get ar c = c) by (destruct Hac as [[-> ->]|[-> ->]]; auto).
  pose proof (rootd_link ar a c Hne' Ha Hc) as LK.
  pose proof (sound_app ar E (b1, b2) I2) as I2'.
  assert (Eac : upath (E ++ [(b1, b2)]) a c).
  { assert (U : upath (E ++ [(b1, b2)]) r1 r2).
    { eapply upath_trans; [apply upath_sym; eapply I2'; eauto|].
      eapply upath_trans; [|eapply I2'; eauto]. apply upath_edge, in_or_app. right. now left. }
    destruct Hac as [[-> ->]|[-> ->]]; auto. now apply upath_sym. }
  (* both old roots are relinked to c *)
  assert (E12 : relink a c r1 = relink a c r2).
  { unfold relink. destruct Hac as [[-> ->]|[-> ->]]; rewrite Nat.eqb_refl;
      [destruct (Nat.eqb r2 r1)|destruct (Nat.eqb r1 r2)]; reflexivity. }
  constructor.
  - intros x. destruct (I1 x) as [r [d [H Hd]]]. destruct (LK _ _ _ H) as [d' [H' Hd']].
    exists (relink a c r), d'. split; auto. lia.
  - intros x r' d' H'. destruct (I1 x) as [r [d [H _]]]. destruct (LK _ _ _ H) as [d'' [H'' _]].
    destruct (rootd_fun _ _ _ _ H'' _ _ H') as [<- _].
    eapply upath_trans; [exact (I2' _ _ _ H)|]. unfold relink.
    destruct (Nat.eqb_spec r a) as [->|_]; [exact Eac|apply upath_refl].
  - intros u v H.
    assert (O : exists ru rv du dv, rootd ar u ru du /\ rootd ar v rv dv /\ relink a c ru = relink a c rv).
    { apply in_app_or in H. destruct H as [H|[H|[]]].
      - destruct (I3 _ _ H) as [r [du [dv [Hu Hv]]]]. exists r, r, du, dv. auto.
      - inversion H; subst u v. exists r1, r2, d1, d2. auto. }
    destruct O as [ru [rv [du [dv [Hu [Hv Er]]]]]].
    destruct (LK _ _ _ Hu) as [du' [Hu' _]]. destruct (LK _ _ _ Hv) as [dv' [Hv' _]]. rewrite Er in Hu'. eauto.
Qed.

(* ds_union on two nodes of a forest of depth k < fuel *)
Lemma ds_union_inv fuel pv act ar k E b1 b2 : k < fuel -> Inv ar k E ->
  exists ar' k', ds_union fuel pv act ar b1 b2 = Some ar' /\ k' <= S k /\ Inv ar' k' (E ++ [(b1, b2)]).
Proof.
  intros Hf I. destruct (inv_root _ _ _ I b1) as [r1 [d1 [H1 D1]]]. destruct (inv_root _ _ _ I b2) as [r2 [d2 [H2 D2]]].
  unfold ds_union. rewrite (find_of_rootd _ _ _ _ H1), (find_of_rootd _ _ _ _ H2) by lia.
  destruct (Nat.eqb_spec r1 r2) as [<-|Q].
  - exists ar, k. split; [reflexivity|split; [lia|eapply inv_same_root; eauto]].
  - destruct (act r2 && negb (pv r1)); eexists _, (S k); (split; [reflexivity|split; [lia|eapply inv_link; eauto]]).
Qed.

Lemma ds_create_inv fuel n pv act sw : forall ar k E,
  k + length sw < fuel -> Inv ar k E ->
  exists ar' k', ds_create fuel n pv act sw ar = Some ar' /\ k' <= k + length sw /\ Inv ar' k' (E ++ fuse_edges_of n sw).
Proof.
  induction sw as [|s t IH]; intros ar k E Hf I; simpl.
  - exists ar, k. rewrite app_nil_r. split; [auto|split; [lia|auto]].
  - simpl in Hf. unfold fuse_edges_of. simpl. fold (fuse_edges_of n t). destruct (fuses n s).
    + destruct (ds_union_inv fuel pv act ar k E (s_bus s) (s_el s)) as [ar1 [k1 [U [K1 I1]]]]; [lia|auto|]. rewrite U.
      destruct (IH ar1 k1 (E ++ [(s_bus s, s_el s)])) as [ar' [k' [C [K I']]]]; [lia|exact I1|].
      exists ar', k'. rewrite <- app_assoc in I'. split; [auto|split; [lia|auto]].
    + destruct (IH ar k E) as [ar' [k' [C [K I']]]]; [lia|auto|].
      exists ar', k'. split; [auto|split; [lia|auto]].
Qed.

(* ds_create terminates with a forest; ds_find never exhausts its fuel on it *)
Theorem forest_of_some n : exists ar, forest_of n = Some ar /\ exists k, k <= length (switches n) /\ Inv ar k (fuse_edges n).
Proof.
  unfold forest_of, uf_fuel.
  destruct (ds_create_inv (S (length (switches n))) n (is_pv n) (is_active n) (switches n) [] 0 []) as [ar [k [C [K I]]]].
  - simpl. lia.
  - apply inv_init.
  - exists ar. split; auto. exists k. split; auto.
Qed.

(* the lookup returns the root of its argument in that forest *)
Lemma rep_rootd n : exists ar k, Inv ar k (fuse_edges n) /\ forall a, exists d, rootd ar a (rep n a) d.
Proof.
  destruct (forest_of_some n) as [ar [F [k [K I]]]]. exists ar, k. split; auto. intros a.
  unfold rep. rewrite F. unfold rep_of, uf_fuel.
  destruct (inv_root _ _ _ I a) as [r [d [H D]]]. rewrite (find_of_rootd _ _ _ _ H) by lia. eauto.
Qed.

(* the bus lookup maps two buses to the same root iff they are connected by fusing switches *)
Theorem rep_iff_fused n a b : rep n a = rep n b <-> upath (fuse_edges n) a b.
Proof.
  destruct (rep_rootd n) as [ar [k [I R]]]. destruct (R a) as [da Ha]. destruct (R b) as [db Hb]. split.
  - intros E. rewrite <- E in Hb.
    eapply upath_trans; [eapply inv_sound; eauto|]. apply upath_sym. eapply inv_sound; eauto.
  - intros U.
    assert (P : exists d, rootd ar b (rep n a) d).
    { apply (upath_invariant nat (fuse_edges n) (fun x => exists d, rootd ar x (rep n a) d)) with (u := a); [|exact U|eauto].
      intros u v E. destruct (inv_compl _ _ _ I _ _ E) as [r [du [dv [Hu Hv]]]].
      split; intros [d H].
      - destruct (rootd_fun _ _ _ _ H _ _ Hu) as [-> _]. eauto.
      - destruct (rootd_fun _ _ _ _ H _ _ Hv) as [-> _]. eauto. }
    destruct P as [d H]. destruct (rootd_fun _ _ _ _ H _ _ Hb). auto.
Qed.

(* the root is a fixed point of the lookup (it is the bus whose ppc row the class uses) *)
Theorem rep_idem n a : rep n (rep n a) = rep n a.
Proof.
  destruct (rep_rootd n) as [ar [k [I R]]]. destruct (R a) as [da Ha]. destruct (R (rep n a)) as [d H].
  assert (R0 : rootd ar (rep n a) (rep n a) 0) by (apply rd0; eapply rootd_fix; eauto).
  now destruct (rootd_fun _ _ _ _ H _ _ R0).
Qed.
