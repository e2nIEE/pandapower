(* C07 — faithful model of the supply-connectivity logic of the power flow and of the topology module.
   Power flow side (mode "pf", check_connectivity=True, neglect_open_switch_branches=False):
     build_bus.py:36-125   ds_find / ds_union / ds_create / create_bus_lookup_numba  (bus fusing)
     build_bus.py:323-440  _build_bus_ppc (rows: buses, xward aux, trafo3w aux), set_reference_buses :563
     build_branch.py:138-.. branch rows (line, trafo, 3 per trafo3w, impedance, xward, z>0 bus-bus switch)
     build_branch.py:1068  _switch_branches   (aux bus per open branch switch, branch end re-routed)
     build_branch.py:1135  _branches_with_oos_buses (aux bus for an in-service line with exactly one oos end)
     auxiliary.py:831      _check_connectivity (undirected BFS from a virtual node tied to all REF rows,
                           over all status-1 branches; rows of type NONE are NOT excluded)
     auxiliary.py:961,1017 _select_is_elements_numba: a bus whose ppc row is isolated counts as out of service
     results_bus.py:25     _set_buses_out_of_service: NaN voltage for rows of type NONE
   Topology side:
     topology/create_graph.py:41-292 create_nxgraph with default options
     topology/graph_searches.py:111  unsupplied_buses (nx.connected_components without a slack)
   Executable definitions only. *)
From Coq Require Import String QArith.
From Coq Require Import List.
From PPV Require Import Base.Out Base.C07Graph.
Import ListNotations.
Local Open Scope nat_scope.

(* ------------------------------------------------------------------ the network (topology data only) *)
Record bus := { b_id : nat; b_is : bool }.
Record br2 := { r_id : nat; r_f : nat; r_t : nat; r_is : bool }.          (* line / trafo(hv,lv) / impedance / dcline *)
Record br3 := { t_id : nat; t_hv : nat; t_mv : nat; t_lv : nat; t_is : bool }.
Inductive swet := ETb | ETl | ETt | ETt3.
Record switch := { s_bus : nat; s_el : nat; s_et : swet; s_closed : bool; s_zpos : bool }.  (* s_zpos: z_ohm > 0 *)
(* bus elements: ext_grid (pv, slack), gen (pv, slack flag), load/sgen/motor/shunt/ward (neither) *)
Record inj := { i_bus : nat; i_is : bool; i_pv : bool; i_slack : bool }.
Record xward := { x_bus : nat; x_is : bool }.
Record net := { buses : list bus; lines : list br2; trafos : list br2; trafo3ws : list br3;
                imps : list br2; dclines : list br2; xwards : list xward;
                switches : list switch; injs : list inj }.

Definition swet_eqb (a b : swet) : bool :=
  match a, b with ETb, ETb | ETl, ETl | ETt, ETt | ETt3, ETt3 => true | _, _ => false end.

Definition enum {X} (l : list X) : list (nat * X) := combine (seq 0 (length l)) l.

(* bus_in_service array of _select_is_elements_numba :1001-1003 *)
Definition bus_is (n : net) (b : nat) : bool := existsb (fun r => Nat.eqb (b_id r) b && b_is r) (buses n).
Definition bus_known (n : net) (b : nat) : bool := existsb (fun r => Nat.eqb (b_id r) b) (buses n).
(* bus_oos of _branches_with_oos_buses :1166 = setdiff1d(bus.index, bus_is_idx) *)
Definition bus_oos (n : net) (b : nat) : bool := bus_known n b && negb (bus_is n b).
(* element in service: tis[i] and bis[ti[i]] (auxiliary.py:938) *)
Definition inj_is (n : net) (i : inj) : bool := i_is i && bus_is n (i_bus i).

(* ------------------------------------------------------------------ bus fusing: the disjoint-set forest *)
Definition forest := list (nat * nat).                 (* updates of ar = np.arange(max+1), newest first *)
Fixpoint ar_get (ar : forest) (x : nat) : nat :=
  match ar with [] => x | (k, v) :: t => if Nat.eqb k x then v else ar_get t x end.
(* ds_find :37 — `while True`; None = fuel exhausted (proved impossible in ds_create) *)
Fixpoint ds_find (fuel : nat) (ar : forest) (b : nat) : option nat :=
  match fuel with
  | O => None
  | S f => let p := ar_get ar b in if Nat.eqb p b then Some p else ds_find f ar p
  end.
(* ds_union :47 *)
Definition ds_union (fuel : nat) (pv act : nat -> bool) (ar : forest) (b1 b2 : nat) : option forest :=
  match ds_find fuel ar b1, ds_find fuel ar b2 with
  | Some r1, Some r2 =>
      if Nat.eqb r1 r2 then Some ar
      else if act r2 && negb (pv r1) then Some ((r1, r2) :: ar) else Some ((r2, r1) :: ar)
  | _, _ => None
  end.
(* the switches that fuse: closed, bus-bus, not z_ohm > 0, both buses in service (ds_create :63-69) *)
Definition fuses (n : net) (s : switch) : bool :=
  s_closed s && swet_eqb (s_et s) ETb && negb (s_zpos s) && bus_is n (s_bus s) && bus_is n (s_el s).
Fixpoint ds_create (fuel : nat) (n : net) (pv act : nat -> bool) (sw : list switch) (ar : forest) : option forest :=
  match sw with
  | [] => Some ar
  | s :: t => if fuses n s
              then match ds_union fuel pv act ar (s_bus s) (s_el s) with
                   | Some ar' => ds_create fuel n pv act t ar' | None => None end
              else ds_create fuel n pv act t ar
  end.
Definition is_pv (n : net) (b : nat) : bool := existsb (fun i => inj_is n i && i_pv i && Nat.eqb (i_bus i) b) (injs n).
Definition is_active (n : net) (b : nat) : bool :=
  existsb (fun i => inj_is n i && Nat.eqb (i_bus i) b) (injs n)
  || existsb (fun x => x_is x && bus_is n (x_bus x) && Nat.eqb (x_bus x) b) (xwards n).
Definition uf_fuel (n : net) : nat := S (length (switches n)).
Definition forest_of (n : net) : option forest :=
  ds_create (uf_fuel n) n (is_pv n) (is_active n) (switches n) [].
(* fill_bus_lookup :73: bus -> pp index of its root (the ppc row is the root's position in bus_index) *)
Definition rep_of (n : net) (ar : forest) (b : nat) : nat :=
  match ds_find (uf_fuel n) ar b with Some r => r | None => b end.
(* evaluated once per net by the strict `let`, then used as a function *)
Definition rep (n : net) : nat -> nat :=
  let ar := forest_of n in fun b => match ar with Some ar => rep_of n ar b | None => b end.

(* ------------------------------------------------------------------ ppc rows (nodes) *)
Inductive lnode := NB (b : nat) | NXW (i : nat) | NT3 (i : nat).
(* D o kind j side p: auxiliary row at an open branch switch (kind 0 line, 1 trafo, 2 trafo3w; p = position of
   the switch in net.switch) or at the oos end of a line (kind 3, p = 0); j = position of the branch element in
   its table, side = 0 from/hv, 1 to/lv (trafo3w: 0 hv, 1 mv, 2 lv).  o names the row at the other end of the
   (only) branch incident to this row when that is an ordinary row — redundant information, a function of
   (kind, j, side), kept in the name. *)
Inductive node := L (l : lnode) | D (o : option lnode) (kind j side p : nat).

Definition lnode_eq_dec (x y : lnode) : {x = y} + {x <> y}.
Proof. decide equality; apply Nat.eq_dec. Defined.
Definition node_eq_dec (x y : node) : {x = y} + {x <> y}.
Proof. decide equality; try apply Nat.eq_dec; try apply lnode_eq_dec. decide equality. apply lnode_eq_dec. Defined.

(* the last open switch of type et at element el on the given side; `side_of s` tells the side *)
Definition last_open (n : net) (et : swet) (el : nat) (side_ok : switch -> bool) : option nat :=
  fold_left (fun acc ps => let '(p, s) := ps in
               if negb (s_closed s) && swet_eqb (s_et s) et && Nat.eqb (s_el s) el && side_ok s then Some p else acc)
            (enum (switches n)) None.

(* line: _gather_branch_switch_info :1043: side = "to" if to_bus == bus else "from" *)
Definition line_sw (n : net) (l : br2) (side : nat) : option nat :=
  last_open n ETl (r_id l) (fun s => if Nat.eqb side 1 then Nat.eqb (r_t l) (s_bus s) else negb (Nat.eqb (r_t l) (s_bus s))).
(* _branches_with_oos_buses :1170-1180: in-service lines with exactly one end at an oos bus *)
Definition line_oos (n : net) (l : br2) (side : nat) : bool :=
  r_is l && (if Nat.eqb side 0 then bus_oos n (r_f l) && negb (bus_oos n (r_t l))
             else bus_oos n (r_t l) && negb (bus_oos n (r_f l))).
Definition line_dead (n : net) (l : br2) (side : nat) : option (nat * nat) :=   (* (kind, p) *)
  if line_oos n l side then Some (3, 0)
  else match line_sw n l side with Some p => Some (0, p) | None => None end.
(* both ends of a two-terminal branch, given the ordinary rows and the re-routing info (kind, p) of each end *)
Definition mk_pair2 (j : nat) (fl tl : lnode) (fd td : option (nat * nat)) : node * node :=
  let fo := match td with None => Some tl | Some _ => None end in
  let to := match fd with None => Some fl | Some _ => None end in
  (match fd with None => L fl | Some (k, p) => D fo k j 0 p end,
   match td with None => L tl | Some (k, p) => D to k j 1 p end).
Definition line_ends (rp : nat -> nat) (n : net) (j : nat) (l : br2) : node * node :=
  mk_pair2 j (NB (rp (r_f l))) (NB (rp (r_t l))) (line_dead n l 0) (line_dead n l 1).

(* trafo: side = "hv" if hv_bus == bus else "lv" *)
Definition trafo_sw (n : net) (t : br2) (side : nat) : option nat :=
  last_open n ETt (r_id t) (fun s => if Nat.eqb side 0 then Nat.eqb (r_f t) (s_bus s) else negb (Nat.eqb (r_f t) (s_bus s))).
Definition trafo_ends (rp : nat -> nat) (n : net) (j : nat) (t : br2) : node * node :=
  mk_pair2 j (NB (rp (r_f t))) (NB (rp (r_t t)))
           (option_map (fun p => (1, p)) (trafo_sw n t 0)) (option_map (fun p => (1, p)) (trafo_sw n t 1)).

(* trafo3w: hv if hv_bus == bus, elif mv_bus == bus: mv, elif lv_bus == bus: lv (else the impl raises) *)
Definition t3_side (t : br3) (b : nat) : option nat :=
  if Nat.eqb (t_hv t) b then Some 0 else if Nat.eqb (t_mv t) b then Some 1 else if Nat.eqb (t_lv t) b then Some 2 else None.
Definition t3_sw (n : net) (t : br3) (side : nat) : option nat :=
  last_open n ETt3 (t_id t) (fun s => match t3_side t (s_bus s) with Some k => Nat.eqb k side | None => false end).
Definition t3_bus (t : br3) (side : nat) : nat :=
  match side with 0 => t_hv t | 1 => t_mv t | _ => t_lv t end.
(* winding branch `side` of the j-th trafo3w: between the bus row (or its switch aux row) and the star row *)
Definition t3_ends (rp : nat -> nat) (n : net) (j : nat) (t : br3) (side : nat) : node * node :=
  let busend := match t3_sw n t side with
                | None => L (NB (rp (t3_bus t side)))
                | Some p => D (Some (NT3 j)) 2 j side p end in
  if Nat.eqb side 0 then (busend, L (NT3 j)) else (L (NT3 j), busend).

(* z_ohm > 0 closed bus-bus switch between in-service buses: an ordinary branch (_calc_switch_parameter) *)
Definition zswitch (n : net) (s : switch) : bool :=
  s_closed s && swet_eqb (s_et s) ETb && s_zpos s && bus_is n (s_bus s) && bus_is n (s_el s).

(* all branches with BR_STATUS = 1, as (from row, to row) *)
Definition ppc_edges_old (rp : nat -> nat) (n : net) : list (node * node) :=
  flat_map (fun jl => if r_is (snd jl) then [line_ends rp n (fst jl) (snd jl)] else []) (enum (lines n))
  ++ flat_map (fun jt => if r_is (snd jt) then [trafo_ends rp n (fst jt) (snd jt)] else []) (enum (trafos n))
  ++ flat_map (fun jt => if t_is (snd jt) then [t3_ends rp n (fst jt) (snd jt) 0; t3_ends rp n (fst jt) (snd jt) 1;
                                                 t3_ends rp n (fst jt) (snd jt) 2] else []) (enum (trafo3ws n))
  ++ flat_map (fun i => if r_is i then [(L (NB (rp (r_f i))), L (NB (rp (r_t i))))] else []) (imps n)
  ++ flat_map (fun jx => if x_is (snd jx) && bus_is n (x_bus (snd jx))
                         then [(L (NB (rp (x_bus (snd jx)))), L (NXW (fst jx)))] else []) (enum (xwards n))
  ++ flat_map (fun s => if zswitch n s then [(L (NB (rp (s_bus s))), L (NB (rp (s_el s))))] else []) (switches n).

(* rows of type NONE when _check_connectivity runs: the rows of out-of-service buses (auxiliary rows of out-of-service
   xwards / trafo3ws are NONE too, but no status-1 branch ends there; switch / oos auxiliary rows are PQ) *)
Definition none_row (n : net) (x : node) : bool := match x with L (NB r) => bus_oos n r | _ => false end.
(* auxiliary.py _check_connectivity after "fix: the connectivity check does not walk through out-of-service buses":
   br_status &= ~(bus_oos[F_BUS] | bus_oos[T_BUS]).  ppc_edges_old is the search graph before that repair. *)
Definition ppc_edges (rp : nat -> nat) (n : net) : list (node * node) :=
  filter (fun e => negb (none_row n (fst e)) && negb (none_row n (snd e))) (ppc_edges_old rp n).

(* REF rows: set_reference_buses build_bus.py:563 *)
Definition ref_nodes (rp : nat -> nat) (n : net) : list node :=
  flat_map (fun i => if inj_is n i && i_slack i then [L (NB (rp (i_bus i)))] else []) (injs n).

(* _check_connectivity: rows reached from the virtual slack node *)
Definition reached_with (rp : nat -> nat) (n : net) : list node :=
  reach node_eq_dec (sym (ppc_edges rp n)) (ref_nodes rp n).
Definition reached (n : net) : list node := reached_with (rep n) n.
Definition isolated_in (R : list node) (x : node) : bool := negb (mem node_eq_dec x R).
Definition isolated (n : net) (x : node) : bool := isolated_in (reached n) x.

(* res_bus.vm_pu is NaN: the row of the bus has type NONE (out of service, or isolated) *)
Definition nan_with (rp : nat -> nat) (R : list node) (n : net) (b : nat) : bool :=
  negb (bus_is n b) || isolated_in R (L (NB (rp b))).
Definition nan_bus (n : net) (b : nat) : bool := let rp := rep n in nan_with rp (reached_with rp n) n b.
(* the behaviour before the repair, kept so that its return is recognised (C07_pf_isolated_iff_supplied_old_refuted) *)
Definition nan_bus_old (n : net) (b : nat) : bool :=
  let rp := rep n in nan_with rp (reach node_eq_dec (sym (ppc_edges_old rp n)) (ref_nodes rp n)) n b.

(* ---- all ppc rows in row order, so that row number = position (used for net._isolated_buses) *)
Definition sw_nodes (rp : nat -> nat) (n : net) (et : swet) : list node :=
  flat_map (fun ps => let '(p, s) := ps in
    if negb (s_closed s) && swet_eqb (s_et s) et then
      match et with
      | ETl => flat_map (fun jl => let '(j, l) := jl in
                 if Nat.eqb (r_id l) (s_el s) then
                   let side := if Nat.eqb (r_t l) (s_bus s) then 1 else 0 in
                   let other := 1 - side in
                   let o := match line_dead n l other with
                            | None => Some (NB (rp (if Nat.eqb other 0 then r_f l else r_t l))) | Some _ => None end in
                   [D o 0 j side p] else []) (enum (lines n))
      | ETt => flat_map (fun jt => let '(j, t) := jt in
                 if Nat.eqb (r_id t) (s_el s) then
                   let side := if Nat.eqb (r_f t) (s_bus s) then 0 else 1 in
                   let other := 1 - side in
                   let o := match trafo_sw n t other with
                            | None => Some (NB (rp (if Nat.eqb other 0 then r_f t else r_t t))) | Some _ => None end in
                   [D o 1 j side p] else []) (enum (trafos n))
      | ETt3 => flat_map (fun jt => let '(j, t) := jt in
                 if Nat.eqb (t_id t) (s_el s) then
                   match t3_side t (s_bus s) with Some side => [D (Some (NT3 j)) 2 j side p] | None => [] end
                 else []) (enum (trafo3ws n))
      | ETb => []
      end
    else []) (enum (switches n)).
Definition oos_nodes (rp : nat -> nat) (n : net) : list node :=
  flat_map (fun jl => let '(j, l) := jl in
     if line_oos n l 0 then [fst (line_ends rp n j l)] else if line_oos n l 1 then [snd (line_ends rp n j l)] else [])
     (enum (lines n)).
Definition all_nodes (rp : nat -> nat) (n : net) : list node :=
  map (fun r => L (NB (b_id r))) (buses n)
  ++ map (fun jx => L (NXW (fst jx))) (enum (xwards n))
  ++ map (fun jt => L (NT3 (fst jt))) (enum (trafo3ws n))
  ++ sw_nodes rp n ETl ++ sw_nodes rp n ETt ++ sw_nodes rp n ETt3 ++ oos_nodes rp n.
(* net._isolated_buses: positions of the rows that are not reached *)
Definition isolated_rows_with (rp : nat -> nat) (R : list node) (n : net) : list nat :=
  flat_map (fun ix => if isolated_in R (snd ix) then [fst ix] else []) (enum (all_nodes rp n)).
Definition isolated_rows (n : net) : list nat := let rp := rep n in isolated_rows_with rp (reached_with rp n) n.

(* the impl raises when an open trafo3w switch sits at a bus that is no terminal of the trafo3w, or when an open
   branch switch names a branch that does not exist (KeyError in .at[]) *)
Definition pf_ok (n : net) : bool :=
  forallb (fun s => s_closed s ||
     match s_et s with
     | ETb => true
     | ETl => existsb (fun l => Nat.eqb (r_id l) (s_el s)) (lines n)
     | ETt => existsb (fun t => Nat.eqb (r_id t) (s_el s)) (trafos n)
     | ETt3 => existsb (fun t => Nat.eqb (t_id t) (s_el s) && match t3_side t (s_bus s) with Some _ => true | None => false end) (trafo3ws n)
              && forallb (fun t => negb (Nat.eqb (t_id t) (s_el s)) || match t3_side t (s_bus s) with Some _ => true | None => false end) (trafo3ws n)
     end) (switches n).

(* ------------------------------------------------------------------ topology module *)
Definition open_sw (n : net) (et : swet) (el : nat) : bool :=
  existsb (fun s => negb (s_closed s) && swet_eqb (s_et s) et && Nat.eqb (s_el s) el) (switches n).
(* open trafo3w switch identified by (index, bus) — create_graph.py:223-239 *)
Definition open_t3 (n : net) (el b : nat) : bool :=
  existsb (fun s => negb (s_closed s) && swet_eqb (s_et s) ETt3 && Nat.eqb (s_el s) el && Nat.eqb (s_bus s) b) (switches n).

(* edges of create_nxgraph(net) with default options, before nodes are removed *)
Definition nx_edges_raw (n : net) : list (nat * nat) :=
  flat_map (fun l => if r_is l && negb (open_sw n ETl (r_id l)) then [(r_f l, r_t l)] else []) (lines n)
  ++ flat_map (fun i => if r_is i then [(r_f i, r_t i)] else []) (imps n)
  ++ flat_map (fun d => if r_is d then [(r_f d, r_t d)] else []) (dclines n)
  ++ flat_map (fun t => if r_is t && negb (open_sw n ETt (r_id t)) then [(r_f t, r_t t)] else []) (trafos n)
  ++ flat_map (fun t =>
       flat_map (fun ft => let '(f, t') := ft in
          if t_is t && negb (open_t3 n (t_id t) (t3_bus t f)) && negb (open_t3 n (t_id t) (t3_bus t t'))
          then [(t3_bus t f, t3_bus t t')] else []) [(0, 1); (0, 2); (1, 2)]) (trafo3ws n)
  ++ flat_map (fun s => if swet_eqb (s_et s) ETb && s_closed s then [(s_bus s, s_el s)] else []) (switches n).
(* mg.remove_node(b) for every out-of-service bus: its edges disappear *)
Definition nx_edges (n : net) : list (nat * nat) :=
  filter (fun e => negb (bus_oos n (fst e)) && negb (bus_oos n (snd e))) (nx_edges_raw n).
Definition nx_nodes (n : net) : list nat :=
  filter (fun b => negb (bus_oos n b))
         (dedup Nat.eq_dec (map b_id (buses n) ++ nodes_of (nx_edges_raw n))).
(* unsupplied_buses: slacks = in-service ext_grid buses and in-service slack gens (the bus state is not looked at) *)
Definition topo_slacks (n : net) : list nat :=
  flat_map (fun i => if i_is i && i_slack i then [i_bus i] else []) (injs n).
Definition topo_unsupplied (n : net) : list nat :=
  flat_map (fun c => if existsb (fun s => mem Nat.eq_dec s c) (topo_slacks n) then [] else c)
           (components Nat.eq_dec (nx_edges n) (nx_nodes n)).

(* ------------------------------------------------------------------ guard of the partial theorem *)
(* G07: no in-service dcline (create_nxgraph makes it an edge, the power flow does not treat it as a path to a slack);
   in-service branches and closed bus-bus switches end at buses of the bus table *)
Definition G07 (n : net) : bool :=
  forallb (fun d => negb (r_is d)) (dclines n)
  && forallb (fun t => negb (r_is t) || (bus_known n (r_f t) && bus_known n (r_t t))) (trafos n)
  && forallb (fun t => negb (r_is t) || (bus_known n (r_f t) && bus_known n (r_t t))) (imps n)
  && forallb (fun t => negb (t_is t) || (bus_known n (t_hv t) && bus_known n (t_mv t) && bus_known n (t_lv t))) (trafo3ws n)
  && forallb (fun l => negb (r_is l) || (bus_known n (r_f l) && bus_known n (r_t l))) (lines n)
  && forallb (fun s => negb (swet_eqb (s_et s) ETb && s_closed s) || (bus_known n (s_bus s) && bus_known n (s_el s))) (switches n).

(* ------------------------------------------------------------------ reported power of ext_grids *)
(* results_gen.py _get_gen_results / _get_ext_grid_results after "fix: res_ext_grid is written also when no ext_grid is
   in service": p = zeros; p[eg_is_mask] = PG.  e = (in_service flag, in _is_elements, PG of its gen row) *)
Definition res_ext_grid_p (egs : list (bool * bool * Q)%type) : list (option Q) :=
  map (fun e : (bool * bool * Q)%type => if snd (fst e) then Some (snd e) else Some 0%Q) egs.
(* before the repair: the NaN-initialised table was only filled when some ext_grid row had in_service = True *)
Definition res_ext_grid_p_old (egs : list (bool * bool * Q)%type) : list (option Q) :=
  if existsb (fun e : (bool * bool * Q)%type => fst (fst e)) egs
  then map (fun e : (bool * bool * Q)%type => if snd (fst e) then Some (snd e) else Some 0%Q) egs
  else map (fun _ => None) egs.
Definition run_c07_eg (egs : list (bool * bool * Q)%type) : out := olist ooq (res_ext_grid_p egs).

(* ------------------------------------------------------------------ Run wrappers *)
Definition onode (x : node) : out :=
  match x with
  | L (NB b) => OL [onat 0; onat b]
  | L (NXW i) => OL [onat 1; onat i]
  | L (NT3 i) => OL [onat 2; onat i]
  | D _ k j s p => OL [onat 3; onat k; onat j; onat s; onat p]
  end.
(* [isolated ppc rows; per bus (id, root bus id, NaN); unsupplied buses of the topology module; G07] *)
Definition run_c07 (n : net) : out :=
  if negb (pf_ok n) then OErr "raise"%string
  else match forest_of n with
       | None => OErr "ds_find-diverges"%string
       | Some _ =>
         let rp := rep n in
         let R := reached_with rp n in
         OL [ olist onat (isolated_rows_with rp R n);
              olist (fun r => OL [onat (b_id r); onat (rp (b_id r)); OB (nan_with rp R n (b_id r))]) (buses n);
              olist onat (topo_unsupplied n);
              OB (G07 n);
              onat (length (all_nodes rp n)) ]
       end.

(* ---- the row numbers of the two ends of every branch of the line / trafo / trafo3w / xward tables (F_BUS, T_BUS of the
   ppc branch rows after _switch_branches and _branches_with_oos_buses): row number = position in all_nodes *)
Fixpoint pos_node (x : node) (l : list node) (k : nat) : option nat :=
  match l with [] => None | y :: t => if node_eq_dec x y then Some k else pos_node x t (S k) end.
Definition run_c07_rows (n : net) : out :=
  let rp := rep n in
  let A := all_nodes rp n in
  let pr := fun ab : node * node => OL [oopt onat (pos_node (fst ab) A 0); oopt onat (pos_node (snd ab) A 0)] in
  OL [ olist (fun jl : nat * br2 => pr (line_ends rp n (fst jl) (snd jl))) (enum (lines n));
       olist (fun jt : nat * br2 => pr (trafo_ends rp n (fst jt) (snd jt))) (enum (trafos n));
       olist (fun jt : nat * br3 => OL [pr (t3_ends rp n (fst jt) (snd jt) 0); pr (t3_ends rp n (fst jt) (snd jt) 1);
                                        pr (t3_ends rp n (fst jt) (snd jt) 2)]) (enum (trafo3ws n));
       olist (fun jx : nat * xward => pr (L (NB (rp (x_bus (snd jx)))), L (NXW (fst jx)))) (enum (xwards n)) ].
