From Coq Require Import List Bool String.
From PPV Require Import C12.Model.
Import ListNotations.
Open Scope string_scope.

Definition fle (f g : flags) : Prop :=
  (f_trafo f = true -> f_trafo g = true) /\ (f_gen f = true -> f_gen g = true) /\ (f_bus_pq f = true -> f_bus_pq g = true).

Definition rebuilt (f : flags) (p : part) : bool :=
  match p with PYbus => f_trafo f | PSbus => f_bus_pq f || f_gen f | _ => rebuilt_base f p end.
(* every stale part is one the flags rebuild *)
Definition covered (f : flags) (fr : fstate) : Prop := forall p, fr p || rebuilt f p = true.
Definition fresh (fr : fstate) : Prop := forall p, fr p = true.

Lemma solve_is_fresh_iff fr : solve_is_fresh fr = true <-> fresh fr.
Proof.
  unfold solve_is_fresh, fresh. rewrite forallb_forall. split.
  - intros H p. apply H. destruct p; cbn; tauto.
  - intros H p _. apply H.
Qed.

Lemma covered_recycled f fr : covered f fr -> fresh (recycled_pf f fr).
Proof.
  intros H.
  assert (B : forall p, match p with PYbus | PSbus => True | _ => fr p || rebuilt_base f p = true end).
  { intros p. specialize (H p). destruct p; cbn in *; auto. }
  intros p. unfold recycled_pf.
  pose proof (H PYbus) as HY. pose proof (H PSbus) as HS. cbn in HY, HS.
  destruct p; [exact (B PBusPQ) | exact (B PGen) | exact (B PBrTrafo) | exact (B PBrLine) | exact (B PBrOther) | exact (B PShunt) | exact (B PTopo) | | ].
  - destruct (f_trafo f).
    + apply forallb_forall. intros q Hq. cbn in Hq.
      destruct Hq as [<-|[<-|[<-|[<-|[<-|[]]]]]]; [exact (B PBrTrafo) | exact (B PBrLine) | exact (B PBrOther) | exact (B PShunt) | exact (B PTopo)].
    + rewrite orb_false_r in HY. exact HY.
  - destruct (f_bus_pq f || f_gen f).
    + apply forallb_forall. intros q Hq. cbn in Hq.
      destruct Hq as [<-|[<-|[<-|[]]]]; [exact (B PBusPQ) | exact (B PGen) | exact (B PTopo)].
    + rewrite orb_false_r in HS. exact HS.
Qed.

Lemma recycled_covered f fr : fresh (recycled_pf f fr) -> covered f fr.
Proof.
  intros H p. pose proof (H p) as Hp. unfold recycled_pf in Hp.
  destruct p; cbn in *; try exact Hp.
  - destruct (f_trafo f); [apply orb_true_r | rewrite orb_false_r; exact Hp].
  - destruct (f_bus_pq f || f_gen f); [apply orb_true_r | rewrite orb_false_r; exact Hp].
Qed.

Lemma covered_mono f g fr : fle f g -> covered f fr -> covered g fr.
Proof.
  intros (A & B & C) H p. specialize (H p). apply orb_true_iff in H. apply orb_true_iff.
  destruct H as [H|H]; [left; exact H | right].
  destruct p; cbn in *; auto; try discriminate.
  apply orb_true_iff in H. apply orb_true_iff. destruct H; [left; apply C | right; apply B]; assumption.
Qed.

Lemma write_m_split m fr p : write_m m fr p = fr p && write_m m all_fresh p.
Proof. unfold write_m, all_fresh. cbn. destruct (fr p); reflexivity. Qed.

Lemma covered_write f ev fr : covered f fr -> covered f (write ev all_fresh) -> covered f (write ev fr).
Proof.
  intros A B p. specialize (A p). specialize (B p). unfold write in *. rewrite write_m_split.
  destruct (fr p); cbn in *; [exact B | exact A].
Qed.

Lemma fle_refl f : fle f f. Proof. repeat split; auto. Qed.
Lemma fle_trans f g h : fle f g -> fle g h -> fle f h.
Proof. intros (A & B & C) (A' & B' & C'). repeat split; auto. Qed.
Lemma fle_or_l a f : fle a {| f_trafo := f_trafo a || f_trafo f; f_gen := f_gen a || f_gen f; f_bus_pq := f_bus_pq a || f_bus_pq f |}.
Proof. repeat split; cbn; intros H; rewrite H; reflexivity. Qed.
Lemma fle_or_r a f : fle f {| f_trafo := f_trafo a || f_trafo f; f_gen := f_gen a || f_gen f; f_bus_pq := f_bus_pq a || f_bus_pq f |}.
Proof. repeat split; cbn; intros H; rewrite H; apply orb_true_r. Qed.

Lemma combine_ge cs : forall acc f, combine cs acc = Some f ->
  fle acc f /\ forall c, In c cs -> exists fc, ctrl_flags c = Some fc /\ fle fc f.
Proof.
  induction cs as [|c cs IH]; intros acc f H; cbn in H.
  - inversion H. subst. split; [apply fle_refl | intros c []].
  - destruct (ctrl_flags c) as [fc|] eqn:E; [|discriminate].
    destruct (IH _ _ H) as [A B]. split.
    + eapply fle_trans; [apply fle_or_l | exact A].
    + intros c' [<-|Hin]; [|apply B; exact Hin].
      exists fc. split; [exact E|]. eapply fle_trans; [apply fle_or_r | exact A].
Qed.

Lemma sound_covered c fc : sound c = true -> ctrl_flags c = Some fc -> covered fc (write (ctrl_writes c) all_fresh).
Proof.
  unfold sound. intros H E. rewrite E in H. apply solve_is_fresh_iff in H. apply recycled_covered. exact H.
Qed.

Lemma writes_covered f cs : forall fr,
  covered f fr -> (forall c, In c cs -> covered f (write (ctrl_writes c) all_fresh)) ->
  covered f (fold_left (fun fr c => write (ctrl_writes c) fr) cs fr).
Proof.
  induction cs as [|c cs IH]; intros fr A B; cbn; [exact A|].
  apply IH.
  - apply covered_write; [exact A | apply B; left; reflexivity].
  - intros c' Hc. apply B. right. exact Hc.
Qed.

(* one time step of a set of individually sound controllers, started from fresh parts, solves with fresh parts *)
Lemma time_step_fresh cs stored fr :
  Forall (fun c => sound c = true) cs -> fresh fr -> fresh (time_step cs stored fr).
Proof.
  intros Hs Hf. unfold time_step, pf.
  destruct (recyclability cs) as [f|] eqn:E; [|intros p; reflexivity].
  destruct stored; [|intros p; reflexivity].
  apply covered_recycled. unfold recyclability in E. destruct (combine_ge _ _ _ E) as [_ B].
  apply writes_covered.
  - intros p. rewrite Hf. reflexivity.
  - intros c Hc. destruct (B c Hc) as (fc & E1 & E2).
    eapply covered_mono; [exact E2|]. apply sound_covered; [|exact E1].
    rewrite Forall_forall in Hs. apply Hs. exact Hc.
Qed.

(* histories: every time step of a time series solves with fresh parts *)
Lemma step_equals_fresh n : forall cs stored fr,
  Forall (fun c => sound c = true) cs -> fresh fr ->
  Forall (fun fr' => solve_is_fresh fr' = true) (run_steps n cs stored fr).
Proof.
  induction n as [|n IH]; intros cs stored fr Hs Hf; cbn; [constructor|].
  pose proof (time_step_fresh cs stored fr Hs Hf) as H1.
  constructor; [apply solve_is_fresh_iff; exact H1 | apply IH; assumption].
Qed.

(* histories with diverging steps: every step is either a reported failure of a step that really diverges, or it
   solves with fresh parts; a step that does not diverge is never reported as failed *)
Definition step_ok (d : bool) (r : sres) : Prop :=
  match r with SFailed => d = true | SSolved fr => d = false /\ solve_is_fresh fr = true | SSilent => False end.
(* without batch reading and under G12c, run_steps_div_old behaves as run_steps_div *)
Lemma run_steps_div_old_G12c divs : forall cs stored fr, G12c cs = true ->
  run_steps_div_old divs cs false stored false fr = run_steps_div divs cs stored fr.
Proof.
  induction divs as [|d ds IH]; intros cs stored fr HG; cbn; [reflexivity|].
  destruct d; rewrite <- IH by exact HG; [|reflexivity].
  unfold G12c in HG. apply negb_true_iff in HG. rewrite HG. reflexivity.
Qed.

Lemma mems_In s l : mems s l = true <-> In s l.
Proof.
  unfold mems. rewrite existsb_exists. split.
  - intros (x & Hx & E). apply String.eqb_eq in E. subst. exact Hx.
  - intros H. exists s. split; [exact H | apply String.eqb_refl].
Qed.

Definition pair_in_domain (e v : string) : bool := mems e domain_elements && mems v domain_columns.
Lemma pair_in_domain_In e v : pair_in_domain e v = true -> In (e, v) domain.
Proof.
  unfold pair_in_domain. rewrite andb_true_iff, !mems_In. intros [He Hv].
  unfold domain. apply in_flat_map. exists e. split; [exact He|]. apply in_map. exact Hv.
Qed.

(* whether a ConstControl is sound depends on (e, v) only through its recycle entry and the parts computed from net[e][v] *)
Definition covers (f : option flags) (d : list part) : bool :=
  match f with
  | None => true
  | Some f => solve_is_fresh (recycled_pf f (write_m (fun p => memp p d) all_fresh))
  end.
Lemma sound_const e v : sound (CConst false e v) = covers (set_recycle_const false e v) (deps e v).
Proof. reflexivity. Qed.
Lemma sound_old_const e v : sound_old (CConst false e v) = covers (set_recycle_const_old false e v) (deps e v).
Proof. reflexivity. Qed.
(* nothing cached is computed from the column: nothing to rebuild *)
Lemma covers_nil f : covers f [] = true.
Proof.
  destruct f as [f|]; [|reflexivity]. apply solve_is_fresh_iff, covered_recycled.
  intros p. destruct p; reflexivity.
Qed.

(* a pair with a non-empty entry is named by a row of the table, so a fact about all such pairs is a fact about the
   120 (element, column) pairs the rows name *)
Definition row_pairs_all (P : string -> string -> bool) : bool :=
  forallb (fun r => forallb (fun e => forallb (P e) (snd (fst r))) (fst (fst r))) deps_rows.
Lemma row_pairs_all_spec P e v : row_pairs_all P = true -> deps e v <> [] -> P e v = true.
Proof.
  intros T. unfold deps. destruct (find (row_matches e v) deps_rows) as [r|] eqn:F; [intros _ | intros H; now elim H].
  apply find_some in F. destruct F as [Hr Hm]. apply andb_true_iff in Hm. rewrite !mems_In in Hm. destruct Hm as [He Hv].
  unfold row_pairs_all in T. rewrite forallb_forall in T. specialize (T r Hr).
  rewrite forallb_forall in T. specialize (T e He).
  rewrite forallb_forall in T. exact (T v Hv).
Qed.

(* the one evaluation over the table: the pair lies in the domain, set_recycle_const covers its parts, and
   set_recycle_const_old (every column of line / trafo / trafo3w claims the flag "trafo") covers them exactly on G12a *)
Definition pair_ok (e v : string) : bool :=
  let d := deps e v in
  pair_in_domain e v && covers (set_recycle_const false e v) d
  && Bool.eqb (covers (set_recycle_const_old false e v) d) (G12a e v).
Lemma table_check : row_pairs_all pair_ok = true.
Proof. vm_compute. reflexivity. Qed.
Lemma deps_pair_ok e v : deps e v <> [] ->
  In (e, v) domain /\ sound (CConst false e v) = true /\ (sound_old (CConst false e v) = true <-> G12a e v = true).
Proof.
  intros H. pose proof (row_pairs_all_spec _ e v table_check H) as T.
  unfold pair_ok in T. cbv zeta in T. rewrite !andb_true_iff in T. destruct T as [[D S] O].
  rewrite sound_const, sound_old_const, (eqb_prop _ _ O). split; [apply pair_in_domain_In; exact D | tauto].
Qed.

(* a ConstControl on ANY (element, variable) is sound: outside the table nothing cached depends on the column *)
Lemma const_sound_any u e v : sound (CConst u e v) = true.
Proof.
  destruct u; [reflexivity|]. destruct (deps e v) as [|p d] eqn:E.
  - rewrite sound_const, E. apply covers_nil.
  - apply deps_pair_ok. rewrite E. discriminate.
Qed.
(* the pairs G12a excludes are all named by a row of the table *)
Lemma G12a_false_deps e v : G12a e v = false -> deps e v <> [].
Proof.
  unfold G12a. intros G.
  (* one of the three exclusions of G12a fails: e is that element and v one of its listed columns *)
  repeat (apply andb_false_iff in G; destruct G as [G|G]).
  all: apply negb_false_iff, andb_true_iff in G; destruct G as [E M].
  all: apply String.eqb_eq in E; apply mems_In in M; subst e.
  (* for each listed column, deps e v evaluates to the non-empty entry of its row *)
  all: repeat (destruct M as [<-|M]; [discriminate|]); destruct M.
Qed.
(* set_recycle_const_old is sound exactly on G12a *)
Lemma const_sound_old_iff_any e v : sound_old (CConst false e v) = true <-> G12a e v = true.
Proof.
  destruct (deps e v) as [|p d] eqn:E.
  - rewrite sound_old_const, E, covers_nil. split; [intros _ | reflexivity].
    destruct (G12a e v) eqn:G; [reflexivity|]. now apply G12a_false_deps in G.
  - apply deps_pair_ok. rewrite E. discriminate.
Qed.

(* with recycle=False given by the user, and for tap controllers and other classes, every pair is sound *)
Lemma user_off_sound e v : sound (CConst true e v) = true.
Proof. reflexivity. Qed.
Lemma other_sound e v : sound (COther e v) = true.
Proof. reflexivity. Qed.
Lemma tap_sound u e : sound (CTap u e) = true.
Proof.
  destruct u; [reflexivity|]. unfold sound, ctrl_flags, set_recycle_trafo.
  destruct (mems e ["trafo"; "trafo3w"]) eqn:E; [|reflexivity].
  apply mems_In in E. destruct E as [<-|[<-|[]]]; reflexivity.
Qed.
Lemma ctrl_sound c : sound c = true.
Proof. destruct c; [apply const_sound_any | apply tap_sound | reflexivity]. Qed.

Definition in_domain (c : ctrl) : Prop :=
  match c with CConst _ e v => In (e, v) domain | _ => True end.

Definition in_tables (b : list (string * string)) : Prop := forall tv, In tv b -> In (fst tv) batch_tables.

Lemma eligible_old_tables dc ft l : forall b, eligible_old dc ft l = Some b -> in_tables b.
Proof.
  destruct dc; [destruct l; discriminate|].
  induction l as [|o l IH]; intros b H; cbn [eligible_old] in H.
  - inversion H. intros tv [].
  - destruct (negb (mems (l_table o) batch_tables) || ft || l_long o) eqn:E; [discriminate|].
    destruct (eligible_old false ft l) as [r|] eqn:E2; [|discriminate]. inversion H. subst.
    apply orb_false_iff in E. destruct E as [E _]. apply orb_false_iff in E. destruct E as [E _].
    apply negb_false_iff in E. apply mems_In in E.
    intros tv [<-|Hin]; [exact E | apply (IH r eq_refl); exact Hin].
Qed.

Definition disjointb (l c : list string) : bool := forallb (fun t => negb (mems t c)) l.
Definition is3w (t : string) : bool := t =? "res_trafo3w".

(* the local [next] of batch_old *)
Definition batch_next (t : string) (c : list string) : option (list string) :=
  if (t =? "res_line") && negb (mems t c) then Some (t :: c)
  else if (t =? "res_trafo") && negb (mems t c) then Some (t :: c)
  else if t =? "res_trafo3w" then Some (t :: c)
  else if (t =? "res_bus") && negb (mems t c) then Some (t :: c)
  else None.
Lemma batch_next_simpl t c : In t batch_tables ->
  batch_next t c = if is3w t then Some (t :: c) else if mems t c then None else Some (t :: c).
Proof.
  intros H. cbn in H. unfold batch_next, is3w.
  destruct H as [<-|[<-|[<-|[<-|[]]]]];
    [destruct (mems "res_bus" c) eqn:E | destruct (mems "res_line" c) eqn:E
     | destruct (mems "res_trafo" c) eqn:E | destruct (mems "res_trafo3w" c) eqn:E]; rewrite ?E; reflexivity.
Qed.

Lemma disj_cons l t c : disjointb l (t :: c) = negb (mems t l) && disjointb l c.
Proof.
  induction l as [|x l IH]; [reflexivity|].
  change (disjointb (x :: l) (t :: c)) with (negb (mems x (t :: c)) && disjointb l (t :: c)).
  change (disjointb (x :: l) c) with (negb (mems x c) && disjointb l c).
  change (mems t (x :: l)) with ((t =? x) || mems t l).
  change (mems x (t :: c)) with ((x =? t) || mems x c).
  rewrite IH, (String.eqb_sym x t).
  destruct (t =? x), (mems x c), (mems t l), (disjointb l c); reflexivity.
Qed.
Lemma once_no3w b : mems "res_trafo3w" (once_tables b) = false.
Proof.
  destruct (mems "res_trafo3w" (once_tables b)) eqn:E; [|reflexivity].
  apply mems_In in E. unfold once_tables in E. apply filter_In in E. destruct E as [_ E]. discriminate.
Qed.

Lemma batch_unfold t v b c :
  batch_old ((t, v) :: b) c = match batch_next t c with
                          | None => Some ValueError
                          | Some c' => if mems v (keys t) then batch_old b c' else Some KeyError
                          end.
Proof. reflexivity. Qed.

(* batch_old succeeds exactly when every variable is a key of its table's dict and no table other than
   res_trafo3w is requested twice (also relative to the tables already computed) *)
Lemma batch_iff b : forall c, in_tables b ->
  (batch_old b c = None <-> keys_ok b = true /\ nodupb (once_tables b) = true /\ disjointb (once_tables b) c = true).
Proof.
  induction b as [|[t v] b IH]; intros c Ht.
  - cbn. tauto.
  - assert (Ht' : in_tables b) by (intros tv Hin; apply Ht; right; exact Hin).
    assert (Htt : In t batch_tables) by (apply (Ht (t, v)); left; reflexivity).
    rewrite batch_unfold, (batch_next_simpl _ _ Htt).
    unfold keys_ok. cbn [forallb fst snd]. fold (keys_ok b).
    unfold once_tables. cbn [map filter fst]. fold (once_tables b). fold (is3w t).
    destruct (is3w t) eqn:E3; cbn [negb].
    + (* res_trafo3w: recomputed on every request *)
      unfold is3w in E3. apply String.eqb_eq in E3. subst t.
      destruct (mems v (keys "res_trafo3w")); cbn [andb].
      * rewrite (IH _ Ht'), disj_cons, once_no3w. cbn [negb andb]. tauto.
      * split; [discriminate | intros (A & _); discriminate].
    + cbn [nodupb disjointb forallb]. fold (disjointb (once_tables b) c).
      destruct (mems t c) eqn:Ec; cbn [negb andb].
      * split; [discriminate | intros (_ & _ & D); discriminate].
      * destruct (mems v (keys t)); cbn [andb].
        -- rewrite (IH _ Ht'), disj_cons. rewrite !andb_true_iff. tauto.
        -- split; [discriminate | intros (A & _); discriminate].
Qed.

Lemma disjointb_nil l : disjointb l [] = true.
Proof. unfold disjointb. apply forallb_forall. intros; reflexivity. Qed.

(* whatever [eligible] admits to batch reading, [batch] reads without an error *)
Lemma eligible_batch_ok dc ft l : forall b, eligible dc ft l = Some b -> batch b = None.
Proof.
  destruct dc; [destruct l; discriminate|].
  induction l as [|o l IH]; intros b H; cbn [eligible] in H.
  - inversion H. reflexivity.
  - destruct (negb (mems (l_table o) batch_tables) || negb (mems (l_var o) (keys (l_table o))) || ft || l_long o) eqn:E; [discriminate|].
    destruct (eligible false ft l) as [r|] eqn:E2; [|discriminate]. inversion H. subst.
    apply orb_false_iff in E. destruct E as [E _]. apply orb_false_iff in E. destruct E as [E _].
    apply orb_false_iff in E. destruct E as [E1 E3].
    apply negb_false_iff in E1. apply negb_false_iff in E3.
    cbn [batch]. rewrite E1, E3. apply IH. reflexivity.
Qed.
