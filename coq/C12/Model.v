(* C12 — faithful model of the recycling / batch-reading shortcuts of run_timeseries
     pandapower/control/controller/const_control.py   ConstControl.set_recycle (:76-96)
     pandapower/control/controller/trafo_control.py   TrafoController.set_recycle (:176-186)
     pandapower/timeseries/run_time_series.py         _check_controller_recyclability (:146-166),
                                                      _check_output_writer_recyclability (:169-203)
     pandapower/run.py (:216-218) + pandapower/powerflow.py _recycled_powerflow (:73-133)
     pandapower/pf/run_newton_raphson_pf.py           _get_Y_bus (:105-114), _get_Sbus (:139-145)
     pandapower/timeseries/output_writer.py           get_batch_outputs (:556-589)
   The ppc is split into parts; [deps] is the finite table "which part is computed from net[element][variable]"
   (build_bus.py / build_branch.py / build_gen.py; re-derived from the code and compared on every run).  Executable definitions only. *)
From Coq Require Import List Bool String ZArith.
From PPV Require Import Base.Out.
Import ListNotations.
Open Scope string_scope.

Inductive part := PBusPQ | PGen | PBrTrafo | PBrLine | PBrOther | PShunt | PTopo | PYbus | PSbus.
Definition part_eqb (a b : part) : bool :=
  match a, b with
  | PBusPQ, PBusPQ | PGen, PGen | PBrTrafo, PBrTrafo | PBrLine, PBrLine | PBrOther, PBrOther
  | PShunt, PShunt | PTopo, PTopo | PYbus, PYbus | PSbus, PSbus => true
  | _, _ => false
  end.
Definition all_parts : list part := [PBusPQ; PGen; PBrTrafo; PBrLine; PBrOther; PShunt; PTopo; PYbus; PSbus].
Definition memp (p : part) (l : list part) : bool := existsb (part_eqb p) l.
Definition mems (s : string) (l : list string) : bool := existsb (String.eqb s) l.

(* ---------------------------------------------------------------- the dependency table *)
(* base parts of the ppc computed from net[e][v]; [] = not read for the power flow (results / OPF / short circuit only).
   One row = (element tables, columns, parts).  The table is compared on EVERY run of the check with a table derived
   mechanically from the real code (harness/vf/c12_deps.py: perturb the cell, rebuild the ppc with a fresh _pd2ppc, diff the
   ppc columns the Newton-Raphson power flow reads; pandas access trace as a superset witness) over the whole [domain].
   "part P is computed from (e, v)" is meant as observed there: changing net[e][v] changes the ppc rows / columns of P.  For the
   topology-like columns (in_service, bus references, net.bus, net.switch) the parts next to PTopo are the knock-on effects
   (BR_STATUS of the element's own rows, per-bus sums moving to another bus, base voltage of the connected branches). *)
Definition deps_rows : list (list string * list string * list part) :=
  [ (["load"], ["p_mw"; "q_mvar"; "scaling"; "const_z_p_percent"; "const_i_p_percent"; "const_z_q_percent"; "const_i_q_percent";
               "in_service"; "bus"], [PBusPQ]);                                     (* build_bus.py _calc_pq_elements_and_add_on_ppc *)
    (["sgen"; "storage"], ["p_mw"; "q_mvar"; "scaling"; "in_service"; "bus"], [PBusPQ]);
    (["gen"], ["p_mw"; "vm_pu"; "scaling"; "min_q_mvar"; "max_q_mvar"], [PGen]);      (* build_gen.py _build_pp_gen *)
    (["gen"], ["in_service"; "bus"], [PGen; PTopo]);
    (["gen"], ["slack"], [PTopo]);                                                  (* bus type REF instead of PV *)
    (["ext_grid"], ["vm_pu"; "va_degree"], [PGen]);                                  (* build_gen.py _build_pp_ext_grid *)
    (["ext_grid"], ["in_service"; "bus"], [PGen; PTopo]);
    (["trafo"], ["tap_pos"; "vk_percent"; "vkr_percent"; "pfe_kw"; "i0_percent"; "sn_mva"; "parallel"; "tap_step_percent"; "shift_degree";
                "vn_hv_kv"; "vn_lv_kv"; "tap_side"; "tap_neutral"; "tap_step_degree"; "tap_changer_type"; "id_characteristic_table";
                "tap_dependency_table"], [PBrTrafo]);                               (* build_branch.py _calc_trafo_parameter; df: results only *)
    (["trafo"], ["in_service"; "hv_bus"; "lv_bus"], [PBrTrafo; PTopo]);
    (["trafo3w"], ["tap_pos"; "vk_hv_percent"; "vk_mv_percent"; "vk_lv_percent"; "vkr_hv_percent"; "vkr_mv_percent"; "vkr_lv_percent";
                  "sn_hv_mva"; "sn_mv_mva"; "sn_lv_mva"; "vn_hv_kv"; "vn_mv_kv"; "vn_lv_kv"; "pfe_kw"; "i0_percent"; "shift_mv_degree";
                  "shift_lv_degree"; "tap_side"; "tap_neutral"; "tap_step_percent"; "tap_step_degree"; "tap_at_star_point"; "tap_changer_type";
                  "id_characteristic_table"; "tap_dependency_table"], [PBrTrafo]);   (* _calc_trafo3w_parameter, _trafo_df_from_trafo3w *)
    (["trafo3w"], ["in_service"; "hv_bus"; "mv_bus"; "lv_bus"], [PBrTrafo; PTopo]);
    (["line"], ["length_km"; "r_ohm_per_km"; "x_ohm_per_km"; "c_nf_per_km"; "g_us_per_km"; "parallel"], [PBrLine]);
                                                                                    (* _calc_line_parameter; max_i_ka, df: results only *)
    (["line"], ["in_service"; "from_bus"], [PBrLine; PTopo]);                        (* from_bus: base impedance of the row *)
    (["line"], ["to_bus"], [PTopo]);
    (["shunt"], ["q_mvar"; "p_mw"; "step"; "in_service"; "vn_kv"; "bus"], [PShunt]);  (* build_bus.py _calc_shunts_and_add_on_ppc *)
    (["ward"], ["ps_mw"; "qs_mvar"], [PBusPQ]);
    (["ward"], ["pz_mw"; "qz_mvar"], [PShunt]);
    (["ward"], ["in_service"; "bus"], [PBusPQ; PShunt]);
    (["impedance"], ["rft_pu"; "xft_pu"; "rtf_pu"; "xtf_pu"; "gf_pu"; "bf_pu"; "gt_pu"; "bt_pu"; "sn_mva"], [PBrOther]);
                                                                                    (* _calc_impedance_parameter *)
    (["impedance"], ["in_service"], [PBrOther; PTopo]);
    (["impedance"], ["from_bus"; "to_bus"], [PTopo]);
    (["bus"], ["vn_kv"], [PBrTrafo; PBrLine; PBrOther; PShunt]);                     (* BASE_KV: per-unit values of the connected rows *)
    (["bus"], ["in_service"], [PBusPQ; PGen; PBrOther; PShunt; PTopo]);
    (["switch"], ["bus"; "et"; "closed"; "z_ohm"], [PBusPQ; PGen; PBrOther; PTopo]);   (* bus fusing, auxiliary buses, switch branch rows *)
    (["switch"], ["element"], [PBusPQ; PBrOther; PTopo]) ].
Definition row_matches (e v : string) (r : list string * list string * list part) : bool :=
  mems e (fst (fst r)) && mems v (snd (fst r)).
Definition deps (e v : string) : list part :=
  match find (row_matches e v) deps_rows with Some r => snd r | None => [] end.

(* derived parts and what they are assembled from (makeYbus: branch rows, bus shunts, topology; makeSbus: bus PD/QD, gen) *)
Definition sources (p : part) : list part :=
  match p with
  | PYbus => [PBrTrafo; PBrLine; PBrOther; PShunt; PTopo]
  | PSbus => [PBusPQ; PGen; PTopo]
  | _ => []
  end.

(* the domain of the exhaustive theorems: 13 element tables x 81 columns = 1053 pairs: every (element, variable) named in
   [deps_rows] (proved: Properties.C12.C12_deps_in_domain), every column the access trace sees read inside a ppc build function, plus
   result-only and unknown ones *)
Definition domain_elements : list string :=
  ["load"; "sgen"; "storage"; "gen"; "ext_grid"; "trafo"; "trafo3w"; "line"; "shunt"; "ward"; "impedance"; "bus"; "switch"].
Definition domain_columns : list string :=
    ["p_mw"; "q_mvar"; "scaling"; "const_z_p_percent"; "const_i_p_percent"; "const_z_q_percent"; "const_i_q_percent"; "in_service"; "sn_mva";
     "vm_pu"; "va_degree"; "min_q_mvar"; "max_q_mvar"; "tap_pos"; "vk_percent"; "vkr_percent"; "pfe_kw"; "i0_percent"; "parallel";
     "tap_step_percent"; "shift_degree"; "df"; "vk_hv_percent"; "vk_mv_percent"; "vk_lv_percent"; "vkr_hv_percent";
     "length_km"; "r_ohm_per_km"; "x_ohm_per_km"; "c_nf_per_km"; "g_us_per_km"; "max_i_ka"; "step"; "ps_mw"; "qs_mvar"; "pz_mw"; "qz_mvar";
     "rft_pu"; "xft_pu"; "rtf_pu"; "xtf_pu"; "name"; "max_loading_percent";
     "bus"; "hv_bus"; "mv_bus"; "lv_bus"; "from_bus"; "to_bus"; "vn_kv"; "vn_hv_kv"; "vn_mv_kv"; "vn_lv_kv"; "tap_side"; "tap_neutral";
     "tap_min"; "tap_max"; "tap_step_degree"; "tap_changer_type"; "id_characteristic_table"; "tap_dependency_table"; "tap_at_star_point";
     "sn_hv_mva"; "sn_mv_mva"; "sn_lv_mva"; "vkr_mv_percent"; "vkr_lv_percent"; "shift_mv_degree"; "shift_lv_degree";
     "gf_pu"; "bf_pu"; "gt_pu"; "bt_pu"; "slack"; "slack_weight"; "max_step"; "step_dependency_table"; "element"; "et"; "closed"; "z_ohm"].
Definition domain : list (string * string) :=
  flat_map (fun e => map (fun v => (e, v)) domain_columns) domain_elements.

(* ---------------------------------------------------------------- recycle flags *)
Record flags := { f_trafo : bool; f_gen : bool; f_bus_pq : bool }.
(* ConstControl.set_recycle (after "fix: ConstControl only claims the recycle flag trafo for transformer parameters");
   [user_off] = the controller was created with recycle=False; None = recycle False *)
Definition set_recycle_const (user_off : bool) (e v : string) : option flags :=
  if user_off || negb (mems e ["load"; "sgen"; "storage"; "gen"; "ext_grid"; "trafo"; "trafo3w"]) then None
  else
    let bus_pq := mems e ["sgen"; "load"; "storage"] && mems v ["p_mw"; "q_mvar"; "scaling"] in
    let gen := (e =? "gen") && mems v ["p_mw"; "vm_pu"; "scaling"] || (e =? "ext_grid") && mems v ["vm_pu"; "va_degree"] in
    let trafo := mems e ["trafo"; "trafo3w"] && negb (mems v ["in_service"; "hv_bus"; "mv_bus"; "lv_bus"]) in
    if trafo || gen || bus_pq then Some {| f_trafo := trafo; f_gen := gen; f_bus_pq := bus_pq |} else None.
(* the rule before the repair: every column of line / trafo / trafo3w claimed the flag "trafo" *)
Definition set_recycle_const_old (user_off : bool) (e v : string) : option flags :=
  if user_off || negb (mems e ["load"; "sgen"; "storage"; "gen"; "ext_grid"; "trafo"; "trafo3w"; "line"]) then None
  else
    let bus_pq := mems e ["sgen"; "load"; "storage"] && mems v ["p_mw"; "q_mvar"; "scaling"] in
    let gen := (e =? "gen") && mems v ["p_mw"; "vm_pu"; "scaling"] || (e =? "ext_grid") && mems v ["vm_pu"; "va_degree"] in
    let trafo := mems e ["trafo"; "trafo3w"; "line"] in
    if trafo || gen || bus_pq then Some {| f_trafo := trafo; f_gen := gen; f_bus_pq := bus_pq |} else None.
(* TrafoController.set_recycle *)
Definition set_recycle_trafo (user_off : bool) (e : string) : option flags :=
  if user_off || negb (mems e ["trafo"; "trafo3w"]) then None
  else Some {| f_trafo := true; f_gen := false; f_bus_pq := false |}.

Inductive ctrl :=
| CConst (user_off : bool) (e v : string)     (* ConstControl on net[e][v] *)
| CTap (user_off : bool) (e : string)         (* a TrafoController subclass writing net[e].tap_pos *)
| COther (e v : string).                      (* any other controller class: recycle False (basic_controller.py:174) *)
Definition ctrl_flags (c : ctrl) : option flags :=
  match c with CConst u e v => set_recycle_const u e v | CTap u e => set_recycle_trafo u e | COther _ _ => None end.
Definition ctrl_flags_old (c : ctrl) : option flags :=
  match c with CConst u e v => set_recycle_const_old u e v | CTap u e => set_recycle_trafo u e | COther _ _ => None end.
Definition ctrl_writes (c : ctrl) : string * string :=
  match c with CConst _ e v => (e, v) | CTap _ e => (e, "tap_pos") | COther e v => (e, v) end.

(* _check_controller_recyclability: OR of the flags, False as soon as one controller is not recyclable *)
Fixpoint combine (cs : list ctrl) (acc : flags) : option flags :=
  match cs with
  | [] => Some acc
  | c :: cs' =>
      match ctrl_flags c with
      | None => None
      | Some f => combine cs' {| f_trafo := f_trafo acc || f_trafo f; f_gen := f_gen acc || f_gen f;
                                  f_bus_pq := f_bus_pq acc || f_bus_pq f |}
      end
  end.
Definition no_flags : flags := {| f_trafo := false; f_gen := false; f_bus_pq := false |}.
Definition recyclability (cs : list ctrl) : option flags := combine cs no_flags.

(* ---------------------------------------------------------------- one recycled power flow *)
(* freshness state: fr p = the cached part p equals what a fresh pd2ppc would compute from the tables now *)
Definition fstate := part -> bool.
Definition all_fresh : fstate := fun _ => true.
(* a controller wrote net[e][v] (time_step / control_step) *)
Definition write_m (m : part -> bool) (fr : fstate) : fstate :=
  fun p => fr p && negb (m p) && negb (existsb m (sources p)).
Definition write (ev : string * string) (fr : fstate) : fstate :=
  write_m (fun p => memp p (deps (fst ev) (snd ev))) fr.
(* _recycled_powerflow + _get_Y_bus + _get_Sbus: which parts are rebuilt from the tables under the flags *)
Definition rebuilt_base (f : flags) (p : part) : bool :=
  match p with
  | PBusPQ => f_bus_pq f          (* _calc_pq_elements_and_add_on_ppc *)
  | PBrTrafo => f_trafo f         (* _calc_trafo_parameter, _calc_trafo3w_parameter -- lines are NOT rebuilt *)
  | PGen => f_gen f               (* _build_gen_ppc *)
  | _ => false
  end.
Definition recycled_pf (f : flags) (fr : fstate) : fstate :=
  let base := fun p => fr p || rebuilt_base f p in
  fun p =>
    match p with
    | PYbus => if f_trafo f then forallb base (sources PYbus) else fr PYbus
    | PSbus => if f_bus_pq f || f_gen f then forallb base (sources PSbus) else fr PSbus
    | _ => base p
    end.
(* runpp as called from run_control inside run_timeseries: recycle dict and stored internals -> recycled, else full *)
Definition pf (rec : option flags) (stored : bool) (fr : fstate) : fstate :=
  match rec with
  | Some f => if stored then recycled_pf f fr else all_fresh
  | None => all_fresh
  end.
(* one time step: every controller writes its value, then the power flow; the result equals a fresh power flow of the
   tables iff every part is fresh when the solver starts *)
Definition time_step (cs : list ctrl) (stored : bool) (fr : fstate) : fstate :=
  pf (recyclability cs) stored (fold_left (fun fr c => write (ctrl_writes c) fr) cs fr).
Fixpoint run_steps (n : nat) (cs : list ctrl) (stored : bool) (fr : fstate) : list fstate :=
  match n with
  | O => []
  | S n' => let fr' := time_step cs stored fr in fr' :: run_steps n' cs true fr'
  end.
Definition solve_is_fresh (fr : fstate) : bool := forallb fr all_parts.

(* ---- histories with diverging time steps (continue_on_divergence=True): the behaviour BEFORE the two repairs named below.
   A step whose power flow raises is reported as failed (None).  Where the error surfaces decides what the next step sees:
   * inside the control loop (_evaluate_net, run_control.py:164-188) net._ppc is set to None, so the next step runs a full
     power flow;
   * in the initial run of run_control (net_initialization, :145-154: some controller has initial_run=True - every class but
     ConstControl) nothing is reset: with recycling active every later step is a recycled power flow that starts from the
     diverged internals and fails as well ("poisoned"). *)
Definition has_initial_run (cs : list ctrl) : bool :=
  existsb (fun c => match c with CConst _ _ _ => false | _ => true end) cs.
Definition poisons (cs : list ctrl) : bool :=
  has_initial_run cs && match recyclability cs with Some _ => true | None => false end.
(* ovr = only_v_results (batch reading active): _recycled_powerflow (powerflow.py:131-139) returns before _ppci_to_net, the
   only place that raises LoadflowNotConverged, so a recycled power flow that did not converge is not noticed: the step is
   recorded as if it had been solved ([SSilent]) and the internals stay in place *)
Inductive sres := SFailed | SSolved (fr : fstate) | SSilent.
Fixpoint run_steps_div_old (divs : list bool) (cs : list ctrl) (ovr stored poisoned : bool) (fr : fstate) : list sres :=
  match divs with
  | [] => []
  | d :: ds =>
      if poisoned then SFailed :: run_steps_div_old ds cs ovr stored true fr
      else if d then
        (if ovr && stored && (match recyclability cs with Some _ => true | None => false end)
         then SSilent :: run_steps_div_old ds cs ovr true false fr
         else SFailed :: run_steps_div_old ds cs ovr false (poisons cs) fr)
      else let fr' := time_step cs stored fr in SSolved fr' :: run_steps_div_old ds cs ovr true false fr'
  end.
(* after "fix: the recycled power flow reports non-convergence in the only_v_results mode, too" and "fix: a time step whose
   power flow diverged does not leave its internals for the next time step": every diverging step raises, is reported as
   failed, and net._ppc is dropped (run_time_step), so the next step runs a full power flow *)
Fixpoint run_steps_div (divs : list bool) (cs : list ctrl) (stored : bool) (fr : fstate) : list sres :=
  match divs with
  | [] => []
  | d :: ds =>
      if d then SFailed :: run_steps_div ds cs false fr
      else let fr' := time_step cs stored fr in SSolved fr' :: run_steps_div ds cs true fr'
  end.
(* G12c: a diverging step cannot poison the following ones *)
Definition G12c (cs : list ctrl) : bool := negb (poisons cs).

(* spec: a single controller is sound when what it writes is rebuilt (or recycling is off) *)
Definition sound (c : ctrl) : bool :=
  match ctrl_flags c with
  | None => true
  | Some f => solve_is_fresh (recycled_pf f (write (ctrl_writes c) all_fresh))
  end.
Definition sound_old (c : ctrl) : bool :=
  match ctrl_flags_old c with
  | None => true
  | Some f => solve_is_fresh (recycled_pf f (write (ctrl_writes c) all_fresh))
  end.
(* G12a: syntactic description of the (element, variable) pairs that were sound under the OLD rule: everything except the power-flow
   relevant columns of net.line (recycled under the flag "trafo", which rebuilds transformers only) and in_service / the bus
   columns of transformers (the branch rows are rebuilt but the topology / bus types are not) *)
Definition line_pf_vars : list string :=
  ["length_km"; "r_ohm_per_km"; "x_ohm_per_km"; "c_nf_per_km"; "g_us_per_km"; "parallel"; "in_service"; "from_bus"; "to_bus"].
Definition G12a (e v : string) : bool :=
  negb ((e =? "line") && mems v line_pf_vars) && negb ((e =? "trafo") && mems v ["in_service"; "hv_bus"; "lv_bus"])
  && negb ((e =? "trafo3w") && mems v ["in_service"; "hv_bus"; "mv_bus"; "lv_bus"]).

(* ---------------------------------------------------------------- OutputWriter: batch eligibility and batch readers *)
(* one entry of ow.log_variables: 2-tuples come from the constructor argument, entries added by log_variable() are longer *)
Record logv := { l_table : string; l_var : string; l_long : bool }.
Definition batch_tables : list string := ["res_bus"; "res_line"; "res_trafo"; "res_trafo3w"].
(* the dicts built in get_batch_outputs (output_writer.py:565-588) = batch_variables in run_time_series.py *)
Definition keys (t : string) : list string :=
  if t =? "res_line" then ["i_ka"; "i_from_ka"; "i_to_ka"; "loading_percent"]
  else if t =? "res_trafo" then ["i_ka"; "i_hv_ka"; "i_lv_ka"; "loading_percent"]
  else if t =? "res_trafo3w" then ["i_h"; "i_m"; "i_l"; "loading_percent"]
  else if t =? "res_bus" then ["vm_pu"; "va_degree"]
  else [].
(* _check_output_writer_recyclability (run_time_series.py:169-210, after "fix: batch reading of time series outputs is only
   chosen for variables the batch readers provide"); None = batch_read False (values are read from the result tables after
   every power flow); dc = the run function is rundcpp *)
Fixpoint eligible (dc f_trafo : bool) (l : list logv) : option (list (string * string)) :=
  if dc then None else
  match l with
  | [] => Some []
  | o :: l' =>
      if negb (mems (l_table o) batch_tables) || negb (mems (l_var o) (keys (l_table o))) || f_trafo || l_long o then None
      else match eligible dc f_trafo l' with
           | None => None
           | Some r => Some ((l_table o, l_var o) :: r)
           end
  end.
(* before the repair the test looked at the table only *)
Fixpoint eligible_old (dc f_trafo : bool) (l : list logv) : option (list (string * string)) :=
  if dc then None else
  match l with
  | [] => Some []
  | o :: l' =>
      if negb (mems (l_table o) batch_tables) || f_trafo || l_long o then None
      else match eligible_old dc f_trafo l' with
           | None => None
           | Some r => Some ((l_table o, l_var o) :: r)
           end
  end.
Inductive berr := KeyError | ValueError.
(* get_batch_outputs after "fix: OutputWriter.get_batch_outputs accepts several variables of the same result table":
   every table is evaluated once, the variable is looked up in its dict *)
Fixpoint batch (l : list (string * string)) : option berr :=
  match l with
  | [] => None
  | (t, v) :: l' =>
      if mems t batch_tables then (if mems v (keys t) then batch l' else Some KeyError) else Some ValueError
  end.
(* before the repair: a table already in [results] fell through to "raise ValueError('Something went wrong')" *)
Fixpoint batch_old (l : list (string * string)) (computed : list string) : option berr :=
  match l with
  | [] => None
  | (t, v) :: l' =>
      let next :=
        if (t =? "res_line") && negb (mems t computed) then Some (t :: computed)
        else if (t =? "res_trafo") && negb (mems t computed) then Some (t :: computed)
        else if t =? "res_trafo3w" then Some (t :: computed)
        else if (t =? "res_bus") && negb (mems t computed) then Some (t :: computed)
        else None in
      match next with
      | None => Some ValueError
      | Some c' => if mems v (keys t) then batch_old l' c' else Some KeyError
      end
  end.
(* what run_timeseries does with the writer at the last time step *)
Inductive wres := WPerStep | WBatchOk | WRaise (e : berr).
Definition writer (dc f_trafo : bool) (l : list logv) : wres :=
  match eligible dc f_trafo l with
  | None => WPerStep
  | Some [] => WPerStep                      (* empty batch_read list: nothing to read in batch *)
  | Some b => match batch b with None => WBatchOk | Some e => WRaise e end
  end.
Definition writer_old (dc f_trafo : bool) (l : list logv) : wres :=
  match eligible_old dc f_trafo l with
  | None => WPerStep
  | Some [] => WPerStep
  | Some b => match batch_old b [] with None => WBatchOk | Some e => WRaise e end
  end.
(* get_recycle_settings (:205-223): the writer is only looked at when the controllers are recyclable *)
Definition ts_writer (rec : option flags) (l : list logv) : wres :=
  match rec with None => WPerStep | Some f => writer false (f_trafo f) l end.
(* spec side: every requested variable is recorded instead of failing *)
Definition records_all (dc f_trafo : bool) (l : list logv) : Prop :=
  match writer dc f_trafo l with WRaise _ => False | _ => True end.
Definition records_all_old (dc f_trafo : bool) (l : list logv) : Prop :=
  match writer_old dc f_trafo l with WRaise _ => False | _ => True end.
(* G12b (old rule): the variable is one the batch dicts know, and no table other than res_trafo3w is requested twice *)
Definition keys_ok (b : list (string * string)) : bool := forallb (fun tv => mems (snd tv) (keys (fst tv))) b.
Definition once_tables (b : list (string * string)) : list string :=
  filter (fun t => negb (t =? "res_trafo3w")) (map fst b).
Fixpoint nodupb (l : list string) : bool :=
  match l with [] => true | x :: l' => negb (mems x l') && nodupb l' end.
Definition G12b (b : list (string * string)) : bool := keys_ok b && nodupb (once_tables b).

(* ---------------------------------------------------------------- output *)
Definition oflags (f : option flags) : out :=
  match f with None => ONone | Some f => OL [OB (f_trafo f); OB (f_gen f); OB (f_bus_pq f)] end.
Definition owres (w : wres) : out :=
  match w with WPerStep => OS "per_step" | WBatchOk => OS "batch"
             | WRaise KeyError => OErr "KeyError" | WRaise ValueError => OErr "ValueError" end.
(* recycle column of each controller, the combined flags, freshness of the solve in each of n steps, the writer verdict *)
Definition run_ts (cs : list ctrl) (n : nat) (l : list logv) : out :=
  let rec := recyclability cs in
  OL [ olist (fun c => oflags (ctrl_flags c)) cs;
       oflags rec;
       olist (fun fr => OB (solve_is_fresh fr)) (run_steps n cs false all_fresh);
       owres (ts_writer rec l) ].

(* with diverging steps: per step "failed" (ONone) or whether the solve was fresh *)
Definition run_ts_div (cs : list ctrl) (divs : list bool) (l : list logv) : out :=
  let rec := recyclability cs in
  OL [ olist (fun c => oflags (ctrl_flags c)) cs;
       oflags rec;
       olist (fun r => match r with SFailed => ONone | SSolved fr => OB (solve_is_fresh fr) | SSilent => OS "silent" end)
             (run_steps_div divs cs false all_fresh);
       owres (ts_writer rec l) ].

(* ---- the dependency table and the recycled power flow for the mechanical comparison (harness/vf/c12_deps.py) *)
Definition opart (p : part) : out :=
  OS (match p with PBusPQ => "PBusPQ" | PGen => "PGen" | PBrTrafo => "PBrTrafo" | PBrLine => "PBrLine" | PBrOther => "PBrOther"
             | PShunt => "PShunt" | PTopo => "PTopo" | PYbus => "PYbus" | PSbus => "PSbus" end).
(* the domain by its two axes (domain = their product by definition) and its size *)
Definition run_domain : out := OL [olist OS domain_elements; olist OS domain_columns; OZ (Z.of_nat (List.length domain))].
(* deps and the ConstControl recycle entry for a list of pairs *)
Definition run_deps (l : list (string * string)) : out :=
  olist (fun ev => OL [olist opart (deps (fst ev) (snd ev)); oflags (set_recycle_const false (fst ev) (snd ev))]) l.
(* which parts a recycled power flow under the flags rebuilds: start with only p stale, ask whether p is fresh afterwards *)
Definition rebuilt_part (f : flags) (p : part) : bool :=
  recycled_pf f (fun q => negb (part_eqb q p)) p.
Definition run_rebuilt (t g b : bool) : out :=
  let f := {| f_trafo := t; f_gen := g; f_bus_pq := b |} in
  olist opart (filter (rebuilt_part f) all_parts).
