(* C32 — the whole PCHIP curve: the Hermite piece lemmas and the slope lemmas (those for nonnegative secants are in Proofs.v),
   composed over the support list.
   For nondecreasing (nonincreasing) data and strictly increasing abscissae the slopes scipy computes lie in the
   Fritsch-Carlson box of BOTH neighbouring segments at every node, hence the characteristic is monotone on [x_0, x_n] and
   stays between the neighbouring support values on every segment.  The slope lemmas are proved for both signs; the
   Hermite piece is linear in the data, so one induction over the support list, stated for sg * y, covers the
   nondecreasing (sg = 1) and the nonincreasing (sg = -1) case. *)
From Coq Require Import QArith List Lia Lqa.
From PPV Require Import Base.QN C32.Model C32.Proofs.
Import ListNotations.
Open Scope Q_scope.

Lemma herm_t_form y0 d0 y1 d1 h t s : y1 - y0 == h * s ->
  herm_t y0 d0 y1 d1 h t == y0 + h * (d0 * (t - 2 * t * t + t * t * t) + d1 * (t * t * t - t * t) + s * (3 * t * t - 2 * t * t * t)).
Proof. intros Hs. assert (Y1 : y1 == y0 + h * s) by lra. unfold herm_t. rewrite Y1. ring. Qed.


(* d * A + K is linear in d: nonnegative at both ends of [0, M], hence in between *)
Lemma lin_box d M A K : 0 <= d -> d <= M -> 0 <= K -> 0 <= M * A + K -> 0 <= d * A + K.
Proof. intros H1 H2 HK HM. destruct (Qlt_le_dec A 0); nra. Qed.

Lemma herm_mono y0 d0 y1 d1 h a b s : 0 < h -> 0 <= a -> a <= b -> b <= 1 -> y1 - y0 == h * s ->
  0 <= d0 -> d0 <= 3 * s -> 0 <= d1 -> d1 <= 3 * s ->
  herm_t y0 d0 y1 d1 h a <= herm_t y0 d0 y1 d1 h b.
Proof.
  intros Hh A0 AB B1 Hs D0 D0' D1 D1'.
  assert (S0 : 0 <= s) by lra.
  rewrite (herm_t_form y0 d0 y1 d1 h a s Hs), (herm_t_form y0 d0 y1 d1 h b s Hs).
  (* the increment over [a, b] is h * (b - a) * (d0 * A + d1 * B + s * C): the last factor is linear in d0 and in d1, so it is
     enough to look at the four corners of the box [0, 3 s]^2 *)
  set (A := 1 - 2 * (a + b) + (a * a + a * b + b * b)).
  set (B := a * a + a * b + b * b - (a + b)).
  set (C := 3 * (a + b) - 2 * (a * a + a * b + b * b)).
  assert (E : (y0 + h * (d0 * (b - 2 * b * b + b * b * b) + d1 * (b * b * b - b * b) + s * (3 * b * b - 2 * b * b * b)))
            - (y0 + h * (d0 * (a - 2 * a * a + a * a * a) + d1 * (a * a * a - a * a) + s * (3 * a * a - 2 * a * a * a)))
            == h * (b - a) * (d0 * A + (d1 * B + s * C))) by (unfold A, B, C; ring).
  assert (K00 : 0 <= C) by (unfold C; nra).
  assert (K30 : 0 <= 3 * A + C) by (unfold A, C; nra).
  assert (K03 : 0 <= 3 * B + C) by (unfold B, C; nra).
  assert (K33 : 0 <= 3 * A + 3 * B + C).
  { pose proof (sq_nonneg (2 * a + b - (3 # 2))). pose proof (sq_nonneg (b - (1 # 2))). unfold A, B, C. lra. }
  assert (G0 : 0 <= d1 * B + s * C) by (apply (lin_box d1 (3 * s)); try assumption; nra).
  assert (G3 : 0 <= d1 * B + (3 * s * A + s * C)) by (apply (lin_box d1 (3 * s)); try assumption; nra).
  assert (G : 0 <= d0 * A + (d1 * B + s * C)) by (apply (lin_box d0 (3 * s)); try assumption; lra).
  assert (P : 0 <= h * (b - a) * (d0 * A + (d1 * B + s * C))).
  { apply Qmult_le_0_compat; [apply Qmult_le_0_compat; lra | exact G]. }
  lra.
Qed.

Theorem hermite_mono x0 y0 d0 x1 y1 d1 x x' s : x0 < x1 -> x0 <= x -> x <= x' -> x' <= x1 -> y1 - y0 == (x1 - x0) * s ->
  0 <= d0 -> d0 <= 3 * s -> 0 <= d1 -> d1 <= 3 * s ->
  hermite x0 y0 d0 x1 y1 d1 x <= hermite x0 y0 d0 x1 y1 d1 x'.
Proof.
  intros H H1 H2 H3 Hs A0 A1 B0 B1. rewrite !hermite_eq.
  apply (herm_mono y0 d0 y1 d1 (x1 - x0) _ _ s); try assumption; try lra.
  - apply Qle_shift_div_l; lra.
  - unfold Qdiv. apply Qmult_le_compat_r; [lra|]. apply Qlt_le_weak. apply Qinv_lt_0_compat. lra.
  - apply Qle_shift_div_r; lra.
Qed.

(* Fritsch-Carlson: the piece passes through its end points and is monotone, so it stays between its end values *)
Theorem hermite_range x0 y0 d0 x1 y1 d1 x s : x0 < x1 -> x0 <= x -> x <= x1 -> y1 - y0 == (x1 - x0) * s ->
  0 <= d0 -> d0 <= 3 * s -> 0 <= d1 -> d1 <= 3 * s ->
  y0 <= hermite x0 y0 d0 x1 y1 d1 x /\ hermite x0 y0 d0 x1 y1 d1 x <= y1.
Proof.
  intros H H1 H2 Hs A0 A1 B0 B1.
  pose proof (hermite_left x0 y0 d0 x1 y1 d1 x0 H (Qeq_refl x0)) as L.
  pose proof (hermite_right x0 y0 d0 x1 y1 d1 x1 H (Qeq_refl x1)) as R.
  pose proof (hermite_mono x0 y0 d0 x1 y1 d1 x0 x s H (Qle_refl x0) H1 H2 Hs A0 A1 B0 B1).
  pose proof (hermite_mono x0 y0 d0 x1 y1 d1 x x1 s H H1 H2 (Qle_refl x1) Hs A0 A1 B0 B1).
  lra.
Qed.

Lemma sgn_neg q : q < 0 -> sgn q = (-1)%Z.
Proof. unfold sgn, Qlt. simpl. intros H. apply Z.sgn_neg. lia. Qed.
Lemma sgn_nonpos_inv q : (sgn q = 0%Z \/ sgn q = (-1)%Z) -> q <= 0.
Proof.
  unfold sgn, Qle. simpl. intros [H|H].
  - apply Z.sgn_null_iff in H. lia.
  - apply Z.sgn_neg_iff in H. lia.
Qed.
Lemma sgn_of_nonpos q : q <= 0 -> sgn q = 0%Z \/ sgn q = (-1)%Z.
Proof.
  intros H. destruct (Qlt_le_dec q 0) as [L|L]; [right; apply sgn_neg; exact L | left; apply sgn_zero; lra].
Qed.

(* the interior slope rule commutes with negating the secants *)
Lemma Qinv_opp x : / - x == - / x.
Proof. destruct x as [[|p|p] d]; reflexivity. Qed.
Lemma sgn_opp q : sgn (- q) = (- sgn q)%Z.
Proof. destruct q. apply Z.sgn_opp. Qed.
Lemma slope_in_opp h1 d1 h2 d2 : slope_in h1 (- d1) h2 (- d2) == - slope_in h1 d1 h2 d2.
Proof.
  unfold slope_in. rewrite !sgn_opp.
  destruct (sgn d1) as [|a|a], (sgn d2) as [|b|b]; cbn [Z.opp Z.eqb orb negb]; try reflexivity;
    destruct (Pos.eqb a b); cbn [negb]; try reflexivity.
  all: qstrip; unfold Qdiv; rewrite !Qinv_opp.
  all: setoid_replace ((2 * h2 + h1) * - / d1 + (h2 + 2 * h1) * - / d2)
         with (- ((2 * h2 + h1) * / d1 + (h2 + 2 * h1) * / d2)) by ring.
  all: rewrite Qinv_opp; ring.
Qed.

Theorem slope_in_box_neg h1 d1 h2 d2 : 0 < h1 -> 0 < h2 -> d1 <= 0 -> d2 <= 0 ->
  slope_in h1 d1 h2 d2 <= 0 /\ 3 * d1 <= slope_in h1 d1 h2 d2 /\ 3 * d2 <= slope_in h1 d1 h2 d2.
Proof.
  intros H1 H2 D1 D2.
  destruct (slope_in_box h1 (- d1) h2 (- d2)) as (A & B & C); try lra.
  rewrite slope_in_opp in A, B, C. repeat split; lra.
Qed.

Theorem slope_edge_box_neg h0 h1 m0 m1 : 0 < h0 -> 0 < h1 -> m0 <= 0 -> m1 <= 0 ->
  slope_edge h0 h1 m0 m1 <= 0 /\ 3 * m0 <= slope_edge h0 h1 m0 m1.
Proof.
  intros H0 H1 M0 M1. unfold slope_edge.
  set (d := qdiv (qsub (qmul (qadd (qmul 2 h0) h1) m0) (qmul h0 m1)) (qadd h0 h1)).
  destruct (Z.eqb (sgn d) (sgn m0)) eqn:E; simpl; [|split; lra].
  destruct (negb (Z.eqb (sgn m0) (sgn m1)) && qltb (qmul 3 (qabs m0)) (qabs d))%bool.
  - qnorm. split; lra.
  - apply Z.eqb_eq in E.
    assert (Dn : d <= 0) by (apply sgn_nonpos_inv; rewrite E; apply sgn_of_nonpos; exact M0).
    split; [exact Dn|].
    unfold d. qnorm. apply Qle_shift_div_l; [lra|].
    assert (0 <= h0 * - m1) by (apply Qmult_le_0_compat; lra).
    assert (0 <= h0 * - m0) by (apply Qmult_le_0_compat; lra).
    assert (0 <= h1 * - m0) by (apply Qmult_le_0_compat; lra).
    nra.
Qed.

Section Boxed.
  Variable okd : Q -> Prop.                        (* sign condition on the secants *)
  Variable box : Q -> Q -> Prop.                   (* box delta s : slope s admissible next to a segment with secant delta *)
  Hypothesis H_in : forall h1 d1 h2 d2, 0 < h1 -> 0 < h2 -> okd d1 -> okd d2 ->
    box d1 (slope_in h1 d1 h2 d2) /\ box d2 (slope_in h1 d1 h2 d2).
  Hypothesis H_edge : forall h0 h1 m0 m1, 0 < h0 -> 0 < h1 -> okd m0 -> okd m1 -> box m0 (slope_edge h0 h1 m0 m1).
  Hypothesis H_self : forall d, okd d -> box d d.

  Fixpoint boxedD (d : list Q) (S : list Q) : Prop :=
    match d, S with
    | [], [_] => True
    | d0 :: dt, s0 :: ((s1 :: _) as St) => box d0 s0 /\ box d0 s1 /\ boxedD dt St
    | _, _ => False
    end.

  Lemma inner_box : forall h d s0 sl dflt, length h = length d -> d <> [] ->
    (forall x, In x h -> 0 < x) -> (forall x, In x d -> okd x) ->
    box (hd dflt d) s0 -> box (last d dflt) sl -> boxedD d (s0 :: inner h d ++ [sl]).
  Proof.
    induction h as [|h1 ht IH]; intros d s0 sl dflt HL Hne Hh Hd B0 Bl.
    - destruct d; [contradiction | discriminate].
    - destruct d as [|d1 dt]; [discriminate|].
      destruct ht as [|h2 ht']; destruct dt as [|d2 dt']; try discriminate.
      + simpl. simpl in B0, Bl. repeat split; assumption.
      + assert (X : box d1 (slope_in h1 d1 h2 d2) /\ box d2 (slope_in h1 d1 h2 d2)).
        { apply H_in; [apply Hh | apply Hh | apply Hd | apply Hd]; simpl; auto. }
        destruct X as [X1 X2].
        change (inner (h1 :: h2 :: ht') (d1 :: d2 :: dt')) with (slope_in h1 d1 h2 d2 :: inner (h2 :: ht') (d2 :: dt')).
        change (boxedD (d1 :: d2 :: dt') (s0 :: (slope_in h1 d1 h2 d2 :: inner (h2 :: ht') (d2 :: dt')) ++ [sl]))
          with (box d1 s0 /\ box d1 (slope_in h1 d1 h2 d2) /\
                boxedD (d2 :: dt') (slope_in h1 d1 h2 d2 :: inner (h2 :: ht') (d2 :: dt') ++ [sl])).
        split; [exact B0|]. split; [exact X1|].
        apply (IH (d2 :: dt') _ sl dflt).
        * simpl in HL. simpl. lia.
        * discriminate.
        * intros x Hx. apply Hh. right. exact Hx.
        * intros x Hx. apply Hd. right. exact Hx.
        * exact X2.
        * rewrite last_cons in Bl. rewrite (last_default dt' d2 d1 dflt) in Bl. exact Bl.
  Qed.

  Lemma last2_inv l a b : last2 l = Some (a, b) -> exists r, l = r ++ [b; a].
  Proof.
    unfold last2. destruct (rev l) as [|a' [|b' r']] eqn:E; try discriminate.
    intros H. inversion H; subst. exists (rev r').
    rewrite <- (rev_involutive l), E. simpl. rewrite <- app_assoc. reflexivity.
  Qed.
  Lemma last2_in l a b : last2 l = Some (a, b) -> In a l /\ In b l.
  Proof. intros H. destruct (last2_inv _ _ _ H) as (r & ->). split; apply in_or_app; right; simpl; auto. Qed.
  Lemma last2_some (a b : Q) l : exists x y, last2 (a :: b :: l) = Some (x, y).
  Proof.
    unfold last2. simpl. destruct (rev l) as [|c r]; simpl; [eauto|].
    destruct r as [|e r']; simpl; eauto.
  Qed.
  Lemma last_app2 (r : list Q) b a dflt : last (r ++ [b; a]) dflt = a.
  Proof. change [b; a] with ([b] ++ [a]). rewrite app_assoc. apply last_last. Qed.

  Lemma hs_len l : forall p, length (hs p l) = length l.
  Proof. induction l as [|q t IH]; intros p0; simpl; [reflexivity | rewrite IH; reflexivity]. Qed.
  Lemma deltas_len l : forall p, length (deltas p l) = length l.
  Proof. induction l as [|q t IH]; intros p0; simpl; [reflexivity | rewrite IH; reflexivity]. Qed.
  Lemma hs_pos l : forall p x, incr p l -> In x (hs p l) -> 0 < x.
  Proof.
    induction l as [|q t IH]; intros p x Hi Hx; [destruct Hx|].
    destruct Hi as [H1 H2]. destruct Hx as [<-|Hx]; [qnorm; lra | apply (IH q); assumption].
  Qed.

  Theorem slopes_boxed p t : t <> [] -> incr p t -> (forall x, In x (deltas p t) -> okd x) ->
    exists S, slopes (p :: t) = Some S /\ boxedD (deltas p t) S.
  Proof.
    intros Hne Hi Hd. destruct t as [|q t]; [contradiction|].
    assert (Hh : forall x, In x (hs p (q :: t)) -> 0 < x) by (intros x; apply hs_pos; exact Hi).
    assert (HL : length (hs p (q :: t)) = length (deltas p (q :: t))) by (rewrite hs_len, deltas_len; reflexivity).
    unfold slopes. destruct t as [|r t'].
    - simpl. eexists. split; [reflexivity|]. simpl.
      assert (okd (qdiv (qsub (snd q) (snd p)) (qsub (fst q) (fst p)))) by (apply Hd; left; reflexivity).
      repeat split; try apply H_self; assumption.
    - remember (hs p (q :: r :: t')) as h eqn:Eh. remember (deltas p (q :: r :: t')) as d eqn:Ed.
      destruct h as [|h0 [|h1 hr]]; try discriminate. destruct d as [|d0 [|d1 dr]]; try discriminate.
      destruct (last2_some h0 h1 hr) as (hl & hl' & E1). destruct (last2_some d0 d1 dr) as (dl & dl' & E2).
      rewrite E1, E2. eexists. split; [reflexivity|].
      destruct (last2_inv _ _ _ E2) as (rd & Rd).
      apply (inner_box _ _ _ _ 0 HL); [discriminate | exact Hh | exact Hd | |].
      + simpl. apply H_edge; [apply Hh | apply Hh | apply Hd | apply Hd]; simpl; auto.
      + destruct (last2_in _ _ _ E1) as [Ih Ih'], (last2_in _ _ _ E2) as [Id Id'].
        rewrite Rd, last_app2. apply H_edge; [apply Hh, Ih | apply Hh, Ih' | apply Hd, Id | apply Hd, Id'].
  Qed.
End Boxed.

Definition boxP (delta s : Q) : Prop := 0 <= s /\ s <= 3 * delta.       (* nondecreasing data *)
Definition boxN (delta s : Q) : Prop := 3 * delta <= s /\ s <= 0.       (* nonincreasing data *)

Fixpoint nondec (p : pt) (l : list pt) : Prop := match l with [] => True | q :: t => snd p <= snd q /\ nondec q t end.
Fixpoint noninc (p : pt) (l : list pt) : Prop := match l with [] => True | q :: t => snd q <= snd p /\ noninc q t end.
Definition nondecreasing (l : list pt) : Prop := match l with [] => True | p :: t => nondec p t end.
Definition nonincreasing (l : list pt) : Prop := match l with [] => True | p :: t => noninc p t end.

Lemma delta_eq p q : qdiv (qsub (snd q) (snd p)) (qsub (fst q) (fst p)) == (snd q - snd p) / (fst q - fst p).
Proof. qnorm. reflexivity. Qed.

Lemma deltas_nonneg l : forall p x, incr p l -> nondec p l -> In x (deltas p l) -> 0 <= x.
Proof.
  induction l as [|q t IH]; intros p x Hi Hm Hx; [destruct Hx|].
  destruct Hi as [H1 H2]. destruct Hm as [M1 M2]. destruct Hx as [<-|Hx]; [|apply (IH q); assumption].
  rewrite delta_eq. apply Qle_shift_div_l; lra.
Qed.
Lemma deltas_nonpos l : forall p x, incr p l -> noninc p l -> In x (deltas p l) -> x <= 0.
Proof.
  induction l as [|q t IH]; intros p x Hi Hm Hx; [destruct Hx|].
  destruct Hi as [H1 H2]. destruct Hm as [M1 M2]. destruct Hx as [<-|Hx]; [|apply (IH q); assumption].
  rewrite delta_eq. apply Qle_shift_div_r; lra.
Qed.

Theorem slopes_boxP p t : t <> [] -> incr p t -> nondec p t ->
  exists S, slopes (p :: t) = Some S /\ boxedD boxP (deltas p t) S.
Proof.
  intros Hne Hi Hm. apply (slopes_boxed (fun d => 0 <= d) boxP); try assumption.
  - intros h1 d1 h2 d2 A B C D. destruct (slope_in_box h1 d1 h2 d2 A B C D) as (X & Y & Z). unfold boxP. tauto.
  - intros h0 h1 m0 m1 A B C D. exact (slope_edge_box h0 h1 m0 m1 A B C D).
  - intros d Hd. unfold boxP. lra.
  - intros x. apply deltas_nonneg; assumption.
Qed.
Theorem slopes_boxN p t : t <> [] -> incr p t -> noninc p t ->
  exists S, slopes (p :: t) = Some S /\ boxedD boxN (deltas p t) S.
Proof.
  intros Hne Hi Hm. apply (slopes_boxed (fun d => d <= 0) boxN); try assumption.
  - intros h1 d1 h2 d2 A B C D. destruct (slope_in_box_neg h1 d1 h2 d2 A B C D) as (X & Y & Z). unfold boxN. tauto.
  - intros h0 h1 m0 m1 A B C D. destruct (slope_edge_box_neg h0 h1 m0 m1 A B C D). unfold boxN. tauto.
  - intros d Hd. unfold boxN. lra.
  - intros x. apply deltas_nonpos; assumption.
Qed.

Definition sec (p q : pt) : Q := qdiv (qsub (snd q) (snd p)) (qsub (fst q) (fst p)).
Lemma secant_eq p q : fst p < fst q -> snd q - snd p == (fst q - fst p) * sec p q.
Proof. intros H. unfold sec. rewrite delta_eq. field. lra. Qed.
Lemma boxed_cons box p q t dp S : boxedD box (deltas p (q :: t)) (dp :: S) ->
  exists dq S', S = dq :: S' /\ box (sec p q) dp /\ box (sec p q) dq /\ boxedD box (deltas q t) (dq :: S').
Proof.
  destruct S as [|dq S']; simpl; [tauto|]. intros (A & B & C). exists dq, S'. repeat split; assumption.
Qed.
Lemma boxed_nil box (dq : Q) S' : boxedD box [] (dq :: S') -> S' = [].
Proof. destruct S'; simpl; [reflexivity | tauto]. Qed.

Lemma pgo_last x p dp q dq : pchip_go x p dp [q] [dq] = Some (hermite (fst p) (snd p) dp (fst q) (snd q) dq x).
Proof. reflexivity. Qed.
Lemma pgo_step x p dp q r t dq S : pchip_go x p dp (q :: r :: t) (dq :: S) =
  if qltb x (fst q) then Some (hermite (fst p) (snd p) dp (fst q) (snd q) dq x) else pchip_go x q dq (r :: t) S.
Proof. reflexivity. Qed.

Lemma pgo_some box l : forall S p dp x, l <> [] -> boxedD box (deltas p l) (dp :: S) -> exists v, pchip_go x p dp l S = Some v.
Proof.
  induction l as [|q t IH]; intros S p dp x Hne HB; [contradiction|].
  destruct (boxed_cons _ _ _ _ _ _ HB) as (dq & S' & -> & B1 & B2 & HB').
  destruct t as [|r t'].
  - apply boxed_nil in HB'. subst S'. eexists. apply pgo_last.
  - rewrite pgo_step. destruct (qltb x (fst q)); [eauto|]. apply IH; [discriminate | exact HB'].
Qed.

(* the Hermite piece is linear in the data (y0, d0, y1, d1) *)
Lemma hermite_scale k x0 y0 d0 x1 y1 d1 x :
  hermite x0 (k * y0) (k * d0) x1 (k * y1) (k * d1) x == k * hermite x0 y0 d0 x1 y1 d1 x.
Proof. rewrite !hermite_eq. unfold herm_t. ring. Qed.

(* One argument for both directions: every bound is stated for sg * y, for slopes in a box that makes sg * slope lie in
   [0, 3 sg * secant]; sg = 1 with boxP is the nondecreasing case, sg = -1 with boxN the nonincreasing one. *)
Section Signed.
Variable sg : Q.
Variable box : Q -> Q -> Prop.
Hypothesis box_sg : forall d s, box d s -> 0 <= sg * s /\ sg * s <= 3 * (sg * d).

Lemma secant_sg p q : fst p < fst q -> sg * snd q - sg * snd p == (fst q - fst p) * (sg * sec p q).
Proof.
  intros H. setoid_replace (sg * snd q - sg * snd p) with (sg * (snd q - snd p)) by ring. rewrite (secant_eq p q H). ring.
Qed.
Lemma box_nondec p q s : fst p < fst q -> box (sec p q) s -> sg * snd p <= sg * snd q.
Proof.
  intros H B. apply box_sg in B. pose proof (secant_sg p q H) as E.
  assert (0 <= (fst q - fst p) * (sg * sec p q)) by (apply Qmult_le_0_compat; lra). lra.
Qed.

Lemma piece_range p q dp dq x : fst p < fst q -> box (sec p q) dp -> box (sec p q) dq -> fst p <= x -> x <= fst q ->
  sg * snd p <= sg * hermite (fst p) (snd p) dp (fst q) (snd q) dq x /\
  sg * hermite (fst p) (snd p) dp (fst q) (snd q) dq x <= sg * snd q.
Proof.
  intros H A B H1 H2. destruct (box_sg _ _ A) as [A0 A1], (box_sg _ _ B) as [B0 B1]. rewrite <- hermite_scale.
  apply (hermite_range _ _ _ _ _ _ _ (sg * sec p q)); try assumption. apply secant_sg; exact H.
Qed.
Lemma piece_mono p q dp dq x x' : fst p < fst q -> box (sec p q) dp -> box (sec p q) dq -> fst p <= x -> x <= x' -> x' <= fst q ->
  sg * hermite (fst p) (snd p) dp (fst q) (snd q) dq x <= sg * hermite (fst p) (snd p) dp (fst q) (snd q) dq x'.
Proof.
  intros H A B H1 H2 H3. destruct (box_sg _ _ A) as [A0 A1], (box_sg _ _ B) as [B0 B1]. rewrite <- !hermite_scale.
  apply (hermite_mono _ _ _ _ _ _ _ _ (sg * sec p q)); try assumption. apply secant_sg; exact H.
Qed.

Lemma boxed_last_ge l : forall S p dp, incr p l -> boxedD box (deltas p l) (dp :: S) -> sg * snd p <= sg * snd (last l p).
Proof.
  induction l as [|q t IH]; intros S p dp Hi HB; [apply Qle_refl|].
  destruct (boxed_cons _ _ _ _ _ _ HB) as (dq & S' & -> & B1 & B2 & HB').
  destruct Hi as [H1 H2]. rewrite last_cons.
  pose proof (box_nondec p q dp H1 B1). pose proof (IH S' q dq H2 HB'). lra.
Qed.

Lemma pgo_bounds l : forall S p dp x v, incr p l -> boxedD box (deltas p l) (dp :: S) ->
  fst p <= x -> x <= fst (last l p) -> pchip_go x p dp l S = Some v -> sg * snd p <= sg * v /\ sg * v <= sg * snd (last l p).
Proof.
  induction l as [|q t IH]; intros S p dp x v Hi HB X1 X2; [discriminate|].
  destruct (boxed_cons _ _ _ _ _ _ HB) as (dq & S' & -> & B1 & B2 & HB').
  destruct Hi as [H1 H2]. rewrite last_cons in *.
  destruct t as [|r t'].
  - apply boxed_nil in HB'. subst S'. rewrite pgo_last. intros E. inversion E.
    apply piece_range; assumption.
  - rewrite pgo_step.
    pose proof (boxed_last_ge _ _ _ _ H2 HB') as L.
    pose proof (box_nondec p q dp H1 B1) as N.
    destruct (qltb x (fst q)) eqn:E.
    + apply qltb_lt in E. intros V. inversion V.
      destruct (piece_range p q dp dq x H1 B1 B2 X1) as [R1 R2]; [lra|]. split; lra.
    + apply qltb_ge in E. intros V.
      destruct (IH S' q dq x v) as [R1 R2]; try assumption. split; lra.
Qed.

Lemma pgo_within l : forall S p dp pa pb x v, incr p l -> boxedD box (deltas p l) (dp :: S) ->
  consec pa pb (p :: l) -> fst pa <= x -> x <= fst pb -> pchip_go x p dp l S = Some v ->
  sg * snd pa <= sg * v /\ sg * v <= sg * snd pb.
Proof.
  induction l as [|q t IH]; intros S p dp pa pb x v Hi HB Hc X1 X2; [destruct Hc|].
  destruct (boxed_cons _ _ _ _ _ _ HB) as (dq & S' & -> & B1 & B2 & HB').
  destruct Hi as [H1 H2].
  destruct Hc as [[<- <-]|Hc].
  - destruct t as [|r t'].
    + apply boxed_nil in HB'. subst S'. rewrite pgo_last. intros E. inversion E. apply piece_range; assumption.
    + rewrite pgo_step. destruct (qltb x (fst q)) eqn:E.
      * intros V. inversion V. apply piece_range; assumption.
      * apply qltb_ge in E. intros V. assert (XE : x == fst q) by lra.
        rewrite (pgo_start _ _ _ _ _ _ H2 XE V).
        pose proof (box_nondec p q dp H1 B1). split; lra.
  - destruct t as [|r t']; [destruct Hc|].
    assert (G : fst q <= fst pa) by (apply (consec_ge (r :: t') q pa pb); assumption).
    rewrite pgo_step.
    assert (Q : qltb x (fst q) = false) by (apply qltb_ge; lra). rewrite Q.
    apply IH; assumption.
Qed.

Lemma pgo_mono l : forall S p dp x x' v v', incr p l -> boxedD box (deltas p l) (dp :: S) ->
  fst p <= x -> x <= x' -> x' <= fst (last l p) ->
  pchip_go x p dp l S = Some v -> pchip_go x' p dp l S = Some v' -> sg * v <= sg * v'.
Proof.
  induction l as [|q t IH]; intros S p dp x x' v v' Hi HB X1 X2 X3; [discriminate|].
  destruct (boxed_cons _ _ _ _ _ _ HB) as (dq & S' & -> & B1 & B2 & HB').
  destruct Hi as [H1 H2]. rewrite last_cons in *.
  destruct t as [|r t'].
  - apply boxed_nil in HB'. subst S'. rewrite !pgo_last. intros E E'. inversion E. inversion E'.
    apply piece_mono; assumption.
  - rewrite !pgo_step.
    destruct (qltb x (fst q)) eqn:E; destruct (qltb x' (fst q)) eqn:E';
      rewrite ?qltb_lt, ?qltb_ge in *; intros V V'.
    + inversion V. inversion V'. apply piece_mono; try assumption. lra.
    + (* x on this piece, x' further right: compare both with the value at the node q *)
      inversion V.
      destruct (piece_range p q dp dq x H1 B1 B2 X1) as [R1 R2]; [lra|].
      destruct (pgo_bounds (r :: t') S' q dq x' v') as [R3 R4]; try assumption. lra.
    + lra.
    + apply (IH S' q dq x x'); assumption.
Qed.
End Signed.

Lemma boxP_sg d s : boxP d s -> 0 <= 1 * s /\ 1 * s <= 3 * (1 * d).
Proof. unfold boxP. lra. Qed.
Lemma boxN_sg d s : boxN d s -> 0 <= (-1) * s /\ (-1) * s <= 3 * ((-1) * d).
Proof. unfold boxN. lra. Qed.

(* with slopes in the box of some sign, pchip is pchip_go over that slope list and is defined everywhere *)
Lemma pchip_boxed box a t : t <> [] -> (exists S, slopes (a :: t) = Some S /\ boxedD box (deltas a t) S) ->
  exists dp S, boxedD box (deltas a t) (dp :: S) /\
    forall x, exists v, pchip x (a :: t) = Some v /\ pchip_go x a dp t S = Some v.
Proof.
  intros Hne (S & ES & HB). destruct S as [|dp S]; [destruct t; [contradiction | destruct HB]|].
  exists dp, S. split; [exact HB|]. intros x. destruct (pgo_some box t S a dp x Hne HB) as (v & EV).
  exists v. unfold pchip. rewrite ES. split; exact EV.
Qed.

Theorem pchip_nondec_within l p q x : sorted l -> nondecreasing l -> consec p q l -> fst p <= x -> x <= fst q ->
  exists v, pchip x l = Some v /\ snd p <= v /\ v <= snd q.
Proof.
  destruct l as [|a t]; intros Hs Hm Hc X1 X2; [destruct Hc|].
  assert (Hne : t <> []) by (intros ->; destruct Hc).
  destruct (pchip_boxed boxP a t Hne (slopes_boxP a t Hne Hs Hm)) as (dp & S & HB & R).
  destruct (R x) as (v & E & G). exists v. split; [exact E|].
  pose proof (pgo_within 1 boxP boxP_sg t S a dp p q x v Hs HB Hc X1 X2 G). lra.
Qed.

Theorem pchip_nondec_monotone a t x x' : t <> [] -> sorted (a :: t) -> nondecreasing (a :: t) ->
  fst a <= x -> x <= x' -> x' <= fst (last t a) ->
  exists v v', pchip x (a :: t) = Some v /\ pchip x' (a :: t) = Some v' /\ v <= v'.
Proof.
  intros Hne Hs Hm X1 X2 X3.
  destruct (pchip_boxed boxP a t Hne (slopes_boxP a t Hne Hs Hm)) as (dp & S & HB & R).
  destruct (R x) as (v & E & G), (R x') as (v' & E' & G'). exists v, v'. split; [exact E|]. split; [exact E'|].
  pose proof (pgo_mono 1 boxP boxP_sg t S a dp x x' v v' Hs HB X1 X2 X3 G G'). lra.
Qed.

Theorem pchip_nondec_bounds a t x : t <> [] -> sorted (a :: t) -> nondecreasing (a :: t) ->
  fst a <= x -> x <= fst (last t a) -> exists v, pchip x (a :: t) = Some v /\ snd a <= v /\ v <= snd (last t a).
Proof.
  intros Hne Hs Hm X1 X2.
  destruct (pchip_boxed boxP a t Hne (slopes_boxP a t Hne Hs Hm)) as (dp & S & HB & R).
  destruct (R x) as (v & E & G). exists v. split; [exact E|].
  pose proof (pgo_bounds 1 boxP boxP_sg t S a dp x v Hs HB X1 X2 G). lra.
Qed.

Theorem pchip_noninc_within l p q x : sorted l -> nonincreasing l -> consec p q l -> fst p <= x -> x <= fst q ->
  exists v, pchip x l = Some v /\ snd q <= v /\ v <= snd p.
Proof.
  destruct l as [|a t]; intros Hs Hm Hc X1 X2; [destruct Hc|].
  assert (Hne : t <> []) by (intros ->; destruct Hc).
  destruct (pchip_boxed boxN a t Hne (slopes_boxN a t Hne Hs Hm)) as (dp & S & HB & R).
  destruct (R x) as (v & E & G). exists v. split; [exact E|].
  pose proof (pgo_within (-1) boxN boxN_sg t S a dp p q x v Hs HB Hc X1 X2 G). lra.
Qed.

Theorem pchip_noninc_monotone a t x x' : t <> [] -> sorted (a :: t) -> nonincreasing (a :: t) ->
  fst a <= x -> x <= x' -> x' <= fst (last t a) ->
  exists v v', pchip x (a :: t) = Some v /\ pchip x' (a :: t) = Some v' /\ v' <= v.
Proof.
  intros Hne Hs Hm X1 X2 X3.
  destruct (pchip_boxed boxN a t Hne (slopes_boxN a t Hne Hs Hm)) as (dp & S & HB & R).
  destruct (R x) as (v & E & G), (R x') as (v' & E' & G'). exists v, v'. split; [exact E|]. split; [exact E'|].
  pose proof (pgo_mono (-1) boxN boxN_sg t S a dp x x' v v' Hs HB X1 X2 X3 G G'). lra.
Qed.

Theorem pchip_noninc_bounds a t x : t <> [] -> sorted (a :: t) -> nonincreasing (a :: t) ->
  fst a <= x -> x <= fst (last t a) -> exists v, pchip x (a :: t) = Some v /\ snd (last t a) <= v /\ v <= snd a.
Proof.
  intros Hne Hs Hm X1 X2.
  destruct (pchip_boxed boxN a t Hne (slopes_boxN a t Hne Hs Hm)) as (dp & S & HB & R).
  destruct (R x) as (v & E & G). exists v. split; [exact E|].
  pose proof (pgo_bounds (-1) boxN boxN_sg t S a dp x v Hs HB X1 X2 G). lra.
Qed.

Section LogWhole.
  Variable lg pw : Q -> Q.                         (* log10 and 10** as oracles with their order contract *)
  Hypothesis pw_lg : forall y, 0 < y -> pw (lg y) == y.
  Hypothesis pw_mono : forall a b, a <= b -> pw a <= pw b.
  Hypothesis lg_mono : forall a b, 0 < a -> a <= b -> lg a <= lg b.
  Hypothesis lg_strict : forall a b, 0 < a -> a < b -> lg a < lg b.

  Definition loglog (p : pt) : pt := (lg (fst p), lg (snd p)).
  (* characteristic.py:186-221: x_vals / y_vals are stored as log10, __call__ = np.power(10, interpolator(np.log10(x))) *)
  Definition logspline (l : list pt) (x : Q) : option Q :=
    match pchip (lg x) (map loglog l) with Some v => Some (pw v) | None => None end.
  Definition positive (l : list pt) : Prop := forall p, In p l -> 0 < fst p /\ 0 < snd p.

  Lemma positive_tl a l : positive (a :: l) -> positive l.
  Proof. intros H p Hp. apply H. right. exact Hp. Qed.
  Lemma incr_log l : forall p, positive (p :: l) -> incr p l -> incr (loglog p) (map loglog l).
  Proof.
    induction l as [|q t IH]; intros p Hp Hi; [exact I|]. destruct Hi as [H1 H2]. split.
    - simpl. apply lg_strict; [apply (Hp p); left; reflexivity | exact H1].
    - apply IH; [apply (positive_tl p); exact Hp | exact H2].
  Qed.
  Lemma nondec_log l : forall p, positive (p :: l) -> nondec p l -> nondec (loglog p) (map loglog l).
  Proof.
    induction l as [|q t IH]; intros p Hp Hi; [exact I|]. destruct Hi as [H1 H2]. split.
    - simpl. apply lg_mono; [apply (Hp p); left; reflexivity | exact H1].
    - apply IH; [apply (positive_tl p); exact Hp | exact H2].
  Qed.
  Lemma noninc_log l : forall p, positive (p :: l) -> noninc p l -> noninc (loglog p) (map loglog l).
  Proof.
    induction l as [|q t IH]; intros p Hp Hi; [exact I|]. destruct Hi as [H1 H2]. split.
    - simpl. apply lg_mono; [apply (Hp q); right; left; reflexivity | exact H1].
    - apply IH; [apply (positive_tl p); exact Hp | exact H2].
  Qed.
  Lemma consec_log l : forall p q, consec p q l -> consec (loglog p) (loglog q) (map loglog l).
  Proof.
    induction l as [|a t IH]; intros p q H; [destruct H|].
    destruct t as [|b t']; [destruct H|].
    destruct H as [[-> ->]|H]; [left; split; reflexivity | right; apply (IH p q H)].
  Qed.
  Lemma consec_in l : forall p q, consec p q l -> In p l /\ In q l.
  Proof.
    induction l as [|a t IH]; intros p q H; [destruct H|].
    destruct t as [|b t']; [destruct H|].
    destruct H as [[-> ->]|H]; [split; simpl; auto|]. destruct (IH p q H). split; right; assumption.
  Qed.
  Lemma last_log l : forall p, last (map loglog l) (loglog p) = loglog (last l p).
  Proof. induction l as [|q t IH]; intros p; [reflexivity|]. simpl map. rewrite !last_cons. apply IH. Qed.
  Lemma last_in (l : list pt) : forall p, In (last l p) (p :: l).
  Proof.
    induction l as [|q t IH]; intros p; [left; reflexivity|]. rewrite last_cons. right. apply IH.
  Qed.

  Lemma pw_between y0 y1 v : 0 < y0 -> 0 < y1 -> lg y0 <= v -> v <= lg y1 -> y0 <= pw v /\ pw v <= y1.
  Proof.
    intros H0 H1 A B. split.
    - apply Qle_trans with (pw (lg y0)); [rewrite (pw_lg y0 H0); apply Qle_refl | apply pw_mono; exact A].
    - apply Qle_trans with (pw (lg y1)); [apply pw_mono; exact B | rewrite (pw_lg y1 H1); apply Qle_refl].
  Qed.
  Lemma logspline_eq l x v : pchip (lg x) (map loglog l) = Some v -> logspline l x = Some (pw v).
  Proof. unfold logspline. intros ->. reflexivity. Qed.
  Lemma log_nonempty (t : list pt) : t <> [] -> map loglog t <> [].
  Proof. intros Hne E. exact (Hne (map_eq_nil _ _ E)). Qed.

  Theorem logspline_nondec_within l p q x : positive l -> sorted l -> nondecreasing l -> consec p q l ->
    fst p <= x -> x <= fst q -> exists v, logspline l x = Some v /\ snd p <= v /\ v <= snd q.
  Proof.
    intros Hp Hs Hm Hc X1 X2. destruct (consec_in l p q Hc) as [Ip Iq].
    destruct (Hp p Ip) as [Px Py]. destruct (Hp q Iq) as [Qx Qy].
    destruct l as [|a t]; [destruct Hc|].
    destruct (pchip_nondec_within (map loglog (a :: t)) (loglog p) (loglog q) (lg x)) as (v & EV & R1 & R2).
    - apply incr_log; assumption.
    - apply nondec_log; assumption.
    - apply consec_log. exact Hc.
    - apply lg_mono; assumption.
    - apply lg_mono; [lra | exact X2].
    - exists (pw v). split; [apply logspline_eq; exact EV | apply pw_between; assumption].
  Qed.
  Theorem logspline_noninc_within l p q x : positive l -> sorted l -> nonincreasing l -> consec p q l ->
    fst p <= x -> x <= fst q -> exists v, logspline l x = Some v /\ snd q <= v /\ v <= snd p.
  Proof.
    intros Hp Hs Hm Hc X1 X2. destruct (consec_in l p q Hc) as [Ip Iq].
    destruct (Hp p Ip) as [Px Py]. destruct (Hp q Iq) as [Qx Qy].
    destruct l as [|a t]; [destruct Hc|].
    destruct (pchip_noninc_within (map loglog (a :: t)) (loglog p) (loglog q) (lg x)) as (v & EV & R1 & R2).
    - apply incr_log; assumption.
    - apply noninc_log; assumption.
    - apply consec_log. exact Hc.
    - apply lg_mono; assumption.
    - apply lg_mono; [lra | exact X2].
    - exists (pw v). split; [apply logspline_eq; exact EV | apply pw_between; assumption].
  Qed.

  Theorem logspline_nondec_monotone a t x x' : t <> [] -> positive (a :: t) -> sorted (a :: t) -> nondecreasing (a :: t) ->
    fst a <= x -> x <= x' -> x' <= fst (last t a) ->
    exists v v', logspline (a :: t) x = Some v /\ logspline (a :: t) x' = Some v' /\ v <= v'.
  Proof.
    intros Hne Hp Hs Hm X1 X2 X3. destruct (Hp a (or_introl eq_refl)) as [Ax Ay].
    destruct (pchip_nondec_monotone (loglog a) (map loglog t) (lg x) (lg x')) as (v & v' & EV & EV' & L).
    - apply log_nonempty. exact Hne.
    - apply (incr_log t a); assumption.
    - apply (nondec_log t a); assumption.
    - apply lg_mono; assumption.
    - apply lg_mono; lra.
    - rewrite last_log. apply lg_mono; [lra | exact X3].
    - exists (pw v), (pw v'). split; [apply logspline_eq; exact EV|]. split; [apply logspline_eq; exact EV'|].
      apply pw_mono. exact L.
  Qed.
  Theorem logspline_noninc_monotone a t x x' : t <> [] -> positive (a :: t) -> sorted (a :: t) -> nonincreasing (a :: t) ->
    fst a <= x -> x <= x' -> x' <= fst (last t a) ->
    exists v v', logspline (a :: t) x = Some v /\ logspline (a :: t) x' = Some v' /\ v' <= v.
  Proof.
    intros Hne Hp Hs Hm X1 X2 X3. destruct (Hp a (or_introl eq_refl)) as [Ax Ay].
    destruct (pchip_noninc_monotone (loglog a) (map loglog t) (lg x) (lg x')) as (v & v' & EV & EV' & L).
    - apply log_nonempty. exact Hne.
    - apply (incr_log t a); assumption.
    - apply (noninc_log t a); assumption.
    - apply lg_mono; assumption.
    - apply lg_mono; lra.
    - rewrite last_log. apply lg_mono; [lra | exact X3].
    - exists (pw v), (pw v'). split; [apply logspline_eq; exact EV|]. split; [apply logspline_eq; exact EV'|].
      apply pw_mono. exact L.
  Qed.

  (* every value on [x_0, x_n] lies between the last and the first support value, in particular it is positive *)
  Theorem logspline_noninc_bounds a t x : t <> [] -> positive (a :: t) -> sorted (a :: t) -> nonincreasing (a :: t) ->
    fst a <= x -> x <= fst (last t a) ->
    exists v, logspline (a :: t) x = Some v /\ snd (last t a) <= v /\ v <= snd a.
  Proof.
    intros Hne Hp Hs Hm X1 X2. destruct (Hp a (or_introl eq_refl)) as [Ax Ay].
    destruct (Hp (last t a) (last_in t a)) as [Lx Ly].
    destruct (pchip_noninc_bounds (loglog a) (map loglog t) (lg x)) as (v & EV & R1 & R2).
    - apply log_nonempty. exact Hne.
    - apply (incr_log t a); assumption.
    - apply (noninc_log t a); assumption.
    - apply lg_mono; assumption.
    - rewrite last_log. apply lg_mono; [lra | exact X2].
    - exists (pw v). split; [apply logspline_eq; exact EV|]. rewrite last_log in R1. apply pw_between; assumption.
  Qed.
  Theorem logspline_nondec_bounds a t x : t <> [] -> positive (a :: t) -> sorted (a :: t) -> nondecreasing (a :: t) ->
    fst a <= x -> x <= fst (last t a) ->
    exists v, logspline (a :: t) x = Some v /\ snd a <= v /\ v <= snd (last t a).
  Proof.
    intros Hne Hp Hs Hm X1 X2. destruct (Hp a (or_introl eq_refl)) as [Ax Ay].
    destruct (Hp (last t a) (last_in t a)) as [Lx Ly].
    destruct (pchip_nondec_bounds (loglog a) (map loglog t) (lg x)) as (v & EV & R1 & R2).
    - apply log_nonempty. exact Hne.
    - apply (incr_log t a); assumption.
    - apply (nondec_log t a); assumption.
    - apply lg_mono; assumption.
    - rewrite last_log. apply lg_mono; [lra | exact X2].
    - exists (pw v). split; [apply logspline_eq; exact EV|]. rewrite last_log in R2. apply pw_between; assumption.
  Qed.
End LogWhole.
