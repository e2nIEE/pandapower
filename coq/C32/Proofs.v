(* C32 — linear interpolation (through its points, clamped outside, between its neighbours), the Hermite piece at its
   ends, the Fritsch-Carlson boxes of the PCHIP slopes for nonnegative secants, PCHIP through its points *)
From Coq Require Import QArith List Lia Lqa.
From PPV Require Import Base.QN C32.Model.
Import ListNotations.
Open Scope Q_scope.

Lemma lin_eq p q x : lin p q x == snd p + (snd q - snd p) / (fst q - fst p) * (x - fst p).
Proof. unfold lin. qstrip. reflexivity. Qed.

Lemma lin_left p q x : fst p < fst q -> x == fst p -> lin p q x == snd p.
Proof.
  intros H Hx. rewrite lin_eq. rewrite Hx. field. lra.
Qed.
Lemma lin_right p q x : fst p < fst q -> x == fst q -> lin p q x == snd q.
Proof.
  intros H Hx. rewrite lin_eq. rewrite Hx. field. lra.
Qed.
Lemma lin_between p q x : fst p < fst q -> fst p <= x -> x <= fst q -> between (snd p) (snd q) (lin p q x).
Proof.
  intros H H1 H2. unfold between. rewrite lin_eq.
  set (l := (x - fst p) / (fst q - fst p)).
  assert (L0 : 0 <= l). { unfold l. apply Qle_shift_div_l; lra. }
  assert (L1 : l <= 1). { unfold l. apply Qle_shift_div_r; lra. }
  assert (E : snd p + (snd q - snd p) / (fst q - fst p) * (x - fst p) == snd p + (snd q - snd p) * l).
  { unfold l. field. lra. }
  rewrite E.
  destruct (Qlt_le_dec (snd q) (snd p)) as [C|C]; [right | left]; split; nra.
Qed.

Lemma incr_lt l : forall p q, incr p l -> In q l -> fst p < fst q.
Proof.
  induction l as [|a l IH]; intros p q Hi Hq; [destruct Hq|].
  destruct Hi as [H1 H2]. destruct Hq as [<-|Hq]; [exact H1|].
  eapply Qlt_trans; [exact H1 | apply IH; assumption].
Qed.

Lemma go_at_start l : forall p x, incr p l -> x == fst p -> interp_go x p l == snd p.
Proof.
  intros p x Hi Hx. destruct l as [|r t]; simpl; [reflexivity|].
  destruct Hi as [H1 _].
  assert (Q : qltb x (fst r) = true) by (apply qltb_lt; lra).
  rewrite Q. apply lin_left; assumption.
Qed.

Lemma go_through l : forall p q, incr p l -> In q l -> interp_go (fst q) p l == snd q.
Proof.
  induction l as [|a l IH]; intros p q Hi Hq; [destruct Hq|].
  simpl. destruct Hi as [H1 H2]. destruct Hq as [<-|Hq].
  - assert (Q : qltb (fst a) (fst a) = false) by (apply qltb_ge; lra).
    rewrite Q. apply go_at_start; [exact H2 | reflexivity].
  - assert (L : fst a < fst q) by (apply (incr_lt l); assumption).
    assert (Q : qltb (fst q) (fst a) = false) by (apply qltb_ge; lra).
    rewrite Q. apply IH; assumption.
Qed.

(* Characteristic(x_i) = y_i at every support point *)
Theorem interp_through_points l p : sorted l -> In p l -> exists v, interp (fst p) l = Some v /\ v == snd p.
Proof.
  destruct l as [|a l]; intros Hs Hp; [destruct Hp|].
  simpl in Hs. eexists. split; [reflexivity|].
  destruct Hp as [<-|Hp].
  - assert (Q : qleb (fst a) (fst a) = true) by (apply qleb_le; lra). rewrite Q. reflexivity.
  - assert (L : fst a < fst p) by (apply (incr_lt l); assumption).
    assert (Q : qleb (fst p) (fst a) = false).
    { destruct (qleb (fst p) (fst a)) eqn:E; [|reflexivity]. apply qleb_le in E. lra. }
    rewrite Q. apply go_through; assumption.
Qed.

(* constant beyond the ends *)
Theorem interp_left_clamp l a x : x <= fst a -> interp x (a :: l) = Some (snd a).
Proof. intros H. simpl. assert (Q : qleb x (fst a) = true) by (apply qleb_le; exact H). rewrite Q. reflexivity. Qed.

Lemma last_default {A} (t : list A) : forall b d d', last (b :: t) d = last (b :: t) d'.
Proof. induction t as [|c t IH]; intros b d d'; [reflexivity|]. apply (IH c). Qed.
Lemma last_cons {A} (t : list A) a p : last (a :: t) p = last t a.
Proof. destruct t as [|b t]; [reflexivity|]. apply (last_default t b p a). Qed.

Lemma go_right_clamp l : forall p x, (forall q, In q l -> fst q <= x) -> interp_go x p l == snd (last l p).
Proof.
  induction l as [|a l IH]; intros p x Hx; [reflexivity|].
  simpl interp_go.
  assert (Q : qltb x (fst a) = false) by (apply qltb_ge; apply Hx; left; reflexivity).
  rewrite Q. rewrite last_cons. apply IH. intros q Hq. apply Hx. right. exact Hq.
Qed.
Theorem interp_right_clamp l a x : (forall q, In q (a :: l) -> fst q <= x) -> sorted (a :: l) ->
  exists v, interp x (a :: l) = Some v /\ v == snd (last l a).
Proof.
  intros Hx Hs. simpl interp. eexists. split; [reflexivity|].
  destruct (qleb x (fst a)) eqn:E.
  - apply qleb_le in E. destruct l as [|b t]; [reflexivity|].
    simpl in Hs. destruct Hs as [Hab _]. specialize (Hx b (or_intror (or_introl eq_refl))). lra.
  - apply go_right_clamp. intros q Hq. apply Hx. right. exact Hq.
Qed.

(* within the neighbouring support values *)
Lemma consec_ge l : forall b p q, incr b l -> consec p q (b :: l) -> fst b <= fst p.
Proof.
  induction l as [|c l IH]; intros b p q Hi Hc; [destruct Hc|].
  destruct Hc as [[<- _]|Hc]; [lra|].
  destruct Hi as [H1 H2]. specialize (IH c p q H2 Hc). lra.
Qed.

Lemma go_within l : forall a p q x, incr a l -> consec p q (a :: l) -> fst p <= x -> x <= fst q ->
  between (snd p) (snd q) (interp_go x a l).
Proof.
  induction l as [|b t IH]; intros a p q x Hi Hc H1 H2; [destruct Hc|].
  destruct Hi as [Hab Hi]. simpl interp_go.
  destruct Hc as [[-> ->]|Hc].
  - destruct (qltb x (fst q)) eqn:E.
    + apply lin_between; assumption.
    + apply qltb_ge in E. assert (X : x == fst q) by lra.
      assert (V : interp_go x q t == snd q) by (apply go_at_start; assumption).
      unfold between. rewrite V.
      destruct (Qlt_le_dec (snd q) (snd p)); [right | left]; split; lra.
  - assert (G : fst b <= fst p) by (apply (consec_ge t b p q); assumption).
    assert (Q : qltb x (fst b) = false) by (apply qltb_ge; lra).
    rewrite Q. apply IH; assumption.
Qed.

Theorem interp_within_neighbours l p q x : sorted l -> consec p q l -> fst p <= x -> x <= fst q ->
  exists v, interp x l = Some v /\ between (snd p) (snd q) v.
Proof.
  destruct l as [|a l]; intros Hs Hc H1 H2; [destruct Hc|].
  simpl in Hs. simpl interp. eexists. split; [reflexivity|].
  destruct (qleb x (fst a)) eqn:E.
  - apply qleb_le in E.
    assert (G : fst a <= fst p) by (apply (consec_ge l a p q); assumption).
    (* then p is the first point and x sits on it *)
    destruct l as [|b t]; [destruct Hc|]. destruct Hc as [[-> ->]|Hc].
    + unfold between. destruct (Qlt_le_dec (snd q) (snd p)); [right | left]; split; lra.
    + destruct Hs as [Hab Hs]. assert (fst b <= fst p) by (apply (consec_ge t b p q); assumption). lra.
  - apply go_within; assumption.
Qed.

Definition herm_t (y0 d0 y1 d1 h t : Q) : Q :=
  (2 * t * t * t - 3 * t * t + 1) * y0 + (t * t * t - 2 * t * t + t) * h * d0 + (3 * t * t - 2 * t * t * t) * y1 + (t * t * t - t * t) * h * d1.
Lemma hermite_eq x0 y0 d0 x1 y1 d1 x :
  hermite x0 y0 d0 x1 y1 d1 x == herm_t y0 d0 y1 d1 (x1 - x0) ((x - x0) / (x1 - x0)).
Proof. unfold hermite, herm_t. qnorm. ring. Qed.

(* every piece passes through its two end points, whatever the slopes *)
Lemma hermite_left x0 y0 d0 x1 y1 d1 x : x0 < x1 -> x == x0 -> hermite x0 y0 d0 x1 y1 d1 x == y0.
Proof.
  intros H Hx. rewrite hermite_eq. assert (T : (x - x0) / (x1 - x0) == 0) by (rewrite Hx; field; lra).
  unfold herm_t. rewrite T. ring.
Qed.
Lemma hermite_right x0 y0 d0 x1 y1 d1 x : x0 < x1 -> x == x1 -> hermite x0 y0 d0 x1 y1 d1 x == y1.
Proof.
  intros H Hx. rewrite hermite_eq. assert (T : (x - x0) / (x1 - x0) == 1) by (rewrite Hx; field; lra).
  unfold herm_t. rewrite T. ring.
Qed.

Lemma sgn_pos q : 0 < q -> sgn q = 1%Z.
Proof. unfold sgn, Qlt. simpl. intros H. apply Z.sgn_pos. lia. Qed.
Lemma sgn_zero q : q == 0 -> sgn q = 0%Z.
Proof. unfold sgn, Qeq. simpl. intros H. assert (Qnum q = 0%Z) by lia. rewrite H0. reflexivity. Qed.
Lemma sgn_nonneg_inv q : (sgn q = 0%Z \/ sgn q = 1%Z) -> 0 <= q.
Proof.
  unfold sgn, Qle. simpl. intros [H|H].
  - apply Z.sgn_null_iff in H. lia.
  - apply Z.sgn_pos_iff in H. lia.
Qed.
Lemma sgn_of_nonneg q : 0 <= q -> sgn q = 0%Z \/ sgn q = 1%Z.
Proof.
  intros H. destruct (Qlt_le_dec 0 q) as [L|L]; [right; apply sgn_pos; exact L | left; apply sgn_zero; lra].
Qed.

Theorem slope_in_box h1 d1 h2 d2 : 0 < h1 -> 0 < h2 -> 0 <= d1 -> 0 <= d2 ->
  0 <= slope_in h1 d1 h2 d2 /\ slope_in h1 d1 h2 d2 <= 3 * d1 /\ slope_in h1 d1 h2 d2 <= 3 * d2.
Proof.
  intros H1 H2 D1 D2. unfold slope_in.
  destruct (Qlt_le_dec 0 d1) as [P1|Z1].
  2:{ rewrite (sgn_zero d1) by lra. simpl. repeat split; lra. }
  destruct (Qlt_le_dec 0 d2) as [P2|Z2].
  2:{ rewrite (sgn_zero d2) by lra. rewrite orb_true_r. simpl. repeat split; lra. }
  rewrite (sgn_pos d1 P1), (sgn_pos d2 P2). simpl. qnorm.
  set (w1 := 2 * h2 + h1). set (w2 := h2 + 2 * h1).
  assert (W1 : 0 < w1) by (unfold w1; lra). assert (W2 : 0 < w2) by (unfold w2; lra).
  assert (A : 0 < w1 / d1) by (apply Qlt_shift_div_l; lra).
  assert (B : 0 < w2 / d2) by (apply Qlt_shift_div_l; lra).
  assert (E1 : d1 * (w1 / d1 + w2 / d2) == w1 + d1 * (w2 / d2)) by (field; lra).
  assert (E2 : d2 * (w1 / d1 + w2 / d2) == d2 * (w1 / d1) + w2) by (field; lra).
  assert (C1 : 0 <= d1 * (w2 / d2)) by (apply Qmult_le_0_compat; lra).
  assert (C2 : 0 <= d2 * (w1 / d1)) by (apply Qmult_le_0_compat; lra).
  repeat split.
  - apply Qle_shift_div_l; lra.
  - apply Qle_shift_div_r; [lra|]. unfold w1, w2 in *. lra.
  - apply Qle_shift_div_r; [lra|]. unfold w1, w2 in *. lra.
Qed.

Theorem slope_edge_box h0 h1 m0 m1 : 0 < h0 -> 0 < h1 -> 0 <= m0 -> 0 <= m1 ->
  0 <= slope_edge h0 h1 m0 m1 /\ slope_edge h0 h1 m0 m1 <= 3 * m0.
Proof.
  intros H0 H1 M0 M1. unfold slope_edge.
  set (d := qdiv (qsub (qmul (qadd (qmul 2 h0) h1) m0) (qmul h0 m1)) (qadd h0 h1)).
  destruct (Z.eqb (sgn d) (sgn m0)) eqn:E; simpl; [|split; lra].
  destruct (negb (Z.eqb (sgn m0) (sgn m1)) && qltb (qmul 3 (qabs m0)) (qabs d))%bool.
  - qnorm. split; lra.
  - apply Z.eqb_eq in E.
    assert (Dn : 0 <= d) by (apply sgn_nonneg_inv; rewrite E; apply sgn_of_nonneg; exact M0).
    split; [exact Dn|].
    unfold d. qnorm. apply Qle_shift_div_r; [lra|].
    assert (0 <= h0 * m1) by (apply Qmult_le_0_compat; lra).
    assert (0 <= h0 * m0) by (apply Qmult_le_0_compat; lra).
    assert (0 <= h1 * m0) by (apply Qmult_le_0_compat; lra).
    nra.
Qed.

Lemma pgo_start l : forall ds p dp x v, incr p l -> x == fst p -> pchip_go x p dp l ds = Some v -> v == snd p.
Proof.
  intros ds p dp x v Hi Hx. destruct l as [|q t]; [destruct ds; discriminate|].
  destruct Hi as [H1 _]. simpl.
  assert (Q : qltb x (fst q) = true) by (apply qltb_lt; lra).
  destruct t as [|r t]; destruct ds as [|dq dt]; try discriminate.
  - destruct dt; [|discriminate]. intros E. inversion E. apply hermite_left; assumption.
  - rewrite Q. intros E. inversion E. apply hermite_left; assumption.
Qed.

Lemma pgo_through l : forall ds p dp q v, incr p l -> In q l -> pchip_go (fst q) p dp l ds = Some v -> v == snd q.
Proof.
  induction l as [|a l IH]; intros ds p dp q v Hi Hq; [destruct Hq|].
  destruct Hi as [H1 H2]. simpl.
  destruct l as [|b t].
  - destruct Hq as [<-|[]]. destruct ds as [|dq [|? ?]]; try discriminate.
    intros E. inversion E. apply hermite_right; [exact H1 | reflexivity].
  - destruct ds as [|dq dt]; [discriminate|].
    destruct Hq as [<-|Hq].
    + assert (Q : qltb (fst a) (fst a) = false) by (apply qltb_ge; lra). rewrite Q.
      apply pgo_start; [exact H2 | reflexivity].
    + assert (L : fst a < fst q) by (apply (incr_lt (b :: t)); assumption).
      assert (Q : qltb (fst q) (fst a) = false) by (apply qltb_ge; lra). rewrite Q.
      apply IH; assumption.
Qed.

Theorem pchip_through_points l p v : sorted l -> In p l -> pchip (fst p) l = Some v -> v == snd p.
Proof.
  unfold pchip. destruct l as [|a l]; [discriminate|]. intros Hs Hp.
  destruct (slopes (a :: l)) as [[|da dt]|]; try discriminate.
  simpl in Hs. destruct Hp as [<-|Hp].
  - apply pgo_start; [exact Hs | reflexivity].
  - apply pgo_through; assumption.
Qed.
