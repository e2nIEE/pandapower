(* Scaling by a rational as a complex product, as in Base/QC.v; no file imports this one. *)
From Coq Require Import QArith.
From PPV Require Import Base.QC.

Lemma Cscale_mul k a : Cscale k a ==c Cmul (CofQ k) a.
Proof. exact (QC.Cscale_mul k a). Qed.
