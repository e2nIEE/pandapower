(* C02 — the three-winding transformer as three two-winding transformers (build_branch.py
   _calculate_sc_voltages_of_equivalent_transformers :1435-1474, _trafo_df_from_trafo3w :1379-1432,
   results_branch.py _get_trafo3w_results :457-520): the specification side (documented pairwise short-circuit data,
   star circuit, hypotheses on the square-root oracles) and the lemmas about one block; the theorems about the three
   blocks together are in Properties/C02.v. *)
From Coq Require Import QArith Lia Lqa Setoid Morphisms.
From PPV Require Import Base.QN Base.QC C02.Model C02.Proofs.
Open Scope Q_scope.

Lemma qsign_pos x : 0 < x -> qsign x = 1.
Proof. intros H. unfold qsign. apply qltb_lt in H. rewrite H. reflexivity. Qed.
Lemma qsign_neg x : x < 0 -> qsign x = (-1 # 1).
Proof.
  intros H. unfold qsign. destruct (qltb 0 x) eqn:E.
  - apply qltb_lt in E. exfalso. apply (Qlt_irrefl x). apply (Qlt_trans _ 0); assumption.
  - apply qltb_lt in H. rewrite H. reflexivity.
Qed.
Lemma qsign_zero x : x == 0 -> qsign x = 0.
Proof.
  intros H. unfold qsign.
  destruct (qltb 0 x) eqn:E; [apply qltb_lt in E; rewrite H in E; exfalso; apply (Qlt_irrefl 0 E)|].
  destruct (qltb x 0) eqn:E2; [apply qltb_lt in E2; rewrite H in E2; exfalso; apply (Qlt_irrefl 0 E2)|reflexivity].
Qed.
Global Instance qsign_proper : Proper (Qeq ==> eq) qsign.
Proof.
  intros a b H. destruct (Q_dec a 0) as [[L|G]|E].
  - rewrite (qsign_neg a L). rewrite H in L. rewrite (qsign_neg b L). reflexivity.
  - rewrite (qsign_pos a G). rewrite H in G. rewrite (qsign_pos b G). reflexivity.
  - rewrite (qsign_zero a E). rewrite H in E. rewrite (qsign_zero b E). reflexivity.
Qed.
Lemma qmin2_pos a b : 0 < a -> 0 < b -> 0 < qmin2 a b.
Proof. intros Ha Hb. unfold qmin2. destruct (qltb b a); assumption. Qed.

(* np.sign: sign(v)^2 = 1 for v <> 0, sign(v) v = |v|, and a positive factor does not change the sign *)
Lemma qsign_sq v : ~ v == 0 -> qsign v * qsign v == 1.
Proof.
  intros H. destruct (Q_dec v 0) as [[L|G]|E]; [rewrite (qsign_neg _ L) | rewrite (qsign_pos _ G) | contradiction]; reflexivity.
Qed.
Lemma qsign_abs v : 0 <= qsign v * v.
Proof.
  destruct (Q_dec v 0) as [[L|G]|E]; [rewrite (qsign_neg _ L) | rewrite (qsign_pos _ G) | rewrite (qsign_zero _ E)]; lra.
Qed.
Lemma qsign_scale v p : 0 < p -> qsign (qsign v * p) = qsign v.
Proof.
  intros Hp. destruct (Q_dec v 0) as [[L|G]|E].
  - rewrite (qsign_neg _ L). apply qsign_neg. lra.
  - rewrite (qsign_pos _ G). apply qsign_pos. lra.
  - rewrite (qsign_zero _ E). apply qsign_zero. ring.
Qed.

(* the signed square root: with vk = sign(vki) K, K = sqrt(vki^2 + vkr^2) > 0, on any positive scale c the impl's
   sign(z) sqrt(z^2 - r^2) for z = vk c, r = vkr c is vki c *)
Lemma signed_sqrt vk vkr vki K c z r ox :
  vk == qsign vki * K -> 0 < K -> K * K == vki * vki + vkr * vkr -> ~ vki == 0 -> 0 < c ->
  z == vk * c -> r == vkr * c -> 0 <= ox -> ox * ox == z * z - r * r ->
  qsign z * ox == vki * c.
Proof.
  intros Hvk HK HKK Hvki Hc Ez Er Hox Hox2. pose proof (qsign_sq _ Hvki) as S2.
  assert (Eo : ox == qsign vki * vki * c).
  { apply sqrt_unique; [exact Hox | apply Qmult_le_0_compat; [apply qsign_abs | lra] |].
    rewrite Hox2, Ez, Er, Hvk.
    transitivity (((qsign vki * qsign vki) * (K * K) - vkr * vkr) * (c * c)); [ring|].
    rewrite HKK. transitivity ((qsign vki * qsign vki) * (vki * vki * (c * c))); [rewrite S2; ring | ring]. }
  assert (Es : qsign z = qsign vki).
  { transitivity (qsign (qsign vki * (K * c))); [apply qsign_proper; rewrite Ez, Hvk; ring|].
    apply qsign_scale. apply Qmult_lt_0_compat; assumption. }
  rewrite Es, Eo. transitivity ((qsign vki * qsign vki) * (vki * c)); [ring | rewrite S2; ring].
Qed.

(* one equivalent transformer with a signed vk:
   vk = sign(vki) * K, K = sqrt(vki^2 + vkr^2): the series impedance of _calc_r_x_from_dataframe is
   (vkr + j vki)/100 * k,  k = (vn_lv/V_N)^2 * S_N / sn_trafo / parallel — the sign of vki survives *)
Lemma trafo_rx_signed : forall sn t o vnl vnlbus vki K,
  t_vk t == qsign vki * K -> 0 <= K -> K * K == vki * vki + t_vkr t * t_vkr t -> ~ t_vk t == 0 ->
  o_x o * o_x o == fst (trafo_zr sn t vnl vnlbus) * fst (trafo_zr sn t vnl vnlbus)
                   - snd (trafo_zr sn t vnl vnlbus) * snd (trafo_zr sn t vnl vnlbus) ->
  0 <= o_x o -> 0 < sn -> 0 < t_sn t -> 0 < t_par t -> ~ vnl == 0 -> ~ vnlbus == 0 ->
  let k := (vnl / vnlbus) * (vnl / vnlbus) * sn / t_sn t / t_par t in
  fst (trafo_rx sn t o vnl vnlbus) == t_vkr t / 100 * k /\ snd (trafo_rx sn t o vnl vnlbus) == vki / 100 * k.
Proof.
  intros sn t o vnl vnlbus vki K Hvk HK HKK Hnz. unfold trafo_rx, trafo_zr, qsq. cbn [fst snd].
  set (z := qmul (qdiv (qdiv (t_vk t) 100) (t_sn t)) (qmul (qmul (qdiv vnl vnlbus) (qdiv vnl vnlbus)) sn)).
  set (r := qmul (qdiv (qdiv (t_vkr t) 100) (t_sn t)) (qmul (qmul (qdiv vnl vnlbus) (qdiv vnl vnlbus)) sn)).
  intros Hx Hx0 Hsn Hts Hp Hv Hvb.
  pose proof (pos_nz _ Hts) as Hts'. pose proof (pos_nz _ Hp) as Hp'.
  set (c := (vnl / vnlbus) * (vnl / vnlbus) * sn / t_sn t / 100).
  assert (Hc : 0 < c).
  { assert (Hq : ~ vnl / vnlbus == 0) by (apply div_nz; assumption).
    do 2 (apply Qdiv_pos; [|assumption || reflexivity]). apply Qmult_lt_0_compat; [|exact Hsn].
    destruct (Qle_lt_or_eq _ _ (sq_nonneg (vnl / vnlbus))) as [L|E]; [exact L|].
    exfalso. apply (mul_nz _ _ Hq Hq). symmetry. exact E. }
  assert (Ez : z == t_vk t * c) by (unfold z, c; qstrip; field; split; assumption).
  assert (Er : r == t_vkr t * c) by (unfold r, c; qstrip; field; split; assumption).
  assert (Hvki : ~ vki == 0) by (intro E; apply Hnz; rewrite Hvk, (qsign_zero _ E); ring).
  assert (HKpos : 0 < K).
  { apply Qle_lt_or_eq in HK. destruct HK as [L|E]; [exact L|]. exfalso. apply Hnz. rewrite Hvk, <- E. ring. }
  pose proof (signed_sqrt _ _ _ _ _ _ _ _ Hvk HKpos HKK Hvki Hc Ez Er Hx0 Hx) as Ex.
  clearbody z r. cbn zeta. split; qstrip.
  - rewrite Er. unfold c. field. repeat split; assumption.
  - rewrite Ex. unfold c. field. repeat split; assumption.
Qed.

(* delta -> star of the three pairwise values (wye_delta_vector :1514): referred to the common rating s0 the star values add
   up pairwise to the delta values; q / p is the common factor that takes percent to per unit on the system base *)
Lemma wye_delta_vec_sums : forall z0 z1 z2 s0 s1 s2 p q, ~ s0 == 0 -> ~ s1 == 0 -> ~ s2 == 0 -> ~ p == 0 ->
  let '(a, b, c) := wye_delta_vec (z0, z1, z2) (s0, s1, s2) in
  a / p * q / s0 + b / p * q / s1 == z0 / p * q / s0 /\ b / p * q / s1 + c / p * q / s2 == z1 / p * q / s0 /\
  a / p * q / s0 + c / p * q / s2 == z2 / p * q / s0.
Proof.
  intros z0 z1 z2 s0 s1 s2 p q H0 H1 H2 Hp. unfold wye_delta_vec.
  repeat split; qstrip; field; repeat split; assumption.
Qed.

(* SPEC (doc/elements/trafo3w.rst):
   vk_hv_percent / vkr_hv_percent: short-circuit voltage hv-mv relative to min(sn_hv, sn_mv); vk_mv: mv-lv relative to
   min(sn_mv, sn_lv); vk_lv: hv-lv relative to min(sn_hv, sn_lv).  On the system base S_N = sn the pairwise
   short-circuit impedance (modulus) / resistance of a pair is  v/100 * sn / min(ratings). *)
Definition sc_pair (v smin sn : Q) : Q := v / 100 * sn / smin.

(* one pair of star branches p, q: their r and x add up to the delta values of the pair on the common rating s0
   (qmul s0 (qdiv k m) as z_br_to_bus writes them: k from vk, kr from vkr, i = sqrt of the difference of their squares),
   which are the documented pairwise resistance and impedance on the system base *)
Lemma star_pair rp rq xp xq i k kr m s0 sn : 0 < s0 -> 0 < sn -> ~ m == 0 ->
  0 <= i -> i * i == qmul s0 (qdiv k m) * qmul s0 (qdiv k m) - qmul s0 (qdiv kr m) * qmul s0 (qdiv kr m) ->
  rp + rq == qmul s0 (qdiv kr m) / 100 * sn / s0 -> xp + xq == i / 100 * sn / s0 ->
  rp + rq == sc_pair kr m sn /\
  (0 <= xp + xq /\ (rp + rq) * (rp + rq) + (xp + xq) * (xp + xq) == sc_pair k m sn * sc_pair k m sn).
Proof.
  intros H0 Hsn Hm Hi Hii Hr Hx. pose proof (pos_nz _ H0) as H0'. qstrip_in Hii. qstrip_in Hr.
  rewrite Hr, Hx. unfold sc_pair. split; [field; split; assumption|]. split.
  - apply Qle_shift_div_l; [exact H0|]. rewrite Qmult_0_l.
    apply Qmult_le_0_compat; [|lra]. apply Qle_shift_div_l; [reflexivity|]. rewrite Qmult_0_l. exact Hi.
  - transitivity ((s0 * (kr / m) * (s0 * (kr / m)) + i * i) * ((sn / 100 / s0) * (sn / 100 / s0))); [field; split; assumption|].
    rewrite Hii. field. split; assumption.
Qed.

(* hypotheses on the square-root oracles of the conversion (validated on every case by Run.t3_resids) *)
Definition t3_orc_ok (w : trafo3w) (o : t3_orc) : Prop :=
  let '(vk_d, vkr_d) := t3_vk_delta w in
  let '(a, b, c) := vk_d in let '(ar, br, cr) := vkr_d in let '(i0, i1, i2) := o_vki_d o in
  let '(r0, r1, r2) := wye_delta_vec vkr_d (w_sn w) in
  let '(j0, j1, j2) := wye_delta_vec (o_vki_d o) (w_sn w) in
  let '(k0, k1, k2) := o_vk2 o in
  (0 <= i0 /\ i0 * i0 == a * a - ar * ar) /\ (0 <= i1 /\ i1 * i1 == b * b - br * br) /\ (0 <= i2 /\ i2 * i2 == c * c - cr * cr) /\
  (0 <= k0 /\ k0 * k0 == j0 * j0 + r0 * r0) /\ (0 <= k1 /\ k1 * k1 == j1 * j1 + r1 * r1) /\ (0 <= k2 /\ k2 * k2 == j2 * j2 + r2 * r2).
(* the sqrt oracle of _calc_r_x_from_dataframe for one equivalent transformer *)
Definition x_orc_ok (sn : Q) (t : trafo) (o : trafo_orc) (vnl vnlbus : Q) : Prop :=
  0 <= o_x o /\
  o_x o * o_x o == fst (trafo_zr sn t vnl vnlbus) * fst (trafo_zr sn t vnl vnlbus)
                   - snd (trafo_zr sn t vnl vnlbus) * snd (trafo_zr sn t vnl vnlbus).

(* per-unit series impedance of the equivalent transformer of block blk, divided by the off-nominal factor
   (vn_lv / V_N,lv-bus)^2 of that block (i.e. at nominal ratio), as computed by the unchanged 2W pipeline *)
Definition star_r (sn : Q) (w : trafo3w) (vk2 vkr2 : Q * Q * Q) (blk : nat) (o : trafo_orc) (vnl vnlbus : Q) : Q :=
  fst (trafo_rx sn (t3_trafo w vk2 vkr2 blk) o vnl vnlbus) / ((vnl / vnlbus) * (vnl / vnlbus)).
Definition star_x (sn : Q) (w : trafo3w) (vk2 vkr2 : Q * Q * Q) (blk : nat) (o : trafo_orc) (vnl vnlbus : Q) : Q :=
  snd (trafo_rx sn (t3_trafo w vk2 vkr2 blk) o vnl vnlbus) / ((vnl / vnlbus) * (vnl / vnlbus)).

Lemma qmul_sign_nz s k : qeqb (qmul s k) 0 = false -> ~ qmul s k == 0.
Proof. apply qeqb_false. Qed.

(* one block whose vk is sign(j) k, k = sqrt(j^2 + vkr^2): r and (signed) x of the equivalent transformer *)
Lemma star_block_signed sn w vk2 vkr2 blk o vnl vnlbus j k :
  x_orc_ok sn (t3_trafo w vk2 vkr2 blk) o vnl vnlbus ->
  pick blk vk2 = qmul (qsign j) k -> 0 <= k -> k * k == j * j + pick blk vkr2 * pick blk vkr2 -> ~ qmul (qsign j) k == 0 ->
  0 < sn -> 0 < pick blk (w_sn w) -> ~ vnl == 0 -> ~ vnlbus == 0 ->
  star_r sn w vk2 vkr2 blk o vnl vnlbus == pick blk vkr2 / 100 * sn / pick blk (w_sn w) /\
  star_x sn w vk2 vkr2 blk o vnl vnlbus == j / 100 * sn / pick blk (w_sn w).
Proof.
  intros [Hx0 Hx] Evk Hk Hkk Hnz Hsn Hs Hv Hvb.
  assert (Hqq : ~ (vnl / vnlbus) * (vnl / vnlbus) == 0) by (apply mul_nz; apply div_nz; assumption).
  pose proof (pos_nz _ Hsn) as Hsn'. pose proof (pos_nz _ Hs) as Hs'.
  destruct (trafo_rx_signed sn (t3_trafo w vk2 vkr2 blk) o vnl vnlbus j k) as [R X];
    cbn [t3_trafo t_vk t_vkr t_sn t_par]; rewrite ?Evk; try assumption; try reflexivity.
  { qstrip. reflexivity. }
  cbn [t3_trafo t_vk t_vkr t_sn t_par] in R, X. unfold star_r, star_x. rewrite R, X. split; field; repeat split; assumption.
Qed.

(* the three blocks: block blk takes its pair (j, k) from the two oracle triples *)
Lemma star_block : forall sn w o3 vk2 vkr2 blk o vnl vnlbus,
  (blk < 3)%nat -> t3_vk w o3 = Ok (vk2, vkr2) -> t3_orc_ok w o3 ->
  x_orc_ok sn (t3_trafo w vk2 vkr2 blk) o vnl vnlbus ->
  0 < sn -> 0 < pick blk (w_sn w) -> ~ vnl == 0 -> ~ vnlbus == 0 ->
  star_r sn w vk2 vkr2 blk o vnl vnlbus == pick blk (wye_delta_vec (z_br_to_bus (w_vkr w) (w_sn w)) (w_sn w)) / 100 * sn / pick blk (w_sn w) /\
  star_x sn w vk2 vkr2 blk o vnl vnlbus == pick blk (wye_delta_vec (o_vki_d o3) (w_sn w)) / 100 * sn / pick blk (w_sn w).
Proof.
  intros sn w o3 vk2 vkr2 blk o vnl vnlbus Hblk Hvk Horc Hox Hsn Hs Hv Hvb.
  unfold t3_vk in Hvk. unfold t3_orc_ok, t3_vk_delta in Horc.
  destruct (z_br_to_bus (w_vk w) (w_sn w)) as [[a b] c].
  destruct (z_br_to_bus (w_vkr w) (w_sn w)) as [[ar br] cr].
  destruct (o_vki_d o3) as [[i0 i1] i2].
  destruct (wye_delta_vec (ar, br, cr) (w_sn w)) as [[r0 r1] r2].
  destruct (wye_delta_vec (i0, i1, i2) (w_sn w)) as [[j0 j1] j2].
  destruct (o_vk2 o3) as [[k0 k1] k2].
  destruct Horc as (_ & _ & _ & [Hk0 Hk0s] & [Hk1 Hk1s] & [Hk2 Hk2s]).
  destruct (qeqb (qmul (qsign j0) k0) 0) eqn:E0; [discriminate|].
  destruct (qeqb (qmul (qsign j1) k1) 0) eqn:E1; [discriminate|].
  destruct (qeqb (qmul (qsign j2) k2) 0) eqn:E2; [discriminate|].
  cbn [orb] in Hvk. injection Hvk as <- <-.
  apply qeqb_false in E0. apply qeqb_false in E1. apply qeqb_false in E2.
  destruct blk as [|[|[|blk]]]; [apply (star_block_signed _ _ _ _ _ _ _ _ j0 k0) | apply (star_block_signed _ _ _ _ _ _ _ _ j1 k1) |
                                 apply (star_block_signed _ _ _ _ _ _ _ _ j2 k2) | lia]; reflexivity || assumption.
Qed.

(* the magnetising admittance of every block but the loss side is zero: its branch row is a pure series impedance *)
Lemma t3_other_blocks_no_shunt : forall sn w vk2 vkr2 blk o vnl vnlbus,
  w_loss w <> blk -> o_bm o == 0 ->
  fst (trafo_gb sn (t3_trafo w vk2 vkr2 blk) o vnl vnlbus) == 0 /\ snd (trafo_gb sn (t3_trafo w vk2 vkr2 blk) o vnl vnlbus) == 0.
Proof.
  intros sn w vk2 vkr2 blk o vnl vnlbus Hl Ho. unfold trafo_gb, t3_trafo. cbn [t_pfe t_i0 t_vnl0 t_par fst snd].
  apply Nat.eqb_neq in Hl. rewrite Hl. split; qstrip; [|rewrite Ho]; unfold Qdiv; ring.
Qed.
(* and the clipped sqrt oracle of such a block is forced to 0 by its defining equation *)
Lemma t3_other_blocks_bm_zero : forall w vk2 vkr2 blk o,
  w_loss w <> blk -> o_bm o * o_bm o == qmax (trafo_ym2 (t3_trafo w vk2 vkr2 blk)) 0 -> o_bm o == 0.
Proof.
  intros w vk2 vkr2 blk o Hl H. unfold trafo_ym2, t3_trafo in H. cbn [t_pfe t_i0 t_sn] in H.
  apply Nat.eqb_neq in Hl. rewrite Hl in H.
  assert (E : qmax (qsub (qsq (qmul (qdiv 0 100) (pick blk (w_sn w)))) (qsq (qmul 0 (1 # 1000)))) 0 == 0).
  { unfold qmax. destruct (qltb _ 0); [reflexivity|]. unfold qsq. qstrip. unfold Qdiv. ring. }
  rewrite E in H. nra.
Qed.

(* SPEC star circuit in per unit: block h between the hv terminal (behind the ideal transformer n_h at the terminal) and
   the star point a; blocks m, l between the star point (behind the ideal transformers n_m, n_l at the star side) and
   the mv / lv terminals; every block a pi two-port (series impedance z_k, shunts yf_k/2, yt_k/2 at its two ends; both zero
   except on the loss side; yf = yt for trafo_model "pi", the pi equivalent of the T circuit for trafo_model "t", see
   C02_wye_delta_two_port).  Currents flowing INTO the block at its two ends: *)
Definition blk_I (z yf yt n vf vt : C) : C * C :=
  let vf' := Cdiv vf n in
  (Cadd (Cmul (Cscale (1 # 2) yf) vf') (Cmul (Cinv z) (Csub vf' vt)),
   Cadd (Cmul (Cscale (1 # 2) yt) vt) (Cmul (Cinv z) (Csub vt vf'))).
(* the block of a branch row *)
Definition row_I (br : brow) (e vf vt : C) : C * C :=
  blk_I (mkC (b_r br) (b_x br)) (mkC (b_g br) (b_b br)) (mkC (b_g br + b_ga br) (b_b br + b_ba br)) (Cscale (b_tap br) e) vf vt.
(* terminal powers of the star circuit [MVA]: S_hv at the hv terminal, S_mv, S_lv at the mv / lv terminals *)
Definition star_S (sn : Q) (rh rm rl : brow) (eh em el vh va vm vl : C) : C * C * C :=
  (Cscale sn (Cmul (Cdiv vh (Cscale (b_tap rh) eh)) (Cconj (fst (row_I rh eh vh va)))),
   Cscale sn (Cmul vm (Cconj (snd (row_I rm em va vm)))),
   Cscale sn (Cmul vl (Cconj (snd (row_I rl el va vl))))).

(* rows of the transformer pipeline: in service, symmetric series impedance (pi and T model), valid tap, |e| = 1 *)
Definition row_sym_ok (br : brow) (e : C) : Prop :=
  b_stat br = true /\ b_ra br == 0 /\ b_xa br == 0 /\ ~ (b_r br) * (b_r br) + (b_x br) * (b_x br) == 0 /\ ~ b_tap br == 0 /\ re e * re e + im e * im e == 1.

Lemma blk_flows : forall br e vf vt sn, row_sym_ok br e ->
  let i := row_I br e vf vt in
  Ceq2 (flows (stamps_core br e) vf vt sn)
       (Cscale sn (Cmul (Cdiv vf (Cscale (b_tap br) e)) (Cconj (fst i))), Cscale sn (Cmul vt (Cconj (snd i)))).
Proof.
  intros br e vf vt sn (Hs & Hra & Hxa & Hz & Ht & He).
  exact (flows_pi_circuit br e vf vt sn Hs Hra Hxa Ht He).
Qed.
