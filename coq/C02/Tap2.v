(* C02 — the second tap changer (tap2_* columns; loop "for t in ('', '2')" of _calc_tap_from_dataframe,
   build_branch.py:604-704): the second pass runs the ordinary tap computation on the vectors left by the first one.
   Here: the documented rule of one step (doc/elements/trafo.rst:166-230) — the rated-voltage phasor of the tap side is
   multiplied by n_tap = 1 + (tap_pos - tap_neutral) * tap_step_percent/100 * e^{j phi} (modulus -> rated voltage,
   argument -> phase shift), an ideal phase shifter adds its angle — and that one pass of the model is one such step;
   the composition of two passes is C02_tap2_composition in Properties/C02.v. *)
From Coq Require Import QArith.
From PPV Require Import Base.QN Base.QC C31.Model C02.Model C02.Proofs.
Open Scope Q_scope.

Definition tap_steps (tc : tapc) : Q :=                   (* (tap_pos - tap_neutral) * tap_step_percent / 100, NaN -> 0 *)
  match tc_pct tc, tc_diff tc with Some p, Some d => p * d / 100 | _, _ => 0 end.
Definition tap_dir (tc : tapc) : Q := match tc_side tc with LV => -1 | _ => 1 end.
(* n_tap = 1 + steps * e^{j dir phi},  (c, s) = (cos phi, sin phi) *)
Definition tap_n (tc : tapc) (c s : Q) : C := mkC (1 + tap_steps tc * c) (tap_dir tc * (tap_steps tc * s)).
(* angle added by an ideal phase shifter (trafo.rst:216-230): diff * tap_step_degree, or 2 asin(diff * pct/100/2) (oracle) *)
Definition ideal_add (tc : tapc) (o : tap_orc) (d : Q) : Q :=
  match tc_deg tc with
  | Some g => if qeqb g 0 then tap_dir tc * o_asin o else tap_dir tc * d * g
  | None => tap_dir tc * o_asin o
  end.
(* one documented tap step from the state a = (vn_hv, vn_lv, shift) to b.  (ca, sa) = cos / sin of the added angle
   o_atan of a Ratio / Symmetrical changer: u' (ca + j sa) = u n_tap  says  u' = u |n_tap| and angle = arg n_tap *)
Definition step_doc (tc : tapc) (o : tap_orc) (ca sa : Q) (a b : Q * Q * Q) : Prop :=
  let '(vnh, vnl, sh) := a in let '(vnh', vnl', sh') := b in
  match tc_side tc, tc_type tc with
  | NoSide, _ | _, OtherT => vnh' = vnh /\ vnl' = vnl /\ sh' = sh
  | HV, Ideal | LV, Ideal => vnh' = vnh /\ vnl' = vnl /\ exists d, tc_diff tc = Some d /\ sh' == sh + ideal_add tc o d
  | HV, _ => Cscale vnh' (mkC ca sa) ==c Cscale vnh (tap_n tc (o_c o) (o_s o)) /\ vnl' = vnl /\ sh' == sh + o_atan o
  | LV, _ => Cscale vnl' (mkC ca sa) ==c Cscale vnl (tap_n tc (o_c o) (o_s o)) /\ vnh' = vnh /\ sh' == sh + o_atan o
  end.
(* hypotheses on the oracle values of one Ratio / Symmetrical step applied to rated voltages (vnh, vnl):
   o_vn = sqrt(X^2 + Y^2), (ca, sa) the unit vector along (X, Y) (= cos / sin of arctan(Y / X), X > 0),
   X + jY = u1 * n_tap *)
Definition orc_ok (tc : tapc) (o : tap_orc) (ca sa : Q) (vnh vnl : Q) : Prop :=
  let u1 := match tc_side tc with HV => vnh | _ => vnl end in
  let X := u1 * re (tap_n tc (o_c o) (o_s o)) in let Y := u1 * im (tap_n tc (o_c o) (o_s o)) in
  o_vn o * o_vn o == X * X + Y * Y /\ ca * ca + sa * sa == 1 /\ sa * X == ca * Y /\ 0 < X /\ 0 < o_vn o /\ 0 < ca.
(* well-formed tap changer: no NaN that the impl would turn into a NaN shift, no ideal shifter with both step values *)
Definition tap_wf (tc : tapc) : Prop :=
  match tc_side tc, tc_type tc with
  | NoSide, _ | _, OtherT | _, Ratio | _, Symmetrical => True
  | _, Ideal => exists d, tc_diff tc = Some d /\
                ((exists g, tc_deg tc = Some g /\ ~ g == 0 /\ rn (tc_pct tc) == 0) \/
                 (rn (tc_deg tc) == 0 /\ exists p, tc_pct tc = Some p))
  end.

(* one pass of the model from (vnh, vnl, sh) returns a state, and that state is one documented step away *)
Definition step_ok (tc : tapc) (o : tap_orc) (ca sa vnh vnl sh : Q) : Prop :=
  exists vnh' vnl' sh', tap_notable tc o vnh vnl sh = Ok (vnh', vnl', Some sh') /\
    (orc_ok tc o ca sa vnh vnl -> step_doc tc o ca sa (vnh, vnl, sh) (vnh', vnl', sh')).

(* no tap side or an unknown type: the state is returned as it is *)
Lemma step_none tc o ca sa vnh vnl sh : tc_side tc = NoSide \/ tc_type tc = OtherT -> step_ok tc o ca sa vnh vnl sh.
Proof.
  intros H. exists vnh, vnl, sh. unfold tap_notable, step_doc.
  destruct (tc_side tc), (tc_type tc), H as [H|H]; try discriminate H; (split; [reflexivity | intros _; repeat split]).
Qed.

(* Ratio / Symmetrical on either side: the oracle values are the polar form of u1 n_tap (tap_polar_documented) *)
Lemma step_ratio tc o ca sa vnh vnl sh :
  tc_side tc <> NoSide -> tc_type tc = Ratio \/ tc_type tc = Symmetrical -> step_ok tc o ca sa vnh vnl sh.
Proof.
  intros Hs Ht. unfold step_ok, tap_notable, step_doc, orc_ok.
  destruct (tc_side tc); [| | contradiction]; destruct Ht as [-> | ->].
  all: do 3 eexists; split; [reflexivity|]; intros (Hv & Hu & Ht & HX & Hvn & Hca).
  all: destruct (tap_polar_documented _ _ _ _ _ Hv Hu Ht HX Hvn Hca) as [E1 E2].
  all: split; [|split; [reflexivity | qstrip; reflexivity]]; cstrip; [rewrite E1 | rewrite E2]; reflexivity.
Qed.

(* ideal phase shifter on either side, with tap_step_degree set or with tap_step_percent set *)
Lemma step_ideal tc o ca sa vnh vnl sh :
  tc_side tc <> NoSide -> tc_type tc = Ideal -> tap_wf tc -> step_ok tc o ca sa vnh vnl sh.
Proof.
  intros Hs Ht Hwf. unfold tap_wf in Hwf. unfold step_ok, tap_notable, step_doc, ideal_add, tap_dir. rewrite Ht in *.
  assert (W : exists d, tc_diff tc = Some d /\
                ((exists g, tc_deg tc = Some g /\ ~ g == 0 /\ rn (tc_pct tc) == 0) \/ (rn (tc_deg tc) == 0 /\ exists p, tc_pct tc = Some p)))
    by (destruct (tc_side tc); [exact Hwf | exact Hwf | contradiction]).
  destruct W as (d & Hd & [(g & Hg & Hg0 & Hp) | (Hg0 & p & Hp)]).
  - (* tap_step_degree set: diff * tap_step_degree *)
    rewrite Hg, Hd. cbn [rn]. rewrite (qeqb_ne _ _ Hg0). apply qeqb_eq in Hp. rewrite Hp. cbn [negb andb].
    destruct (tc_side tc); [| | contradiction].
    all: do 3 eexists; (split; [reflexivity|]); intros _; repeat split; exists d; (split; [reflexivity|]); qstrip; ring.
  - (* tap_step_percent set, tap_step_degree 0 or NaN: the arcsin oracle *)
    apply qeqb_eq in Hg0. rewrite Hg0, Hd, Hp. cbn [negb andb].
    destruct (tc_side tc); [| | contradiction].
    all: do 3 eexists; (split; [reflexivity|]); intros _; repeat split; exists d; (split; [reflexivity|]).
    all: destruct (tc_deg tc) as [g|]; cbn [rn] in Hg0; [rewrite Hg0|]; qstrip; ring.
Qed.

Lemma side_none_dec (s : side) : s = NoSide \/ s <> NoSide.
Proof. destruct s; [right; discriminate | right; discriminate | left; reflexivity]. Qed.

Lemma step_sound : forall tc o ca sa vnh vnl sh, tap_wf tc ->
  exists vnh' vnl' sh', tap_notable tc o vnh vnl sh = Ok (vnh', vnl', Some sh') /\
    (orc_ok tc o ca sa vnh vnl -> step_doc tc o ca sa (vnh, vnl, sh) (vnh', vnl', sh')).
Proof.
  intros tc o ca sa vnh vnl sh Hwf.
  destruct (side_none_dec (tc_side tc)) as [Hs|Hs]; [apply step_none; left; exact Hs|].
  destruct (tc_type tc) eqn:Et.
  - apply step_ratio; [exact Hs | left; exact Et].
  - apply step_ratio; [exact Hs | right; exact Et].
  - apply step_ideal; assumption.
  - apply step_none. right. exact Et.
Qed.

(* a changer whose step is |t| percent at 0 degree (t < 0) or at -180 degree (t >= 0) makes the step -t percent *)
Lemma tap_n_signed tc t c s d :
  tc_pct tc = Some (qabs' t) -> tc_diff tc = Some d -> (c == if qltb t 0 then 1 else -1) /\ s == 0 ->
  tap_n tc c s ==c mkC (1 - t * d / 100) 0.
Proof.
  intros Hp Hd [Hc Hs]. unfold tap_n, tap_steps. rewrite Hp, Hd. unfold qabs'.
  destruct (qltb t 0); cbv iota in Hc |- *; cstrip; rewrite ?Hc, ?Hs; field.
Qed.

(* the order of two changers on the same side does not matter for the documented result: n_tap1 n_tap2 = n_tap2 n_tap1,
   as for any two complex numbers *)
Lemma tap_n_commute : forall a b : C, Cmul a b ==c Cmul b a.
Proof. exact Cmul_comm. Qed.
