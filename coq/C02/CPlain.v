(* The Proper instances of re, im, Cinv and Cdiv, as in Base/QC.v; no file imports this one. *)
From Coq Require Import QArith Morphisms.
From PPV Require Import Base.QC.

Global Instance re_proper : Proper (Ceq ==> Qeq) re. Proof. exact QC.re_proper. Qed.
Global Instance im_proper : Proper (Ceq ==> Qeq) im. Proof. exact QC.im_proper. Qed.
Global Instance Cinv_proper : Proper (Ceq ==> Ceq) Cinv.
Proof. exact QC.Cinv_proper. Qed.
Global Instance Cdiv_proper : Proper (Ceq ==> Ceq ==> Ceq) Cdiv.
Proof. exact QC.Cdiv_proper. Qed.
