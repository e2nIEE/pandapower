(* C02 — proofs about the branch model (C02/Model.v): the per-unit pipeline of build_branch.py + makeYbus + pfsoln
   equals the documented equivalent circuits in physical units. *)
From Coq Require Import QArith Lqa Setoid Morphisms.
From PPV Require Import Base.QN Base.QC C31.Model C02.Model.
Open Scope Q_scope.

Lemma mul_nz a b : ~ a == 0 -> ~ b == 0 -> ~ a * b == 0.
Proof. intros Ha Hb K. apply Qmult_integral in K. tauto. Qed.
Lemma div_nz a b : ~ a == 0 -> ~ b == 0 -> ~ a / b == 0.
Proof. intros Ha Hb. unfold Qdiv. apply mul_nz; [exact Ha|]. intro K. apply Hb.
  rewrite <- (Qinv_involutive b), K. reflexivity. Qed.
Lemma pos_nz x : 0 < x -> ~ x == 0.
Proof. intros H K. rewrite K in H. apply (Qlt_irrefl 0 H). Qed.
Lemma norm_scale_nz k r x : ~ k == 0 -> ~ r * r + x * x == 0 -> ~ (k * r) * (k * r) + (k * x) * (k * x) == 0.
Proof.
  intros Hk Hz K. apply Hz. apply (Qmult_integral_l (k * k)); [apply mul_nz; assumption|].
  rewrite <- K. ring.
Qed.
Lemma czero_false z : ~ re z * re z + im z * im z == 0 -> czero z = false.
Proof.
  intros H. unfold czero. destruct (qeqb (re z) 0) eqn:E1; [|reflexivity].
  destruct (qeqb (im z) 0) eqn:E2; [|reflexivity].
  apply qeqb_eq in E1. apply qeqb_eq in E2. exfalso. apply H. rewrite E1, E2. ring.
Qed.

Definition Ceq2 (a b : C * C) : Prop := fst a ==c fst b /\ snd a ==c snd b.
Global Instance Ceq2_equiv : Equivalence Ceq2.
Proof.
  split.
  - intros a; split; reflexivity.
  - intros a b [H1 H2]; split; symmetry; assumption.
  - intros a b c [H1 H2] [H3 H4]; split; etransitivity; eassumption.
Qed.

Ltac brow_cbn := cbn [b_r b_x b_g b_b b_ra b_xa b_ga b_ba b_tap b_shift b_stat b_rate fst snd].

Lemma mkC_qadd a b c d : mkC (qadd a b) (qadd c d) ==c mkC (a + b) (c + d).
Proof. cstrip; reflexivity. Qed.
Lemma Cconj_nz n : ~ n ==c C0 -> ~ Cconj n ==c C0.
Proof. intros H K. apply H. revert K. cunfold. qstrip. intros [K1 K2]. split; lra. Qed.
Lemma cnorm2_nz z : ~ cnorm2 z == 0 -> ~ z ==c C0.
Proof. intros H [K1 K2]. apply H. cbn [C0 re im] in K1, K2. unfold cnorm2. qstrip. rewrite K1, K2. ring. Qed.
Lemma Cdiv_1 v : Cdiv v (Cscale 1 C1) ==c v.
Proof. cstrip; field; discriminate. Qed.
Lemma Cscale_pair k (a b : C * C) : Ceq2 a b -> Ceq2 (Cscale k (fst a), Cscale k (snd a)) (Cscale k (fst b), Cscale k (snd b)).
Proof. intros [H1 H2]. split; cbn [fst snd]; apply Cscale_proper; try reflexivity; assumption. Qed.

(* the four stamps of makeYbus are an ideal transformer with complex ratio n = TAP * e^{j SHIFT} at the from
   side in series with a pi two-port (series admittances ysf / yst seen from the two ends, shunts at both ends) *)
Definition twoport_I (ysf yst yshf ysht n vf vt : C) : C * C :=
  let vf' := Cdiv vf n in                              (* voltage behind the ideal transformer *)
  (Cdiv (Csub (Cmul (Cadd ysf yshf) vf') (Cmul ysf vt)) (Cconj n),      (* I_f = I_f' / conj(n) *)
   Csub (Cmul (Cadd yst ysht) vt) (Cmul yst vf')).

(* the stamp formulas of makeYbus.branch_vectors on any admittances: an identity of the complex field.  The primed
   admittances are those the model computes (with the factor BR_STATUS = 1 and normalised sums) *)
Lemma twoport_stamps ysf yst yshf ysht ysf' yst' yshf' ysht' n vf vt :
  ~ n ==c C0 -> ysf' ==c ysf -> yst' ==c yst -> yshf' ==c yshf -> ysht' ==c ysht ->
  Ceq2 (Cadd (Cmul (Cdiv (Cadd ysf' yshf') (Cmul n (Cconj n))) vf) (Cmul (Copp (Cdiv ysf' (Cconj n))) vt),
        Cadd (Cmul (Copp (Cdiv yst' n)) vf) (Cmul (Cadd yst' ysht') vt))
       (twoport_I ysf yst yshf ysht n vf vt).
Proof.
  intros Hn E1 E2 E3 E4. pose proof (Cconj_nz n Hn) as Hc.
  unfold twoport_I, Ceq2. cbn [fst snd]. rewrite E1, E2, E3, E4. split; field; auto.
Qed.

Lemma tap_unit_nz tap er ei : ~ tap == 0 -> er * er + ei * ei == 1 ->
  ~ tap * er * (tap * er) + tap * ei * (tap * ei) == 0.
Proof.
  intros Ht He K. apply Ht. assert (K2 : tap * tap * (er * er + ei * ei) == 0) by (rewrite <- K; ring).
  rewrite He in K2. nra.
Qed.
Lemma tap_nz tap e : ~ tap == 0 -> re e * re e + im e * im e == 1 -> ~ Cscale tap e ==c C0.
Proof.
  intros Ht He. apply Cnz_norm. cbn [Cscale re im]. intro K. apply (tap_unit_nz tap (re e) (im e) Ht He).
  rewrite <- K. qstrip. reflexivity.
Qed.

Lemma stamps_twoport : forall br e vf vt,
  b_stat br = true -> ~ b_tap br == 0 -> re e * re e + im e * im e == 1 ->
  let '(yff, yft, ytf, ytt) := stamps_core br e in
  Ceq2 (Cadd (Cmul yff vf) (Cmul yft vt), Cadd (Cmul ytf vf) (Cmul ytt vt))
       (twoport_I (Cinv (mkC (b_r br) (b_x br)))
                  (Cinv (mkC (b_r br + b_ra br) (b_x br + b_xa br)))
                  (Cscale (1#2) (mkC (b_g br) (b_b br)))
                  (Cscale (1#2) (mkC (b_g br + b_ga br) (b_b br + b_ba br)))
                  (Cscale (b_tap br) e) vf vt).
Proof.
  intros br e vf vt Hs Ht He.
  unfold stamps_core. rewrite Hs, (qeqb_ne _ _ Ht). cbv beta iota zeta.
  apply twoport_stamps.
  - apply tap_nz; assumption.
  - apply Cscale_1.
  - rewrite Cscale_1, mkC_qadd. reflexivity.
  - rewrite Cscale_1. reflexivity.
  - rewrite Cscale_1, mkC_qadd. reflexivity.
Qed.

(* pi two-port in physical units (kV, Ohm, S, MVA): series impedances zf / zt seen from the two ends, shunt
   admittances yf / yt at the ends; three-phase complex powers flowing into the two-port *)
Definition pi_flows_phys2 (zf zt yf yt uf ut : C) : C * C :=
  (Cmul uf (Cconj (Csub (Cmul (Cadd (Cinv zf) yf) uf) (Cmul (Cinv zf) ut))),
   Cmul ut (Cconj (Csub (Cmul (Cadd (Cinv zt) yt) ut) (Cmul (Cinv zt) uf)))).

Global Instance pi_flows_phys2_proper :
  Proper (Ceq ==> Ceq ==> Ceq ==> Ceq ==> Ceq ==> Ceq ==> Ceq2) pi_flows_phys2.
Proof.
  intros a a' Ha b b' Hb c c' Hc d d' Hd e e' He f f' Hf. unfold pi_flows_phys2, Ceq2. cbn [fst snd].
  rewrite Ha, Hb, Hc, Hd, He, Hf. split; reflexivity.
Qed.

(* the ideal transformer is lossless: the power entering at the terminal, v conj(i / conj n), is the power
   (v / n) conj(i) entering the two-port behind it *)
Lemma ideal_trafo_power n v i : ~ n ==c C0 -> Cmul v (Cconj (Cdiv i (Cconj n))) ==c Cmul (Cdiv v n) (Cconj i).
Proof.
  intros Hn. apply Cnz_norm in Hn.
  cstrip; field; try exact Hn; intro K; apply Hn; rewrite <- K; ring.
Qed.

(* in per unit: the flows computed by makeYbus + pfsoln from a ppc branch row are S_N times those of the pi two-port of
   the row's impedances and admittances behind the ideal transformer TAP*e at the from side *)
Lemma flows_twoport br e vf vt sn :
  b_stat br = true -> ~ b_tap br == 0 -> re e * re e + im e * im e == 1 ->
  let s := pi_flows_phys2 (mkC (b_r br) (b_x br)) (mkC (b_r br + b_ra br) (b_x br + b_xa br))
                          (Cscale (1#2) (mkC (b_g br) (b_b br))) (Cscale (1#2) (mkC (b_g br + b_ga br) (b_b br + b_ba br)))
                          (Cdiv vf (Cscale (b_tap br) e)) vt in
  Ceq2 (flows (stamps_core br e) vf vt sn) (Cscale sn (fst s), Cscale sn (snd s)).
Proof.
  intros Hs Ht He. pose proof (stamps_twoport br e vf vt Hs Ht He) as I.
  destruct (stamps_core br e) as [[[yff yft] ytf] ytt]. destruct I as [I1 I2].
  unfold flows, twoport_I, pi_flows_phys2, Ceq2 in *. cbn [fst snd] in *. split; [rewrite I1 | rewrite I2].
  - apply Cscale_proper; [reflexivity|]. apply ideal_trafo_power. apply tap_nz; assumption.
  - reflexivity.
Qed.

(* one end of the pi two-port under a change of units: impedances times k, admittances over k, voltages times u
   multiply the power by u^2 / k *)
Lemma pi_side_scale k u z y v w : ~ k == 0 ->
  Cmul (Cscale u v) (Cconj (Csub (Cmul (Cadd (Cinv (Cscale k z)) (Cscale (1 / (2 * k)) y)) (Cscale u v))
                                 (Cmul (Cinv (Cscale k z)) (Cscale u w))))
  ==c Cscale (u * u / k) (Cmul v (Cconj (Csub (Cmul (Cadd (Cinv z) (Cscale (1 # 2) y)) v) (Cmul (Cinv z) w)))).
Proof.
  intros Hk. rewrite (Cscale_inv k z Hk). generalize (Cinv z). intros ys.
  cstrip; field; exact Hk.
Qed.

(* the flows computed by makeYbus + pfsoln from a ppc branch row are those of: an ideal transformer TAP*e at the
   from side, then the pi circuit with  Z = z_pu * baseR,  Y = y_pu / baseR,  baseR = base^2 / sn,
   base = BASE_KV of the to side, voltages in kV *)
Lemma pu_eq_phys : forall br e vf vt sn base,
  b_stat br = true ->
  ~ (b_r br) * (b_r br) + (b_x br) * (b_x br) == 0 ->
  ~ (b_r br + b_ra br) * (b_r br + b_ra br) + (b_x br + b_xa br) * (b_x br + b_xa br) == 0 ->
  ~ b_tap br == 0 -> re e * re e + im e * im e == 1 -> ~ sn == 0 -> ~ base == 0 ->
  Ceq2 (flows (stamps_core br e) vf vt sn)
       (pi_flows_phys2 (Cscale (base * base / sn) (mkC (b_r br) (b_x br)))
                       (Cscale (base * base / sn) (mkC (b_r br + b_ra br) (b_x br + b_xa br)))
                       (Cscale (1 / (2 * (base * base / sn))) (mkC (b_g br) (b_b br)))
                       (Cscale (1 / (2 * (base * base / sn))) (mkC (b_g br + b_ga br) (b_b br + b_ba br)))
                       (Cscale base (Cdiv vf (Cscale (b_tap br) e))) (Cscale base vt)).
Proof.
  intros br e vf vt sn base Hs Hz Hzt Ht He Hsn Hb.
  assert (Hk : ~ base * base / sn == 0) by (apply div_nz; [apply mul_nz|]; assumption).
  apply (proj2 (Cnz_norm (mkC _ _))) in Hz, Hzt.
  etransitivity; [apply flows_twoport; assumption|]. unfold pi_flows_phys2, Ceq2. cbn [fst snd].
  rewrite !pi_side_scale by assumption.
  split; apply Cscale_proper; try reflexivity; field; split; assumption.
Qed.

(* with stamps: the impl does not raise under the same side conditions *)
Lemma stamps_ok : forall br e,
  ~ (b_r br) * (b_r br) + (b_x br) * (b_x br) == 0 ->
  ~ (b_r br + b_ra br) * (b_r br + b_ra br) + (b_x br + b_xa br) * (b_x br + b_xa br) == 0 ->
  stamps br e = Ok (stamps_core br e).
Proof.
  intros br e H1 H2. unfold stamps.
  rewrite (czero_false (mkC (b_r br) (b_x br)) H1).
  rewrite czero_false; [reflexivity|]. cbn [re im]. unfold qadd. rewrite !Qred_correct. exact H2.
Qed.

(* the same for a row with symmetric parameters (lines, pi-model transformers): Z and Y/2 at both ends *)
Lemma pu_eq_phys_sym br e vf vt sn base :
  b_stat br = true -> b_ra br == 0 -> b_xa br == 0 -> b_ga br == 0 -> b_ba br == 0 ->
  ~ (b_r br) * (b_r br) + (b_x br) * (b_x br) == 0 ->
  ~ b_tap br == 0 -> re e * re e + im e * im e == 1 -> ~ sn == 0 -> ~ base == 0 ->
  let Z := Cscale (base * base / sn) (mkC (b_r br) (b_x br)) in
  let Y := Cscale (1 / (2 * (base * base / sn))) (mkC (b_g br) (b_b br)) in
  Ceq2 (flows (stamps_core br e) vf vt sn)
       (pi_flows_phys2 Z Z Y Y (Cscale base (Cdiv vf (Cscale (b_tap br) e))) (Cscale base vt)).
Proof.
  intros Hs Hra Hxa Hga Hba Hz Ht He Hsn Hb Z Y.
  assert (Ez : mkC (b_r br + b_ra br) (b_x br + b_xa br) ==c mkC (b_r br) (b_x br)).
  { split; cbn [re im]; [rewrite Hra | rewrite Hxa]; ring. }
  assert (Ey : mkC (b_g br + b_ga br) (b_b br + b_ba br) ==c mkC (b_g br) (b_b br)).
  { split; cbn [re im]; [rewrite Hga | rewrite Hba]; ring. }
  etransitivity; [apply (pu_eq_phys br e vf vt sn base); try assumption|].
  - destruct Ez as [E1 E2]. cbn [re im] in E1, E2. rewrite E1, E2. exact Hz.
  - apply pi_flows_phys2_proper; try reflexivity; apply Cscale_proper; try reflexivity; assumption.
Qed.

Lemma pi_flows_phys_sym z yf yt uf ut : Ceq2 (pi_flows_phys z yf yt uf ut) (pi_flows_phys2 z z yf yt uf ut).
Proof.
  unfold pi_flows_phys, pi_flows_phys2, Ceq2. cbn [fst snd].
  split; (apply Cmul_proper; [reflexivity|]); apply Cconj_proper; ring.
Qed.

(* terminal powers [MW, Mvar] computed through line_branch -> makeYbus stamps -> pfsoln flows from the per-unit
   voltages equal those of the documented pi circuit  Z = (r'+jx') l / parallel [Ohm],
   Y = (g' 1e-6 + j 2 pi f c' 1e-9) l parallel [S]  on the voltages in kV (U = v * BASE_KV); sn_mva cancels *)
Lemma line_pu_eq_physical : forall sn fhz pi sqrt3 base vnfrom l vf vt,
  l_in l = true -> ~ sn == 0 -> ~ base == 0 -> ~ l_par l == 0 ->
  ~ cnorm2 (line_z_phys l) == 0 ->
  Ceq2 (flows (stamps_core (line_branch sn fhz pi sqrt3 base vnfrom l) C1) vf vt sn)
       (line_flows_phys fhz pi l (Cscale base vf) (Cscale base vt)).
Proof.
  intros sn fhz pi sqrt3 base vnfrom l vf vt Hin Hsn Hb Hp Hz.
  set (row := line_branch sn fhz pi sqrt3 base vnfrom l).
  (* the row holds the documented Z over, and Y times, the base impedance base^2 / sn *)
  assert (Ez : Cscale (base * base / sn) (mkC (b_r row) (b_x row)) ==c line_z_phys l).
  { unfold row, line_branch, line_z_phys, qsq. cbn [b_r b_x].
    destruct (l_temp l) as [[al T]|]; cstrip; field; repeat split; assumption. }
  assert (Ey : Cscale (1 / (2 * (base * base / sn))) (mkC (b_g row) (b_b row)) ==c Cscale (1 # 2) (line_y_phys fhz pi l)).
  { unfold row, line_branch, line_y_phys, qsq. cbn [b_g b_b]. cstrip; field; repeat split; assumption. }
  assert (Hrow : ~ mkC (b_r row) (b_x row) ==c C0).
  { intro K. apply (cnorm2_nz _ Hz). rewrite <- Ez, K. cstrip; ring. }
  apply Cnz_norm in Hrow. cbn [re im] in Hrow.
  etransitivity; [apply (pu_eq_phys_sym row C1 vf vt sn base); try assumption; try reflexivity; discriminate|].
  unfold line_flows_phys. cbv zeta. rewrite pi_flows_phys_sym, Ez, Ey.
  apply pi_flows_phys2_proper; try reflexivity. apply Cscale_proper; [reflexivity | apply Cdiv_1].
Qed.

Lemma line_stamps_ok : forall sn fhz pi sqrt3 base vnfrom l e,
  ~ b_r (line_branch sn fhz pi sqrt3 base vnfrom l) * b_r (line_branch sn fhz pi sqrt3 base vnfrom l) +
    b_x (line_branch sn fhz pi sqrt3 base vnfrom l) * b_x (line_branch sn fhz pi sqrt3 base vnfrom l) == 0 ->
  stamps (line_branch sn fhz pi sqrt3 base vnfrom l) e = Ok (stamps_core (line_branch sn fhz pi sqrt3 base vnfrom l) e).
Proof.
  intros. apply stamps_ok; [assumption|]. unfold line_branch in *. brow_cbn. cbn [b_r b_x b_ra b_xa] in H.
  intro K. apply H. rewrite <- K. ring.
Qed.

Lemma trafo_branch_shape sn tm t o vnh vnl shift bh bl row :
  trafo_branch sn tm t o vnh vnl shift bh bl = Ok row ->
  b_ra row = 0 /\ b_xa row = 0 /\ b_stat row = t_in t /\ b_tap row = nominal_ratio vnh vnl bh bl /\ b_shift row = shift.
Proof.
  unfold trafo_branch.
  destruct (qleb (t_df t) 0); [discriminate|].
  destruct (trafo_rx sn t o vnl bl) as [r x]. destruct (trafo_gb sn t o vnl bl) as [g b].
  destruct tm.
  - destruct (wye_delta r x g b (t_rr t) (t_xr t)) as [[[[[[r' x'] g'] b'] ga] ba]|e]; [|discriminate].
    intros H. injection H as <-. repeat split.
  - intros H. injection H as <-. repeat split.
Qed.

(* doc/elements/impedance.rst:  z_ft = (rft_pu + j xft_pu) S_N / sn_mva,  z_tf likewise,  y_f = (gf + j bf) sn_mva / S_N;
   powers S = S_N v conj(i) *)
Definition imp_doc_flows (sn : Q) (i : imped) (vf vt : C) : C * C :=
  let k := sn / i_sn i in
  let s := pi_flows_phys2 (Cscale k (mkC (i_rft i) (i_xft i))) (Cscale k (mkC (i_rtf i) (i_xtf i)))
                          (Cscale (1 / k) (mkC (i_gf i) (i_bf i))) (Cscale (1 / k) (mkC (i_gt i) (i_bt i))) vf vt in
  (Cscale sn (fst s), Cscale sn (snd s)).
Lemma impedance_pu_eq_documented : forall sn i vf vt,
  i_in i = true -> ~ sn == 0 -> ~ i_sn i == 0 ->
  Ceq2 (flows (stamps_core (impedance_branch sn i) C1) vf vt sn) (imp_doc_flows sn i vf vt).
Proof.
  intros sn i vf vt Hin Hsn Hi.
  etransitivity; [apply flows_twoport; [exact Hin | discriminate | reflexivity]|].
  apply Cscale_pair. apply pi_flows_phys2_proper; [| | | | apply Cdiv_1 | reflexivity].
  all: unfold impedance_branch; brow_cbn; cstrip; field; repeat split; assumption.
Qed.

(* the pi parameters returned by _wye_delta carry the same two-port currents as the T circuit
   (za from the from terminal to the star point, zb from the to terminal to the star point, yc = g + jb at the star point) *)
Definition t_circuit_I (za zb yc vf vt : C) : C * C :=
  let vm := Cdiv (Cadd (Cdiv vf za) (Cdiv vt zb)) (Cadd (Cadd (Cinv za) (Cinv zb)) yc) in   (* star point voltage *)
  (Cdiv (Csub vf vm) za, Cdiv (Csub vt vm) zb).
Definition pi_circuit_I (r x g b ga ba : Q) (vf vt : C) : C * C :=
  let ys := Cinv (mkC r x) in
  (Cadd (Cmul (Cscale (1 # 2) (mkC g b)) vf) (Cmul ys (Csub vf vt)),
   Cadd (Cmul (Cscale (1 # 2) (mkC (g + ga) (b + ba))) vt) (Cmul ys (Csub vt vf))).

Lemma half_twice z : Cscale (1 # 2) (mkC (qmul (re z) 2) (qmul (im z) 2)) ==c z.
Proof. destruct z. cstrip; ring. Qed.
Lemma half_asym yf yt :
  Cscale (1 # 2) (mkC (qmul (re yf) 2 + qsub (qmul 2 (re yt)) (qmul (re yf) 2))
                      (qmul (im yf) 2 + qsub (qmul 2 (im yt)) (qmul (im yf) 2))) ==c yt.
Proof. destruct yf, yt. cstrip; ring. Qed.

Lemma wye_delta_two_port : forall r x g b rr xr vf vt,
  let za := wd_za r x rr xr in let zb := wd_zb r x rr xr in let yc := mkC g b in
  ~ za ==c C0 -> ~ zb ==c C0 -> ~ yc ==c C0 ->
  ~ Cadd (Cadd za zb) (Cmul (Cmul za zb) yc) ==c C0 ->
  let '(r', x', g', b', ga, ba) := wye_delta_core r x g b rr xr in
  Ceq2 (pi_circuit_I r' x' g' b' ga ba vf vt) (t_circuit_I za zb yc vf vt).
Proof.
  intros r x g b rr xr vf vt za zb yc Ha Hb Hc Hd.
  unfold wye_delta_core. fold za zb yc.
  set (zc := Cinv yc).
  set (zs := Cadd (Cadd (Cmul za zb) (Cmul za zc)) (Cmul zb zc)).
  unfold pi_circuit_I, t_circuit_I, Ceq2. cbn [fst snd].
  rewrite (C_eta (Cdiv zs zc)), half_twice, half_asym.
  unfold zs, zc. clearbody za zb yc. clear zs zc.
  assert (H1 : ~ mkC 1 0 ==c C0) by (intros [K _]; cbn in K; discriminate).
  assert (Hd' : ~ Cadd (Cadd zb za) (Cmul yc (Cmul za zb)) ==c C0) by (intro K; apply Hd; rewrite <- K; ring).
  split; field; repeat split; assumption.
Qed.

(* _wye_delta does not raise under the same side conditions *)
Lemma czero_false' z : ~ z ==c C0 -> czero z = false.
Proof. intros H. apply czero_false. apply Cnz_norm. exact H. Qed.
Lemma czero_eq0 z : z ==c C0 -> czero z = true.
Proof.
  intros [H1 H2]. cbn [re im C0] in *. unfold czero.
  apply qeqb_eq in H1. apply qeqb_eq in H2. rewrite H1, H2. reflexivity.
Qed.
Lemma czero_neq z : czero z = false -> ~ z ==c C0.
Proof. intros H K. rewrite (czero_eq0 z K) in H. discriminate. Qed.
(* _wye_delta returned a row for a transformer with a magnetising branch (yc = g + jb not zero): the row is wye_delta_core
   and none of the three guards fired; zs = (za + zb + za zb yc) / yc, so the last guard is the side condition of
   wye_delta_two_port *)
Lemma wye_delta_ok r x g b rr xr row :
  wye_delta r x g b rr xr = Ok row -> ~ mkC g b ==c C0 ->
  let za := wd_za r x rr xr in let zb := wd_zb r x rr xr in
  row = wye_delta_core r x g b rr xr /\ ~ za ==c C0 /\ ~ zb ==c C0 /\
  ~ Cadd (Cadd za zb) (Cmul (Cmul za zb) (mkC g b)) ==c C0.
Proof.
  intros H Hyc. cbv zeta. unfold wye_delta in H.
  change (qeqb g 0 && qeqb b 0) with (czero (mkC g b)) in H. rewrite (czero_false' _ Hyc) in H.
  destruct (czero (wd_za r x rr xr)) eqn:Ea; [discriminate|].
  destruct (czero (wd_zb r x rr xr)) eqn:Eb; [discriminate|].
  destruct (czero (wd_zs r x g b rr xr)) eqn:Es; [discriminate|].
  injection H as <-. repeat split; try (apply czero_neq; assumption).
  intro K. apply (czero_neq _ Es). unfold wd_zs.
  set (za := wd_za r x rr xr) in *. set (zb := wd_zb r x rr xr) in *.
  transitivity (Cmul (Cadd (Cadd za zb) (Cmul (Cmul za zb) (mkC g b))) (Cinv (mkC g b))); [field; exact Hyc | rewrite K; ring].
Qed.

(* tap changer, doc/elements/trafo.rst: n_tap = 1 + (tap_pos - tap_neutral) * tap_step_percent/100 * e^{j phi}, the rated voltage of
   the tap side is multiplied by |n_tap| and the phase shift grows by arg(n_tap) (sign by side).
   X = u1 + du cos(phi), Y = direction * du sin(phi); vn = oracle sqrt, (ca, sa) = cos/sin of the oracle arctan *)
Lemma tap_polar_documented : forall X Y vn ca sa,
  vn * vn == X * X + Y * Y -> ca * ca + sa * sa == 1 -> sa * X == ca * Y ->
  0 < X -> 0 < vn -> 0 < ca ->
  vn * ca == X /\ vn * sa == Y.
Proof.
  intros X Y vn ca sa Hv Hu Ht HX Hvn Hca.
  assert (E1 : (vn * ca) * (vn * ca) == X * X).
  { transitivity ((vn * vn) * (ca * ca)); [ring|]. rewrite Hv.
    transitivity (X * X * (ca * ca) + (ca * Y) * (ca * Y)); [ring|]. rewrite <- Ht.
    transitivity (X * X * (ca * ca + sa * sa)); [ring|]. rewrite Hu. ring. }
  assert (E2 : vn * ca == X).
  { assert (P : 0 < vn * ca) by (apply Qmult_lt_0_compat; assumption).
    assert (F : (vn * ca - X) * (vn * ca + X) == 0) by (transitivity ((vn * ca) * (vn * ca) - X * X); [ring | rewrite E1; ring]).
    apply Qmult_integral in F. destruct F as [F|F]; [lra | lra]. }
  split; [exact E2|].
  assert (E3 : X * (vn * sa) == X * Y).
  { transitivity (vn * (sa * X)); [ring|]. rewrite Ht. transitivity ((vn * ca) * Y); [ring|]. rewrite E2. ring. }
  apply (Qmult_inj_l _ _ X); [intro K; rewrite K in HX; apply (Qlt_irrefl 0 HX) | exact E3].
Qed.

Lemma tap_ideal_degree : forall tc o vnh vnl shift d g,
  tc_side tc = HV -> tc_type tc = Ideal -> tc_diff tc = Some d -> tc_deg tc = Some g -> ~ g == 0 ->
  rn (tc_pct tc) == 0 ->
  tap_notable tc o vnh vnl shift = Ok (vnh, vnl, Some (qadd shift (qmul (qmul 1 d) g))).
Proof.
  intros tc o vnh vnl shift d g Hs Ht Hd Hg Hg0 Hp. unfold tap_notable. rewrite Hs, Ht, Hd, Hg. cbn [rn].
  rewrite (qeqb_ne _ _ Hg0). apply qeqb_eq in Hp. rewrite Hp. reflexivity.
Qed.

(* i_ka * sqrt3 * |U| = |S|  (|U| = vm * BASE_KV in kV, |S| in MVA) *)
Lemma i_ka_relation : forall s vm basekv sqrt3,
  ~ sqrt3 == 0 -> ~ vm * basekv == 0 -> i_ka s vm basekv sqrt3 * sqrt3 * (vm * basekv) == s.
Proof.
  intros s vm basekv sqrt3 H3 Hv. unfold i_ka. qstrip. field.
  repeat split; try assumption; intro K; apply Hv; rewrite K; ring.
Qed.
Lemma i_ka_sq : forall s p q vm basekv sqrt3,
  sqrt3 * sqrt3 == 3 -> s * s == p * p + q * q -> ~ vm * basekv == 0 ->
  3 * (i_ka s vm basekv sqrt3 * i_ka s vm basekv sqrt3) * ((vm * basekv) * (vm * basekv)) == p * p + q * q.
Proof.
  intros s p q vm basekv sqrt3 H3 Hs Hv.
  assert (Hn : ~ sqrt3 == 0) by (intro K; rewrite K in H3; discriminate H3 || nra).
  pose proof (i_ka_relation s vm basekv sqrt3 Hn Hv) as E. rewrite <- Hs, <- H3.
  transitivity ((i_ka s vm basekv sqrt3 * sqrt3 * (vm * basekv)) * (i_ka s vm basekv sqrt3 * sqrt3 * (vm * basekv))); [ring|].
  rewrite E. reflexivity.
Qed.

(* DC model (makeBdc, _run_dc_pf):  p_from = -p_to = S_N (theta_f - theta_t - shift pi/180) / (x tap) *)
Lemma dc_lossless : forall b shift pi vaf vat sn, fst (dc_flow b shift pi vaf vat sn) + snd (dc_flow b shift pi vaf vat sn) == 0.
Proof. intros. unfold dc_flow. cbn [fst snd]. qstrip. ring. Qed.

(* trafo3w tap changer at the star point: with tap_pos, tap_neutral and tap_step_percent given, the block's tap_step_percent is a
   number, not NaN; that it is the corrected step 100 p/(100 + p diff), the reciprocal of n_tap, is C02_star_tap_reciprocal *)
Lemma star_tap_applied : forall x blk p d,
  x_side x = blk -> x_star x = true -> x_pct x = Some p -> x_pos x = Some (d + rn (x_neutral x)) -> x_neutral x <> None ->
  exists q, tc_pct (tap3_block x blk) = Some q.
Proof.
  intros x blk p d Hs Hst Hp Hpos Hn. unfold tap3_block, tap3_block_gen. rewrite Hs, Nat.eqb_refl, Hst, Hp, Hpos.
  destruct (x_neutral x) as [n|]; [|contradiction]. eexists. reflexivity.
Qed.

(* T-model row -> stamps -> flows, step 1: for a row with symmetric series impedance the flows are those of the pi circuit (currents pi_circuit_I)
   behind the ideal transformer n = TAP e^{j SHIFT}: S_f = S_N v_f' conj(I_f'), S_t = S_N v_t conj(I_t), v_f' = v_f/n *)
Lemma flows_pi_circuit : forall br e vf vt sn,
  b_stat br = true -> b_ra br == 0 -> b_xa br == 0 -> ~ b_tap br == 0 -> re e * re e + im e * im e == 1 ->
  let vf' := Cdiv vf (Cscale (b_tap br) e) in
  let i := pi_circuit_I (b_r br) (b_x br) (b_g br) (b_b br) (b_ga br) (b_ba br) vf' vt in
  Ceq2 (flows (stamps_core br e) vf vt sn)
       (Cscale sn (Cmul vf' (Cconj (fst i))), Cscale sn (Cmul vt (Cconj (snd i)))).
Proof.
  intros br e vf vt sn Hs Hra Hxa Ht He. cbv zeta.
  etransitivity; [apply flows_twoport; assumption|]. unfold pi_flows_phys2, pi_circuit_I, Ceq2. cbn [fst snd].
  assert (Ez : mkC (b_r br + b_ra br) (b_x br + b_xa br) ==c mkC (b_r br) (b_x br)).
  { split; cbn [re im]; [rewrite Hra | rewrite Hxa]; ring. }
  rewrite Ez. generalize (Cinv (mkC (b_r br) (b_x br))). intros ys.
  split; (apply Cscale_proper; [reflexivity|]); (apply Cmul_proper; [reflexivity|]); apply Cconj_proper; ring.
Qed.

(* step 2: when the row carries the pi parameters _wye_delta computed from (r, x, g, b, rr, xr), these currents are the
   currents of the documented T circuit (za hv-side leakage, zb lv-side leakage, magnetising branch at the star point) *)
Lemma t_row_flows : forall br e vf vt sn r x g b rr xr,
  b_stat br = true -> b_ra br == 0 -> b_xa br == 0 -> ~ b_tap br == 0 -> re e * re e + im e * im e == 1 ->
  (b_r br, b_x br, b_g br, b_b br, b_ga br, b_ba br) = wye_delta_core r x g b rr xr ->
  let za := wd_za r x rr xr in let zb := wd_zb r x rr xr in let yc := mkC g b in
  ~ za ==c C0 -> ~ zb ==c C0 -> ~ yc ==c C0 -> ~ Cadd (Cadd za zb) (Cmul (Cmul za zb) yc) ==c C0 ->
  let vf' := Cdiv vf (Cscale (b_tap br) e) in
  let i := t_circuit_I za zb yc vf' vt in
  Ceq2 (flows (stamps_core br e) vf vt sn)
       (Cscale sn (Cmul vf' (Cconj (fst i))), Cscale sn (Cmul vt (Cconj (snd i)))).
Proof.
  intros br e vf vt sn r x g b rr xr Hs Hra Hxa Ht He Hrow za zb yc Ha Hb Hc Hd vf' i.
  pose proof (flows_pi_circuit br e vf vt sn Hs Hra Hxa Ht He) as F. cbn zeta in F. fold vf' in F.
  pose proof (wye_delta_two_port r x g b rr xr vf' vt Ha Hb Hc Hd) as W.
  rewrite <- Hrow in W. fold za zb yc in W. fold i in W.
  destruct F as [F1 F2]. destruct W as [W1 W2]. cbn [fst snd] in *.
  split; cbn [fst snd].
  - rewrite F1, W1. reflexivity.
  - rewrite F2, W2. reflexivity.
Qed.
(* the same with the hypothesis "series impedance of the row not zero" that makeYbus needs to produce the stamps; stamps_core does not *)
Lemma t_model_row_flows : forall br e vf vt sn r x g b rr xr,
  b_stat br = true -> b_ra br == 0 -> b_xa br == 0 ->
  ~ (b_r br) * (b_r br) + (b_x br) * (b_x br) == 0 -> ~ b_tap br == 0 -> re e * re e + im e * im e == 1 ->
  (b_r br, b_x br, b_g br, b_b br, b_ga br, b_ba br) = wye_delta_core r x g b rr xr ->
  let za := wd_za r x rr xr in let zb := wd_zb r x rr xr in let yc := mkC g b in
  ~ za ==c C0 -> ~ zb ==c C0 -> ~ yc ==c C0 -> ~ Cadd (Cadd za zb) (Cmul (Cmul za zb) yc) ==c C0 ->
  let vf' := Cdiv vf (Cscale (b_tap br) e) in
  let i := t_circuit_I za zb yc vf' vt in
  Ceq2 (flows (stamps_core br e) vf vt sn)
       (Cscale sn (Cmul vf' (Cconj (fst i))), Cscale sn (Cmul vt (Cconj (snd i)))).
Proof. intros br e vf vt sn r x g b rr xr Hs Hra Hxa _. exact (t_row_flows br e vf vt sn r x g b rr xr Hs Hra Hxa). Qed.
