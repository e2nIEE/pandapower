(* C01 — flow-sum identity: with Ybus = Cf' Yf + Ct' Yt + diag(ysh) (pypower/makeYbus.py:76-88) the bus injection
   V_k conj((Ybus V)_k) is the sum of the terminal flows of the branches at k plus the bus-shunt term.
   Branch = two-port rows (Yff, Yft, Ytf, Ytt) between ppc buses f and t; what the rows are made of (line, trafo,
   tap, shift) is the branch side and irrelevant here.  Definitions: C01/YbusModel.v. *)
From Coq Require Import QArith List.
From PPV Require Import Base.QN Base.QC C01.Model C01.YbusModel.
Import ListNotations.
Open Scope Q_scope.

Lemma Cmul_conj_0 a : Cmul a (Cconj C0) ==c C0. Proof. cstrip; ring. Qed.

Lemma flow_row brs V k : Cmul (vat V k) (Cconj (ybus_row brs V k)) ==c flow_sum brs V k.
Proof.
  induction brs as [|b r IH]; cbn [ybus_row flow_sum]; [apply Cmul_conj_0|].
  rewrite !Cconj_add, !Cmul_add_distr, IH. unfold s_from, s_to.
  destruct (Nat.eqb_spec (b_f b) k) as [->|_], (Nat.eqb_spec (b_t b) k) as [->|_]; rewrite ?Cmul_conj_0; reflexivity.
Qed.

(* flow-sum identity: injection = sum of the branch terminal flows + |V_k|^2 conj(ysh_k) *)
Lemma flow_sum_identity brs ysh V k :
  s_inj brs ysh V k ==c Cadd (flow_sum brs V k) (Cscale (cnorm2 (vat V k)) (Cconj ysh)).
Proof.
  unfold s_inj, ybusV. rewrite Cconj_add, Cmul_add_distr, flow_row.
  apply Cadd_proper; [reflexivity|]. cstrip; ring.
Qed.

(* consequence for the model's [flows]: with the bus shunt of the ppc row, ysh = (GS + j BS)/baseMVA, and v^2 = |V_k|^2,
   the flows derived from the injection are the sum of the branch terminal flows in MVA *)
Lemma flows_is_flow_sum n brs V k v :
  ~ base n == 0 -> v * v == cnorm2 (vat V k) ->
  flows n k v (s_inj brs (mkC (qdiv (GS n k) (base n)) (qdiv (BS n k) (base n))) V k)
  ==c Cscale (base n) (flow_sum brs V k).
Proof.
  intros Hb Hv.
  pose proof (flow_sum_identity brs (mkC (qdiv (GS n k) (base n)) (qdiv (BS n k) (base n))) V k) as [E1 E2].
  set (S := s_inj brs _ V k) in *. set (F := flow_sum brs V k) in *.
  unfold flows. split; cbn [re im]; [rewrite E1 | rewrite E2];
    unfold Cadd, Cscale, Cconj; cbn [re im]; qstrip; rewrite <- Hv; field; exact Hb.
Qed.
