(* C01 — composed statement: C02 branch rows -> makeYbus stamps -> pfsoln flows -> nodal sum.
   The flow-sum identity of C01/Ybus.v is stated here for two-ports PRODUCED by the C02 branch model (C01/BranchModel.v)
   instead of two-ports given as inputs, and continued to the documented circuits in physical units through
   C02.Proofs.pu_eq_phys. *)
From Coq Require Import QArith List.
From PPV Require Import Base.QN Base.QC C01.Model C01.YbusModel C01.Ybus C01.BranchModel.
From PPV Require C31.Model C02.Model C02.Run C02.Proofs.
Import ListNotations.
Open Scope Q_scope.

Lemma Cscale_add k a b : Cscale k (Cadd a b) ==c Cadd (Cscale k a) (Cscale k b).
Proof. cstrip; ring. Qed.
Lemma Cscale_0 k : Cscale k C0 ==c C0.
Proof. cstrip; ring. Qed.
Lemma Cscale_scale k l a : Cscale k (Cscale l a) ==c Cscale (k * l) a.
Proof. cstrip; ring. Qed.

Lemma branch_of_ends p : b_f (branch_of p) = pr_f p /\ b_t (branch_of p) = pr_t p.
Proof. unfold branch_of. destruct (stamps_of p) as [[[a b] c] d]. split; reflexivity. Qed.
(* one row: the C01 two-port flows of its stamps, scaled to MVA, are the C02 flows of the row *)
Lemma row_flows_of_stamps p V sn :
  Cscale sn (s_from V (branch_of p)) ==c fst (row_flows V sn p) /\ Cscale sn (s_to V (branch_of p)) ==c snd (row_flows V sn p).
Proof.
  unfold branch_of, row_flows, s_from, s_to, i_from, i_to, C02.Model.flows. destruct (stamps_of p) as [[[a b] c] d].
  cbn [b_f b_t yff yft ytf ytt fst snd]. split; reflexivity.
Qed.

Lemma scaled_flow_sum ps V sn k : Cscale sn (flow_sum (map branch_of ps) V k) ==c row_flow_sum ps V sn k.
Proof.
  unfold row_flow_sum, flow_table. induction ps as [|p r IH]; cbn [map flow_sum tab_sum].
  - apply Cscale_0.
  - rewrite !Cscale_add, IH.
    destruct (row_flows_of_stamps p V sn) as [E1 E2]. destruct (branch_of_ends p) as [-> ->].
    apply Cadd_proper; [apply Cadd_proper | reflexivity].
    + destruct (Nat.eqb (pr_f p) k); [exact E1 | apply Cscale_0].
    + destruct (Nat.eqb (pr_t p) k); [exact E2 | apply Cscale_0].
Qed.

(* T (rows -> stamps -> flows -> nodal sum): for every list of C02 branch rows, bus shunt, voltage vector and bus k
   the injection V_k conj((Ybus V)_k) [MVA] of the Ybus assembled from the rows' makeYbus stamps equals the sum of the
   rows' pfsoln terminal flows at k plus the bus-shunt term *)
Lemma rows_flow_sum_identity : forall ps ysh V sn k,
  Cscale sn (s_inj (map branch_of ps) ysh V k)
  ==c Cadd (row_flow_sum ps V sn k) (Cscale (sn * cnorm2 (vat V k)) (Cconj ysh)).
Proof.
  intros ps ysh V sn k. rewrite (flow_sum_identity (map branch_of ps) ysh V k), Cscale_add, scaled_flow_sum, Cscale_scale.
  reflexivity.
Qed.

(* every built row is in service and is stamped without an exception *)
Lemma built_rows_ok : forall es ps, build_rows es = C02.Model.Ok ps ->
  Forall (fun p => C02.Model.b_stat (pr_row p) = true /\ C02.Model.stamps (pr_row p) (pr_e p) = C02.Model.Ok (stamps_of p)) ps.
Proof.
  induction es as [|[[[[f t] r] ee] base] es IH]; intros ps H; cbn [build_rows fold_right] in H.
  - injection H as <-. constructor.
  - fold (build_rows es) in H. destruct r as [row|er]; [|discriminate].
    destruct (build_rows es) as [ps'|er] eqn:E; [|discriminate].
    destruct (C02.Model.b_stat row) eqn:Es.
    + destruct (C02.Model.stamps row ee) as [y|er] eqn:Ey; [|discriminate]. injection H as <-.
      constructor; [|apply IH; reflexivity]. cbn [pr_row pr_e]. split; [exact Es|].
      unfold stamps_of. cbn [pr_row pr_e]. unfold C02.Model.stamps in *.
      destruct (_ || _); [discriminate | reflexivity].
    + injection H as <-. apply IH. reflexivity.
Qed.

(* continuation to physical units (C02.Proofs.pu_eq_phys) *)
Definition row_ok (sn : Q) (p : prow) : Prop :=
  let br := pr_row p in
  C02.Model.b_stat br = true /\
  ~ C02.Model.b_r br * C02.Model.b_r br + C02.Model.b_x br * C02.Model.b_x br == 0 /\
  ~ (C02.Model.b_r br + C02.Model.b_ra br) * (C02.Model.b_r br + C02.Model.b_ra br)
    + (C02.Model.b_x br + C02.Model.b_xa br) * (C02.Model.b_x br + C02.Model.b_xa br) == 0 /\
  ~ C02.Model.b_tap br == 0 /\ re (pr_e p) * re (pr_e p) + im (pr_e p) * im (pr_e p) == 1 /\ ~ sn == 0 /\ ~ pr_base p == 0.
(* terminal powers [MVA] of the documented circuit of the row: ideal transformer TAP e^{j SHIFT} at the from side, then the pi
   two-port with Z = z_pu base^2/sn [Ohm], Y = y_pu sn/base^2 [S] on the voltages in kV *)
Definition row_phys (V : list C) (sn : Q) (p : prow) : C * C :=
  let br := pr_row p in let base := pr_base p in
  C02.Proofs.pi_flows_phys2
    (Cscale (base * base / sn) (mkC (C02.Model.b_r br) (C02.Model.b_x br)))
    (Cscale (base * base / sn) (mkC (C02.Model.b_r br + C02.Model.b_ra br) (C02.Model.b_x br + C02.Model.b_xa br)))
    (Cscale (1 / (2 * (base * base / sn))) (mkC (C02.Model.b_g br) (C02.Model.b_b br)))
    (Cscale (1 / (2 * (base * base / sn))) (mkC (C02.Model.b_g br + C02.Model.b_ga br) (C02.Model.b_b br + C02.Model.b_ba br)))
    (Cscale base (Cdiv (vat V (pr_f p)) (Cscale (C02.Model.b_tap br) (pr_e p)))) (Cscale base (vat V (pr_t p))).
Fixpoint phys_flow_sum (ps : list prow) (V : list C) (sn : Q) (k : nat) : C :=
  match ps with
  | [] => C0
  | p :: r => Cadd (Cadd (if Nat.eqb (pr_f p) k then fst (row_phys V sn p) else C0)
                         (if Nat.eqb (pr_t p) k then snd (row_phys V sn p) else C0))
                   (phys_flow_sum r V sn k)
  end.

Lemma row_flows_phys p V sn : row_ok sn p ->
  fst (row_flows V sn p) ==c fst (row_phys V sn p) /\ snd (row_flows V sn p) ==c snd (row_phys V sn p).
Proof.
  intros (Hs & Hz & Hzt & Ht & He & Hsn & Hb).
  exact (C02.Proofs.pu_eq_phys (pr_row p) (pr_e p) (vat V (pr_f p)) (vat V (pr_t p)) sn (pr_base p) Hs Hz Hzt Ht He Hsn Hb).
Qed.

Lemma row_flow_sum_phys ps V sn k : Forall (row_ok sn) ps -> row_flow_sum ps V sn k ==c phys_flow_sum ps V sn k.
Proof.
  unfold row_flow_sum, flow_table. induction 1 as [|p r Hp _ IH]; cbn [map tab_sum phys_flow_sum]; [reflexivity|].
  destruct (row_flows_phys p V sn Hp) as [E1 E2]. rewrite IH.
  destruct (Nat.eqb (pr_f p) k), (Nat.eqb (pr_t p) k); rewrite ?E1, ?E2; reflexivity.
Qed.

(* element level: a network of lines
   element parameters -> _calc_line_parameter row -> stamps -> flows -> nodal sum = documented line pi circuits *)
Record lrow := mkL { lr_f : nat; lr_t : nat; lr_line : C02.Model.line; lr_base : Q; lr_vnfrom : Q }.
Definition line_prow (sn fhz pi sqrt3 : Q) (x : lrow) : prow :=
  mkP (lr_f x) (lr_t x) (C02.Model.line_branch sn fhz pi sqrt3 (lr_base x) (lr_vnfrom x) (lr_line x)) C1 (lr_base x).
Definition line_ok (x : lrow) : Prop :=
  C02.Model.l_in (lr_line x) = true /\ ~ lr_base x == 0 /\ ~ C02.Model.l_par (lr_line x) == 0 /\
  ~ cnorm2 (C02.Model.line_z_phys (lr_line x)) == 0.
Definition line_phys (fhz pi : Q) (V : list C) (x : lrow) : C * C :=
  C02.Model.line_flows_phys fhz pi (lr_line x) (Cscale (lr_base x) (vat V (lr_f x))) (Cscale (lr_base x) (vat V (lr_t x))).
Fixpoint line_flow_sum (fhz pi : Q) (ls : list lrow) (V : list C) (k : nat) : C :=
  match ls with
  | [] => C0
  | x :: r => Cadd (Cadd (if Nat.eqb (lr_f x) k then fst (line_phys fhz pi V x) else C0)
                         (if Nat.eqb (lr_t x) k then snd (line_phys fhz pi V x) else C0))
                   (line_flow_sum fhz pi r V k)
  end.

(* the balance formulas with the flows of the C02 rows
   [flows n k v s] (injection minus bus shunt, the quantity the imbalance formulas of C01/Balance.v are stated with) IS the
   sum of the terminal flows of the C02 rows at k when s is the injection of the Ybus assembled from these rows *)
Lemma flows_is_row_flow_sum n ps V k v :
  ~ base n == 0 -> v * v == cnorm2 (vat V k) ->
  flows n k v (s_inj (map branch_of ps) (mkC (qdiv (GS n k) (base n)) (qdiv (BS n k) (base n))) V k)
  ==c row_flow_sum ps V (base n) k.
Proof. intros Hb Hv. rewrite (flows_is_flow_sum n (map branch_of ps) V k v Hb Hv). apply scaled_flow_sum. Qed.

