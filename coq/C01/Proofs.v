(* C01 — lemmas about the bus / generator / result side of the PF core (all inputs, unbounded lists). *)
From Coq Require Import QArith Qabs List Lia.
From PPV Require Import Base.QN Base.QC C01.Model.
Import ListNotations.
Open Scope Q_scope.

Section Sums.
  Context {A : Type}.
  Implicit Types (f g h : A -> Q) (l : list A).

  Lemma sumf_nil f : sumf f [] == 0.
  Proof. reflexivity. Qed.
  Lemma sumf_cons f x l : sumf f (x :: l) == f x + sumf f l.
  Proof. unfold sumf. cbn [fold_right]. apply qadd_correct. Qed.
  Lemma sumf_ext f g l : (forall x, In x l -> f x == g x) -> sumf f l == sumf g l.
  Proof.
    induction l as [|a l IH]; intros H; [reflexivity|].
    rewrite !sumf_cons, IH, (H a); [reflexivity | left; reflexivity | intros x Hx; apply H; right; exact Hx].
  Qed.
  Lemma sumf_app f l1 l2 : sumf f (l1 ++ l2) == sumf f l1 + sumf f l2.
  Proof.
    induction l1 as [|a l1 IH]; cbn [app]; [rewrite sumf_nil; ring|].
    rewrite !sumf_cons, IH. ring.
  Qed.
  Lemma sumf_add f g l : sumf (fun x => f x + g x) l == sumf f l + sumf g l.
  Proof. induction l as [|a l IH]; [rewrite !sumf_nil; ring|]. rewrite !sumf_cons, IH. ring. Qed.
  Lemma sumf_scale c f l : sumf (fun x => c * f x) l == c * sumf f l.
  Proof. induction l as [|a l IH]; [rewrite !sumf_nil; ring|]. rewrite !sumf_cons, IH. ring. Qed.
  Lemma sumf_sub f g l : sumf (fun x => qsub (f x) (g x)) l == sumf f l - sumf g l.
  Proof. induction l as [|a l IH]; [rewrite !sumf_nil; ring|]. rewrite !sumf_cons, IH. qstrip. ring. Qed.
  Lemma sumf_affine f g d l : sumf (fun x => qadd (f x) (qmul d (g x))) l == sumf f l + d * sumf g l.
  Proof. induction l as [|a l IH]; [rewrite !sumf_nil; ring|]. rewrite !sumf_cons, IH. qstrip. ring. Qed.
  Lemma sumf_const c l : sumf (fun _ => c) l == nq (length l) * c.
  Proof.
    induction l as [|a l IH]; [rewrite sumf_nil; unfold nq; cbn; ring|].
    rewrite sumf_cons, IH. unfold nq. cbn [length]. rewrite Nat2Z.inj_succ, <- Z.add_1_r, inject_Z_plus. ring.
  Qed.
  Lemma sumf_partition (p : A -> bool) f l :
    sumf f l == sumf f (filter p l) + sumf f (filter (fun x => negb (p x)) l).
  Proof.
    induction l as [|a l IH]; [cbn [filter]; rewrite !sumf_nil; ring|].
    cbn [filter]. destruct (p a); cbn [negb]; rewrite !sumf_cons, IH; ring.
  Qed.
  Lemma sumf_filter_zero (p : A -> bool) f l :
    sumf f (filter p l) == sumf (fun x => if p x then f x else 0) l.
  Proof.
    induction l as [|a l IH]; [reflexivity|]. cbn [filter].
    destruct (p a) eqn:E; rewrite ?sumf_cons, IH, ?E; ring.
  Qed.
End Sums.

Lemma sumf_map {A B} (m : B -> A) (f : A -> Q) (l : list B) : sumf f (map m l) == sumf (fun x => f (m x)) l.
Proof. induction l as [|a l IH]; [reflexivity|]. cbn [map]. rewrite !sumf_cons, IH. reflexivity. Qed.

Lemma memn_In x l : memn x l = true <-> In x l.
Proof.
  unfold memn. rewrite existsb_exists. split.
  - intros (y & Hy & E). apply Nat.eqb_eq in E. subst. exact Hy.
  - intros H. exists x. split; [exact H | apply Nat.eqb_refl].
Qed.

Lemma nq_pos n : (0 < n)%nat -> 0 < nq n.
Proof. intros H. unfold nq. change 0 with (inject_Z 0). rewrite <- Zlt_Qlt. lia. Qed.
Lemma nq_nonzero n : (0 < n)%nat -> ~ nq n == 0.
Proof. intros H E. pose proof (nq_pos n H) as P. rewrite E in P. apply (Qlt_irrefl 0 P). Qed.

Lemma b2q_sq b : b2q b * b2q b == b2q b.
Proof. destruct b; cbn; ring. Qed.

Lemma load_p0_act l : load_p0 l == act_p l.
Proof. unfold load_p0, act_p. qstrip. ring. Qed.
Lemma load_q0_act l : load_q0 l == act_q l.
Proof. unfold load_q0, act_q. qstrip. ring. Qed.

Lemma res_load_p_vdl n l v : vdl n = true ->
  res_load_p n l v == act_p l + (v - 1) * (act_p l * pct (l_cip l)) + (v * v - 1) * (act_p l * pct (l_czp l)).
Proof. intros H. unfold res_load_p, act_p. rewrite H. qstrip. ring. Qed.
Lemma res_load_q_vdl n l v : vdl n = true ->
  res_load_q n l v == act_q l + (v - 1) * (act_q l * pct (l_ciq l)) + (v * v - 1) * (act_q l * pct (l_czq l)).
Proof. intros H. unfold res_load_q, act_q. rewrite H. qstrip. ring. Qed.
Lemma res_load_p_novdl n l v : vdl n = false -> res_load_p n l v == act_p l.
Proof. intros H. unfold res_load_p, act_p. rewrite H. qstrip. ring. Qed.
Lemma res_load_q_novdl n l v : vdl n = false -> res_load_q n l v == act_q l.
Proof. intros H. unfold res_load_q, act_q. rewrite H. qstrip. ring. Qed.

Lemma pq_res_p e : qmul (pq_sign e) (res_pq_p e) == pq_p0 e.
Proof. unfold pq_p0, res_pq_p. qstrip. ring. Qed.
Lemma pq_res_q e : qmul (pq_sign e) (res_pq_q e) == pq_q0 e.
Proof. unfold pq_q0, res_pq_q. qstrip. ring. Qed.
Lemma sh_res_p s v : res_sh_p s v == v * v * sh_p0 s.
Proof. unfold res_sh_p, sh_p0. qstrip. ring. Qed.
Lemma sh_res_q s v : res_sh_q s v == v * v * sh_q0 s.
Proof. unfold res_sh_q, sh_q0. qstrip. ring. Qed.

(* the voltage dependent part of a ZIP demand relative to |V| = 1: x, y = the constant-current and the constant-impedance
   share of the demand (absolute); nothing when voltage_depend_loads is off *)
Definition zip_defect (vd : bool) (x y v : Q) : Q := if vd then (v - 1) * x + (v * v - 1) * y else 0.

(* sums of the reported load results over any list of loads *)
Lemma sum_res_load_p n v L :
  sumf (fun l => res_load_p n l v) L ==
  sumf act_p L + zip_defect (vdl n) (sumf (fun l => qmul (act_p l) (pct (l_cip l))) L)
                                    (sumf (fun l => qmul (act_p l) (pct (l_czp l))) L) v.
Proof.
  unfold zip_defect. destruct (vdl n) eqn:V.
  - induction L as [|a L IH]; [rewrite !sumf_nil; ring|].
    rewrite !sumf_cons, IH, (res_load_p_vdl n a v V). qstrip. ring.
  - rewrite Qplus_0_r. apply sumf_ext. intros l _. apply res_load_p_novdl, V.
Qed.
Lemma sum_res_load_q n v L :
  sumf (fun l => res_load_q n l v) L ==
  sumf act_q L + zip_defect (vdl n) (sumf (fun l => qmul (act_q l) (pct (l_ciq l))) L)
                                    (sumf (fun l => qmul (act_q l) (pct (l_czq l))) L) v.
Proof.
  unfold zip_defect. destruct (vdl n) eqn:V.
  - induction L as [|a L IH]; [rewrite !sumf_nil; ring|].
    rewrite !sumf_cons, IH, (res_load_q_vdl n a v V). qstrip. ring.
  - rewrite Qplus_0_r. apply sumf_ext. intros l _. apply res_load_q_novdl, V.
Qed.
Lemma sum_load_p0 L : sumf load_p0 L == sumf act_p L.
Proof. apply sumf_ext. intros x _. apply load_p0_act. Qed.
Lemma sum_load_q0 L : sumf load_q0 L == sumf act_q L.
Proof. apply sumf_ext. intros x _. apply load_q0_act. Qed.
Lemma sum_pq_res_p L : sumf (fun e => qmul (pq_sign e) (res_pq_p e)) L == sumf pq_p0 L.
Proof. apply sumf_ext. intros x _. apply pq_res_p. Qed.
Lemma sum_pq_res_q L : sumf (fun e => qmul (pq_sign e) (res_pq_q e)) L == sumf pq_q0 L.
Proof. apply sumf_ext. intros x _. apply pq_res_q. Qed.
Lemma sum_sh_res_p v L : sumf (fun s => res_sh_p s v) L == v * v * sumf sh_p0 L.
Proof. rewrite <- sumf_scale. apply sumf_ext. intros x _. apply sh_res_p. Qed.
Lemma sum_sh_res_q v L : sumf (fun s => res_sh_q s v) L == v * v * sumf sh_q0 L.
Proof. rewrite <- sumf_scale. apply sumf_ext. intros x _. apply sh_res_q. Qed.

(* reported consumption at a ppc bus in closed form *)
Lemma cons_p_closed n k v :
  cons_p n k v == PD n k + v * v * GS n k + zip_defect (vdl n) (sum_pci n k) (sum_pcz n k) v.
Proof.
  unfold cons_p, PD, GS, sum_pci, sum_pcz. qstrip.
  rewrite sum_pq_res_p, sum_sh_res_p, sum_load_p0, sum_res_load_p. ring.
Qed.
Lemma cons_q_closed n k v :
  cons_q n k v == QD n k - v * v * BS n k + zip_defect (vdl n) (sum_qci n k) (sum_qcz n k) v.
Proof.
  unfold cons_q, QD, BS, sum_qci, sum_qcz. qstrip.
  rewrite sum_pq_res_q, sum_sh_res_q, sum_load_q0, sum_res_load_q. ring.
Qed.

(* the voltage dependent bus load of makeSbus in closed form *)
Lemma Sload_re n k v :
  re (Sload n k v) == PD n k + zip_defect (vdl n) (PD n k * z_cip (zip_row n k)) (PD n k * z_czp (zip_row n k)) v.
Proof. unfold Sload, vdep, zip_defect. destruct (vdl n); cbn [re]; qstrip; ring. Qed.
Lemma Sload_im n k v :
  im (Sload n k v) == QD n k + zip_defect (vdl n) (QD n k * z_ciq (zip_row n k)) (QD n k * z_czq (zip_row n k)) v.
Proof. unfold Sload, vdep, zip_defect. destruct (vdl n); cbn [im]; qstrip; ring. Qed.
