(* C01 — generator split sums, the imbalance formulas, guards, refutation witnesses, res_bus. *)
From Coq Require Import QArith Qabs List Lia Lqa.
From PPV Require Import Base.Lists Base.QN Base.QC C01.Model C01.Proofs.
Import ListNotations.
Open Scope Q_scope.

Lemma gens_on_at_In n k g : In g (gens_on_at n k) -> g_bus g = k /\ g_on g = true.
Proof.
  unfold gens_on_at. rewrite filter_In. intros [_ H]. apply andb_true_iff in H. destruct H as [H1 H2].
  apply Nat.eqb_eq in H1. split; assumption.
Qed.
Lemma has_gen_false n k : has_gen n k = false -> gens_on_at n k = [].
Proof.
  unfold has_gen. intros H. apply negb_false_iff, Nat.eqb_eq in H. apply length_zero_iff_nil. exact H.
Qed.
Lemma has_gen_true n k : has_gen n k = true -> (0 < length (gens_on_at n k))%nat.
Proof. unfold has_gen. intros H. apply negb_true_iff, Nat.eqb_neq in H. lia. Qed.
Lemma gens_on_at_le_n_on n k : (length (gens_on_at n k) <= n_on n)%nat.
Proof. unfold gens_on_at, n_on. apply filter_length_le. intros x H. apply andb_true_iff in H. apply H. Qed.
Lemma length_one {A} (l : list A) : length l = 1%nat -> exists a, l = [a].
Proof. destruct l as [|a [|b l]]; cbn; intros H; try discriminate. exists a. reflexivity. Qed.

(* _update_p / _split_p_for_gens_at_same_bus *)
Lemma gen_p_noslack n ref k v sinj : (memn k ref && has_gen n k) = false ->
  gen_p n ref k v sinj == sumf g_pg (gens_on_at n k).
Proof.
  intros H. apply andb_false_iff in H. destruct H as [H|H].
  - unfold gen_p. apply sumf_ext. intros g Hg. apply gens_on_at_In in Hg. destruct Hg as [Hb Ho].
    unfold pg_after. rewrite Hb, Ho, H. reflexivity.
  - unfold gen_p. rewrite (has_gen_false _ _ H). reflexivity.
Qed.

Lemma existsb_filter_nonempty {A} (p : A -> bool) l : existsb p l = true -> (0 < length (filter p l))%nat.
Proof.
  induction l as [|a l IH]; cbn [existsb filter]; [discriminate|].
  destruct (p a); cbn [orb length]; [lia | exact IH].
Qed.

(* the generator rows at a reference bus sum to  inj P + local Pd *)
Lemma gen_p_sum n ref k v sinj : memn k ref = true -> split_ok n k = true ->
  gen_p n ref k v sinj == p_bus n k v sinj.
Proof.
  intros Hr Hs. unfold gen_p, split_ok in *.
  set (G := gens_on_at n k) in *.
  assert (HG : forall g, In g G -> g_bus g = k /\ g_on g = true) by (intros g; apply gens_on_at_In).
  apply orb_true_iff in Hs. destruct Hs as [H1|H2].
  - apply Nat.eqb_eq in H1. destruct (length_one _ H1) as [g0 E].
    assert (Hg0 : In g0 G) by (rewrite E; left; reflexivity).
    destruct (HG g0 Hg0) as [Hb Ho].
    rewrite E, sumf_cons, sumf_nil. unfold pg_after. rewrite Hb, Ho, Hr. fold G. rewrite E. cbn. ring.
  - apply andb_true_iff in H2. destruct H2 as [Hlen Hex].
    rewrite (sumf_partition g_ref _ G).
    set (ext := filter g_ref G). set (pv := filter (fun x => negb (g_ref x)) G).
    assert (Hext : (0 < length ext)%nat) by (apply existsb_filter_nonempty; exact Hex).
    (* pv part keeps its setpoints *)
    assert (Epv : sumf (fun g => pg_after n ref g v sinj) pv == sumf g_pg pv).
    { apply sumf_ext. intros g Hg. apply filter_In in Hg. destruct Hg as [Hg Hn].
      destruct (HG g Hg) as [Hb Ho]. apply negb_true_iff in Hn.
      unfold pg_after. rewrite Hb, Ho, Hr. fold G. rewrite Hlen, Hn. reflexivity. }
    rewrite Epv.
    set (p_ext := qsub (p_bus n k v sinj) (sumf g_pg pv)).
    destruct (qltb 0 (sumf g_w ext)) eqn:W.
    + assert (Eext : sumf (fun g => pg_after n ref g v sinj) ext ==
                     sumf (fun g => qadd (g_pg g) (qmul (qdiv (qsub p_ext (sumf g_pg ext)) (sumf g_w ext)) (g_w g))) ext).
      { apply sumf_ext. intros g Hg. apply filter_In in Hg. destruct Hg as [Hg Hn].
        destruct (HG g Hg) as [Hb Ho].
        unfold pg_after. rewrite Hb, Ho, Hr. fold G. rewrite Hlen, Hn. fold ext pv p_ext. rewrite W. cbn [andb].
        apply qltb_lt in W. qstrip. field. intros E0. rewrite E0 in W. apply (Qlt_irrefl 0 W). }
      rewrite Eext, sumf_affine. apply qltb_lt in W. unfold p_ext. qstrip. field.
      intros E0. rewrite E0 in W. apply (Qlt_irrefl 0 W).
    + assert (Eext : sumf (fun g => pg_after n ref g v sinj) ext == sumf (fun _ => qdiv p_ext (nq (length ext))) ext).
      { apply sumf_ext. intros g Hg. apply filter_In in Hg. destruct Hg as [Hg Hn].
        destruct (HG g Hg) as [Hb Ho].
        unfold pg_after. rewrite Hb, Ho, Hr. fold G. rewrite Hlen, Hn. fold ext pv p_ext. rewrite W. cbn [andb]. reflexivity. }
      rewrite Eext, sumf_const. unfold p_ext. qstrip. field. apply nq_nonzero. exact Hext.
Qed.

(* non-reference buses and non-reference gens keep their active power setpoint *)
Lemma pg_after_keeps n ref g v sinj :
  memn (g_bus g) ref = false \/ (g_ref g = false /\ (1 < length (gens_on_at n (g_bus g)))%nat) ->
  pg_after n ref g v sinj = g_pg g.
Proof.
  intros [H|[H1 H2]]; unfold pg_after.
  - rewrite H, andb_false_r. reflexivity.
  - apply Nat.ltb_lt in H2. rewrite H2, H1. destruct (g_on g && memn (g_bus g) ref); reflexivity.
Qed.

(* _update_q *)
Definition qg_expr (n : net) (k : nat) (g : gen) (v : Q) (sinj : C) : Q :=
  let q0 := q_tot0 n k v sinj in
  if Nat.ltb 1 (n_on n) then
    let G := gens_on_at n k in
    let q1 := qdiv q0 (nq (length G)) in
    let qtot := sumf (fun _ => q1) G in
    let qmin := sumf g_qmin G in
    let qmax := sumf g_qmax G in
    if qeqb qmin qmax then q1
    else qadd (g_qmin g) (qmul (qdiv (qsub qtot qmin) (qadd (qsub qmax qmin) EPS)) (qsub (g_qmax g) (g_qmin g)))
  else q0.
Lemma qg_after_val_at n k g v sinj : In g (gens_on_at n k) -> qg_after_val n g v sinj = qg_expr n k g v sinj.
Proof. intros H. apply gens_on_at_In in H. destruct H as [Hb Ho]. unfold qg_after_val, qg_expr. rewrite Ho, Hb. reflexivity. Qed.

Lemma gen_q_sum n k v sinj : has_gen n k = true -> ~ qg_den n k == 0 ->
  gen_q n k v sinj == q_tot0 n k v sinj - qsplit_loss n k v sinj.
Proof.
  intros Hg Hden. unfold gen_q.
  rewrite (sumf_ext _ (fun g => qg_expr n k g v sinj)); [|intros g Hin; rewrite (qg_after_val_at n k g v sinj Hin); reflexivity].
  pose proof (has_gen_true _ _ Hg) as Hlen. pose proof (gens_on_at_le_n_on n k) as Hle.
  unfold qg_expr, qsplit_loss, qg_den in *.
  set (G := gens_on_at n k) in *. set (q0 := q_tot0 n k v sinj).
  destruct (Nat.ltb 1 (n_on n)) eqn:N; cbn [andb].
  - destruct (qeqb (sumf g_qmin G) (sumf g_qmax G)) eqn:E; cbn [negb].
    + rewrite sumf_const. qstrip. field. apply nq_nonzero. exact Hlen.
    + rewrite sumf_affine, sumf_const, sumf_sub. rewrite qadd_correct, qsub_correct in Hden. qstrip. field.
      split; [exact Hden | apply nq_nonzero; exact Hlen].
  - apply Nat.ltb_ge in N. assert (H1 : length G = 1%nat) by lia.
    destruct (length_one _ H1) as [g0 E0]. rewrite E0, sumf_cons, sumf_nil. ring.
Qed.

(* the model's quantities with the plain operations of Q *)
Lemma resid_p_eq n ref k v s f : resid_p n ref k v s f == cons_p n k v - gen_p n ref k v s + re f.
Proof. unfold resid_p. qstrip. reflexivity. Qed.
Lemma resid_q_eq n k v s f : resid_q n k v s f == cons_q n k v - gen_q n k v s + im f.
Proof. unfold resid_q. qstrip. reflexivity. Qed.
Lemma flows_re n k v s : re (flows n k v s) == re s * base n - v * v * GS n k.
Proof. unfold flows. cbn [re]. qstrip. reflexivity. Qed.
Lemma flows_im n k v s : im (flows n k v s) == im s * base n + v * v * BS n k.
Proof. unfold flows. cbn [im]. qstrip. reflexivity. Qed.
Lemma mism_p_eq n k v s : mism_p n k v s == re s * base n - (sumf g_pg (gens_on_at n k) - re (Sload n k v)).
Proof. unfold mism_p. qstrip. reflexivity. Qed.
Lemma mism_q_eq n k v s : mism_q n k v s == im s * base n + im (Sload n k v).
Proof. unfold mism_q. qstrip. reflexivity. Qed.
Lemma p_bus_eq n k v s : p_bus n k v s == re s * base n + re (Sload n k v).
Proof. unfold p_bus. qstrip. reflexivity. Qed.
Lemma q_tot0_eq n k v s : q_tot0 n k v s == im s * base n + im (Sload n k v).
Proof. unfold q_tot0. qstrip. reflexivity. Qed.
(* the defects: what the bus-row fractions claim minus what the loads draw (zipdef), what the loads draw (gendef) *)
Lemma zipdef_p_eq n k v :
  zipdef_p n k v == zip_defect (vdl n) (qmul (PD n k) (z_cip (zip_row n k)) - sum_pci n k)
                                        (qmul (PD n k) (z_czp (zip_row n k)) - sum_pcz n k) v.
Proof. unfold zipdef_p, zip_defect. destruct (vdl n); cbn [negb]; [cbv zeta; qstrip|]; reflexivity. Qed.
Lemma zipdef_q_eq n k v :
  zipdef_q n k v == zip_defect (vdl n) (qmul (QD n k) (z_ciq (zip_row n k)) - sum_qci n k)
                                        (qmul (QD n k) (z_czq (zip_row n k)) - sum_qcz n k) v.
Proof. unfold zipdef_q, zip_defect. destruct (vdl n); cbn [negb]; [cbv zeta; qstrip|]; reflexivity. Qed.
Lemma gendef_p_eq n k v : gendef_p n k v == zip_defect (vdl n) (sum_pci n k) (sum_pcz n k) v.
Proof. unfold gendef_p, zip_defect. destruct (vdl n); cbn [negb]; [qstrip|]; reflexivity. Qed.
Lemma gendef_q_eq n k v : gendef_q n k v == zip_defect (vdl n) (sum_qci n k) (sum_qcz n k) v.
Proof. unfold gendef_q, zip_defect. destruct (vdl n); cbn [negb]; [qstrip|]; reflexivity. Qed.

(* P at a bus whose generators are not assigned the slack power (PQ and PV buses) *)
Lemma imbalance_p n ref k v sinj : (memn k ref && has_gen n k) = false ->
  resid_p n ref k v sinj (flows n k v sinj) == mism_p n k v sinj - zipdef_p n k v.
Proof.
  intros H. rewrite resid_p_eq, flows_re, mism_p_eq, zipdef_p_eq, (gen_p_noslack _ _ _ _ _ H), cons_p_closed, Sload_re.
  unfold zip_defect. destruct (vdl n); qstrip; ring.
Qed.
(* Q at a bus without a generator in service (PQ bus) *)
Lemma imbalance_q n k v sinj : has_gen n k = false ->
  resid_q n k v sinj (flows n k v sinj) == mism_q n k v sinj - zipdef_q n k v.
Proof.
  intros H. rewrite resid_q_eq, flows_im, mism_q_eq, zipdef_q_eq, cons_q_closed, Sload_im.
  unfold gen_q. rewrite (has_gen_false _ _ H), sumf_nil.
  unfold zip_defect. destruct (vdl n); qstrip; ring.
Qed.
(* P at a reference bus: the generators get  inj P + the demand the solver used *)
Lemma imbalance_ref_p n ref k v sinj : memn k ref = true -> split_ok n k = true ->
  resid_p n ref k v sinj (flows n k v sinj) == - zipdef_p n k v.
Proof.
  intros Hr Hs. rewrite resid_p_eq, flows_re, zipdef_p_eq, (gen_p_sum _ _ _ _ _ Hr Hs), cons_p_closed, p_bus_eq, Sload_re.
  unfold zip_defect. destruct (vdl n); qstrip; ring.
Qed.
(* Q at a generator bus: the generators get  inj Q + the demand the solver used, minus the EPS loss of the split *)
Lemma imbalance_gen_q n k v sinj : has_gen n k = true -> ~ qg_den n k == 0 ->
  resid_q n k v sinj (flows n k v sinj) == - zipdef_q n k v + qsplit_loss n k v sinj.
Proof.
  intros Hg Hd. rewrite resid_q_eq, flows_im, zipdef_q_eq, (gen_q_sum _ _ _ _ Hg Hd), cons_q_closed, q_tot0_eq, Sload_im.
  unfold zip_defect. destruct (vdl n); qstrip; ring.
Qed.
(* the rule before the repair (static PD): imbalance (v-1) sum p_i ci_i + (v^2-1) sum p_i cz_i *)
Lemma old_ref_p n k v sinj : resid_p_ref_old n k v sinj == gendef_p n k v.
Proof. unfold resid_p_ref_old, p_bus_old. qstrip. rewrite flows_re, gendef_p_eq, cons_p_closed. ring. Qed.
Lemma old_gen_q n k v sinj : resid_q_gen_old n k v sinj == gendef_q n k v.
Proof. unfold resid_q_gen_old, q_tot0_old. qstrip. rewrite flows_im, gendef_q_eq, cons_q_closed. ring. Qed.


(* the shape of G01p, G01q, G01gp, G01gq: the guard holds iff the defect vanishes at every voltage *)
Lemma zip_guard vd A a B b :
  (negb vd || (qeqb A a && qeqb B b) = true -> forall v, zip_defect vd (A - a) (B - b) v == 0) /\
  (negb vd || (qeqb A a && qeqb B b) = false -> exists v, 0 < v /\ ~ zip_defect vd (A - a) (B - b) v == 0).
Proof.
  unfold zip_defect. destruct vd; cbn [negb orb]; [|split; [reflexivity | discriminate]].
  split; intros H.
  - apply andb_true_iff in H. destruct H as [H1 H2]. apply qeqb_eq in H1, H2. intros v. rewrite H1, H2. ring.
  - (* (v-1) x + (v^2-1) y vanishing at v = 2 and at v = 3 forces x = y = 0 *)
    set (x := A - a). set (y := B - b).
    destruct (Qeq_dec ((2 - 1) * x + (2 * 2 - 1) * y) 0) as [E2|N2]; [|exists 2; split; [reflexivity | exact N2]].
    destruct (Qeq_dec ((3 - 1) * x + (3 * 3 - 1) * y) 0) as [E3|N3]; [|exists 3; split; [reflexivity | exact N3]].
    exfalso. apply andb_false_iff in H. destruct H as [H|H]; apply qeqb_false in H; apply H; unfold x, y in *; lra.
Qed.
Lemma G01p_zipdef n k v : G01p n k = true -> zipdef_p n k v == 0.
Proof. intros H. rewrite zipdef_p_eq. exact (proj1 (zip_guard _ _ _ _ _) H v). Qed.
Lemma G01q_zipdef n k v : G01q n k = true -> zipdef_q n k v == 0.
Proof. intros H. rewrite zipdef_q_eq. exact (proj1 (zip_guard _ _ _ _ _) H v). Qed.
Lemma G01gp_gendef n k v : G01gp n k = true -> gendef_p n k v == 0.
Proof.
  intros H. pose proof (proj1 (zip_guard (vdl n) (sum_pci n k) 0 (sum_pcz n k) 0) H v) as E.
  rewrite gendef_p_eq. unfold zip_defect in *. destruct (vdl n); [rewrite <- E; ring | reflexivity].
Qed.
Lemma G01gq_gendef n k v : G01gq n k = true -> gendef_q n k v == 0.
Proof.
  intros H. pose proof (proj1 (zip_guard (vdl n) (sum_qci n k) 0 (sum_qcz n k) 0) H v) as E.
  rewrite gendef_q_eq. unfold zip_defect in *. destruct (vdl n); [rewrite <- E; ring | reflexivity].
Qed.

(* one constant-impedance and one constant-power load on a PQ bus, |V| = 11/10, zero Newton mismatch *)
Definition wit_net : net :=
  mkNet [mkLoad 1 1 2 1 1 true 100 0 100 0; mkLoad 1 1 1 (1#2) 1 true 0 0 0 0] [] [] [] true 1 [(1%nat, 1%nat)].
Definition wit_v : Q := 11 # 10.
Definition wit_sinj : C := Copp (Sload wit_net 1 wit_v).
Lemma balance_refuted :
  exists n ref k v sinj, has_gen n k = false /\ mism_p n k v sinj == 0 /\ mism_q n k v sinj == 0 /\
    ~ resid_p n ref k v sinj (flows n k v sinj) == 0.
Proof.
  exists wit_net, [], 1%nat, wit_v, wit_sinj. vm_compute. repeat split; try reflexivity. intros E. discriminate E.
Qed.
(* the OLD rule: a constant-impedance load at the bus of the ext_grid (reference bus), |V| = 21/20 *)
Definition witg_net : net :=
  mkNet [mkLoad 0 0 2 1 1 true 100 0 100 0] [] [] [mkGen 0 0 0 0 0 1 true true] true 1 [(0%nat, 0%nat)].
Definition witg_v : Q := 21 # 20.
(* non-vacuity of the partial theorems: a bus with two ZIP loads of equal fractions, an sgen-free mix *)
Definition ok_net : net :=
  mkNet [mkLoad 1 1 2 1 1 true 50 50 50 50; mkLoad 1 1 1 (1#2) (1#2) true 50 50 50 50]
        [] [mkSh 1 1 (1#4) (1#2) 2 10 20 true] [] true 1 [(1%nat, 1%nat)].

(* res_bus = net consumption of the pandapower bus *)
Lemma sum_group_app pb l1 l2 : sum_group pb (l1 ++ l2) == sum_group pb l1 + sum_group pb l2.
Proof. unfold sum_group. rewrite filter_app. apply sumf_app. Qed.
Lemma sum_group_map {A} (key : A -> nat) (f : A -> Q) pb (L : list A) :
  sum_group pb (map (fun x => (key x, f x)) L) == sumf f (filter (fun x => Nat.eqb (key x) pb) L).
Proof.
  unfold sum_group. induction L as [|a L IH]; [reflexivity|].
  cbn [map filter fst]. destruct (Nat.eqb (key a) pb); [|exact IH].
  rewrite !sumf_cons, IH. reflexivity.
Qed.
(* generating elements are stacked with the opposite sign *)
Lemma sum_group_signed (f : pqel -> Q) pb L :
  sum_group pb (map (fun e => (e_pbus e, if e_gen e then qopp (f e) else f e)) L) ==
  sumf (fun e => qmul (pq_sign e) (f e)) (filter (fun e => Nat.eqb (e_pbus e) pb) L).
Proof. rewrite sum_group_map. apply sumf_ext. intros e _. unfold pq_sign. destruct (e_gen e); qstrip; ring. Qed.
(* a load result is the sum of its two stacked parts *)
Lemma res_load_p_parts n l v : res_load_p n l v ==
  if vdl n then load_const_p l + load_vdep_p l v else qmul (qmul (l_p l) (l_sc l)) (b2q (l_on l)).
Proof. unfold res_load_p, load_const_p, load_vdep_p. destruct (vdl n); [qstrip; ring | reflexivity]. Qed.
Lemma res_load_q_parts n l v : res_load_q n l v ==
  if vdl n then load_const_q l + load_vdep_q l v else qmul (qmul (l_q l) (l_sc l)) (b2q (l_on l)).
Proof. unfold res_load_q, load_const_q, load_vdep_q. destruct (vdl n); [qstrip; ring | reflexivity]. Qed.

Lemma res_bus_p_spec n ref vs ss pb : res_bus_p n ref vs ss pb == net_cons_p n ref vs ss pb.
Proof.
  unfold res_bus_p, net_cons_p, stack_p. qstrip.
  rewrite !sum_group_app, sum_group_signed, !sum_group_map.
  rewrite (sumf_ext _ _ _ (fun l _ => res_load_p_parts n l (vof vs (l_bus l)))).
  destruct (vdl n).
  - rewrite sum_group_app, !sum_group_map, sumf_add. ring.
  - rewrite sum_group_map. ring.
Qed.
Lemma res_bus_q_spec n vs ss pb : res_bus_q n vs ss pb == net_cons_q n vs ss pb.
Proof.
  unfold res_bus_q, net_cons_q, stack_q. qstrip.
  rewrite !sum_group_app, sum_group_signed, !sum_group_map.
  rewrite (sumf_ext _ _ _ (fun l _ => res_load_q_parts n l (vof vs (l_bus l)))).
  destruct (vdl n).
  - rewrite sum_group_app, !sum_group_map, sumf_add. ring.
  - rewrite sum_group_map. ring.
Qed.

Lemma dc_cons_p_old_closed n k v : dc_cons_p_old n k v == PD n k + v * v * GS n k.
Proof. unfold dc_cons_p_old, PD, GS. qstrip. rewrite sum_pq_res_p, sum_sh_res_p, sum_load_p0. ring. Qed.
Lemma dc_imbalance_old n k v pinj gsum :
  dc_resid_p_old n k v pinj gsum == dc_mism n k pinj gsum + dcdef_p n k v.
Proof. unfold dc_resid_p_old, dc_mism, dcdef_p, dc_flows. qstrip. rewrite dc_cons_p_old_closed. ring. Qed.
Lemma G01dc_dcdef n k v : G01dc n k v = true -> dcdef_p n k v == 0.
Proof.
  unfold G01dc, dcdef_p. intros H. apply orb_true_iff in H. qstrip.
  destruct H as [H|H]; apply qeqb_eq in H; [|qstrip_in H]; rewrite H; ring.
Qed.

(* dcline terminals cancel out of res_bus *)
Lemma res_bus_dcl_p n ref vs ss dcl pb :
  res_bus_p_dcl n ref vs ss dcl pb == net_cons_p n ref vs ss pb - sum_group pb dcl.
Proof. unfold res_bus_p_dcl. rewrite qsub_correct, res_bus_p_spec. reflexivity. Qed.
Lemma res_bus_dcl_q n vs ss dcl pb :
  res_bus_q_dcl n vs ss dcl pb == net_cons_q n vs ss pb - sum_group pb dcl.
Proof. unfold res_bus_q_dcl. rewrite qsub_correct, res_bus_q_spec. reflexivity. Qed.

(* limited gens folded into a ZIP bus demand *)
Lemma Sload_fold_re n k v pl ql :
  re (Sload_fold n k v pl ql) ==
  re (Sload n k v) - pl - zip_defect (vdl n) (pl * z_cip (zip_row n k)) (pl * z_czp (zip_row n k)) v.
Proof. unfold Sload_fold, Sload, vdep, zip_defect. destruct (vdl n); cbn [re]; qstrip; ring. Qed.
Lemma Sload_fold_im n k v pl ql :
  im (Sload_fold n k v pl ql) ==
  im (Sload n k v) - ql - zip_defect (vdl n) (ql * z_ciq (zip_row n k)) (ql * z_czq (zip_row n k)) v.
Proof. unfold Sload_fold, Sload, vdep, zip_defect. destruct (vdl n); cbn [im]; qstrip; ring. Qed.
Lemma qlimdef_p_eq n k v pl :
  qlimdef_p n k v pl == zip_defect (vdl n) (pl * z_cip (zip_row n k)) (pl * z_czp (zip_row n k)) v.
Proof. unfold qlimdef_p, zip_defect. destruct (vdl n); cbn [negb]; [cbv zeta; qstrip; ring | reflexivity]. Qed.
Lemma qlimdef_q_eq n k v ql :
  qlimdef_q n k v ql == zip_defect (vdl n) (ql * z_ciq (zip_row n k)) (ql * z_czq (zip_row n k)) v.
Proof. unfold qlimdef_q, zip_defect. destruct (vdl n); cbn [negb]; [cbv zeta; qstrip; ring | reflexivity]. Qed.
(* witness: a gen with PG = 20 at its limit on a bus with one constant-impedance load, |V| = 99/100, zero folded mismatch *)
Definition witq_net : net :=
  mkNet [mkLoad 1 1 10 4 1 true 100 0 100 0] [] [] [mkGen 1 1 20 (-5) 5 0 false false] true 1 [(1%nat, 1%nat)].
