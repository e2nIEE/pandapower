(* C03 — global conservation composed with C01's nodal balance theorem:
   zero Newton mismatch and the C01 guards at every bus  ==>  sum(generation) - sum(consumption) = sum(branch losses),
   where generation / consumption are the result-table quantities of C01.Model (gen rows after pfsoln, loads with their own ZIP
   law at the solved voltage, sgens, storages, wards, shunts) and the losses are pl_mw = p_from + p_to of the C02 branch rows
   (C03.Model.loss_reported) at the voltages whose Ybus injection entered the balance. *)
From Coq Require Import QArith Qabs List Lqa Setoid Morphisms.
From PPV Require Import Base.QN Base.QC C01.Model C01.Balance C01.YbusModel C01.BranchModel C01.Branch.
From PPV Require Import C03.ComposeModel.
From PPV Require C31.Model C02.Model C02.Proofs C03.Model C03.Proofs.
Import ListNotations.
Open Scope Q_scope.

(* C01 at one bus, with the flows of the C02 rows: reported generation - reported consumption = active power leaving over the rows *)
Lemma bus_balance n ref ps V k v :
  ~ base n == 0 -> v * v == cnorm2 (vat V k) -> G03 n ref k = true ->
  ((memn k ref && has_gen n k) = false -> mism_p n k v (inj_of n ps V k) == 0) ->
  gen_p n ref k v (inj_of n ps V k) - cons_p n k v == re (row_flow_sum ps V (base n) k).
Proof.
  intros Hb Hv G Hm. unfold G03 in G. apply andb_true_iff in G. destruct G as [G1 G2].
  pose proof (G01p_zipdef n k v G1) as Z.
  destruct (flows_is_row_flow_sum n ps V k v Hb Hv) as [E _].
  unfold inj_of in *. set (s := s_inj _ _ V k) in *.
  assert (R : resid_p n ref k v s (flows n k v s) == 0).
  { destruct (memn k ref && has_gen n k) eqn:C.
    - cbn [negb orb] in G2. apply andb_true_iff in C. destruct C as [C1 _].
      rewrite (imbalance_ref_p n ref k v _ C1 G2), Z. ring.
    - rewrite (imbalance_p n ref k v _ C), (Hm eq_refl), Z. ring. }
  rewrite resid_p_eq, E in R. lra.
Qed.

(* double counting on the flow table of C01.BranchModel: the C03 lemma on [bflow] rows *)
Definition to_bflow (e : nat * nat * (C * C)) : C03.Proofs.bflow :=
  let '(f, t, s) := e in C03.Proofs.Build_bflow f t (re (fst s)) (re (snd s)).
Lemma tab_sum_outflow tab k : re (tab_sum tab k) == C03.Proofs.bus_outflow (map to_bflow tab) k.
Proof.
  induction tab as [|[[f t] s] tab IH]; [reflexivity|].
  cbn [tab_sum map]. unfold C03.Proofs.bus_outflow in *. cbn [map C03.Proofs.qsum]. rewrite <- IH.
  unfold C03.Proofs.at_bus, to_bflow. cbn [C03.Proofs.bf_f C03.Proofs.bf_t C03.Proofs.bf_pf C03.Proofs.bf_pt].
  unfold Cadd. cbn [re]. rewrite !qadd_correct.
  destruct (Nat.eqb f k), (Nat.eqb t k); cbn [re C0]; ring.
Qed.

Lemma row_loss_eq V sn p : row_loss V sn p == re (fst (row_flows V sn p)) + re (snd (row_flows V sn p)).
Proof.
  unfold row_loss, C03.Model.loss_reported, row_flows, stamps_of, C02.Model.pl, Cadd. cbn [re]. apply qadd_correct.
Qed.

Lemma qsum_ext {A} (f g : A -> Q) l : (forall a, In a l -> f a == g a) -> C03.Proofs.qsum (map f l) == C03.Proofs.qsum (map g l).
Proof.
  induction l as [|a l IH]; intros H; [reflexivity|]. cbn [map C03.Proofs.qsum].
  rewrite (H a (or_introl eq_refl)), IH; [reflexivity | intros b Hb; apply H; right; exact Hb].
Qed.

(* the composed theorem *)
Lemma conservation_composed : forall n ref ps V (v : nat -> Q) buses,
  ~ base n == 0 -> NoDup buses ->
  (forall p, In p ps -> In (pr_f p) buses /\ In (pr_t p) buses) ->
  (forall k, In k buses -> v k * v k == cnorm2 (vat V k)) ->
  (forall k, In k buses -> G03 n ref k = true) ->
  (forall k, In k buses -> (memn k ref && has_gen n k) = false -> mism_p n k (v k) (inj_of n ps V k) == 0) ->
  C03.Proofs.qsum (map (fun k => gen_p n ref k (v k) (inj_of n ps V k) - cons_p n k (v k)) buses)
  == C03.Proofs.qsum (map (row_loss V (base n)) ps).
Proof.
  intros n ref ps V v buses Hb Hnd Hin Hv HG Hm.
  set (tab := flow_table ps V (base n)).
  rewrite (C03.Proofs.conservation_from_nodal_balance buses (map to_bflow tab)
             (fun k => gen_p n ref k (v k) (inj_of n ps V k) - cons_p n k (v k)) Hnd).
  - unfold tab, flow_table. rewrite !map_map. apply qsum_ext. intros p _.
    cbn [to_bflow C03.Proofs.bf_pf C03.Proofs.bf_pt fst snd]. rewrite row_loss_eq. reflexivity.
  - intros b Hbf. unfold tab, flow_table in Hbf. rewrite map_map in Hbf. apply in_map_iff in Hbf.
    destruct Hbf as (p & <- & Hp). cbn [to_bflow C03.Proofs.bf_f C03.Proofs.bf_t]. apply Hin. exact Hp.
  - intros k Hk. rewrite <- tab_sum_outflow. apply (bus_balance n ref ps V k (v k) Hb (Hv k Hk) (HG k Hk) (Hm k Hk)).
Qed.

(* with passive rows (C03_pi_loss_nonneg) the generation covers the consumption *)
Definition row_passive (sn : Q) (p : prow) : Prop :=
  let br := pr_row p in let e := pr_e p in
  C02.Model.b_stat br = true /\ C02.Model.b_ra br == 0 /\ C02.Model.b_xa br == 0 /\
  ~ C02.Model.b_r br * C02.Model.b_r br + C02.Model.b_x br * C02.Model.b_x br == 0 /\ ~ C02.Model.b_tap br == 0 /\
  re e * re e + im e * im e == 1 /\ 0 <= C02.Model.b_r br /\ 0 <= C02.Model.b_g br /\ 0 <= C02.Model.b_g br + C02.Model.b_ga br.
Lemma qsum_nonneg {A} (f : A -> Q) l : (forall a, In a l -> 0 <= f a) -> 0 <= C03.Proofs.qsum (map f l).
Proof.
  induction l as [|a l IH]; intros H; [apply Qle_refl|]. cbn [map C03.Proofs.qsum].
  pose proof (H a (or_introl eq_refl)). assert (0 <= C03.Proofs.qsum (map f l)) by (apply IH; intros b Hb; apply H; right; exact Hb). lra.
Qed.
(* non-vacuity: reference bus 0 (ext_grid row) -- branch r = 0.01, x = 0.1 -- bus 1 with a constant-impedance load (voltage
   dependent: 100 % const_z) sized so that the Newton P mismatch at |V1| = 13/20 is exactly zero *)
Definition ex_ps : list prow := [mkP 0 1 (C02.Model.mkB (1#100) (1#10) 0 0 0 0 0 0 1 0 true 100) (mkC 1 0) 20].
Definition ex_V : list C := [mkC 1 0; mkC (3#5) (-1#4)].
Definition ex_v (k : nat) : Q := match k with O => 1 | _ => 13 # 20 end.
Definition ex_net : net :=
  mkNet [mkLoad 1 1 (107100 # 17069) 0 1 true 100 0 100 0] [] [] [mkGen 0 0 0 0 0 0 true true] true 1 [(1%nat, 1%nat)].
