(* C03 — energy conservation / non-negative losses of passive branches, on the shared branch model C02/Model.v *)
From Coq Require Import QArith List Lqa Setoid Morphisms.
From PPV Require Import Base.QN Base.QC C02.Model C02.Proofs C03.Model.
Import ListNotations.
Open Scope Q_scope.

Definition csq (z : C) : Q := re z * re z + im z * im z.
Lemma csq_nonneg z : 0 <= csq z. Proof. unfold csq. nra. Qed.
Lemma add_nonneg a b : 0 <= a -> 0 <= b -> 0 <= a + b. Proof. intros; lra. Qed.

Definition port_power (vf vt : C) (i : C * C) : C := Cadd (Cmul vf (Cconj (fst i))) (Cmul vt (Cconj (snd i))).
Lemma re_pl a b : re (pl a b) == re a + re b.
Proof. unfold pl, Cadd. cbn [re]. apply qadd_correct. Qed.
Lemma re_scale k z : re (Cscale k z) == k * re z.
Proof. unfold Cscale. cbn [re]. apply qmul_correct. Qed.

Lemma re_port_power sn vf vt i :
  sn * re (Cmul vf (Cconj (fst i))) + sn * re (Cmul vt (Cconj (snd i))) == sn * re (port_power vf vt i).
Proof. unfold port_power, Cadd. cbn [re]. rewrite qadd_correct. ring. Qed.

(* pi model (lines, impedances with zft = ztf, xward,
   switch branches, pi-model transformers) with an arbitrary complex tap:
   P_from + P_to = S_N ( Re(1/z) |v_f/n - v_t|^2 + g_f/2 |v_f/n|^2 + g_t/2 |v_t|^2 ) *)
(* the pi circuit itself: series resistance and the two shunt conductances *)
Lemma pi_passive r x g b ga ba vf vt : ~ r * r + x * x == 0 ->
  re (port_power vf vt (pi_circuit_I r x g b ga ba vf vt))
  == r / (r * r + x * x) * csq (Csub vf vt) + g / 2 * csq vf + (g + ga) / 2 * csq vt.
Proof.
  intros Hz. destruct vf, vt. unfold port_power, pi_circuit_I, csq. cbn [fst snd]. cunfold. qstrip. field. exact Hz.
Qed.
(* behind the ideal transformer the flows of a symmetric row are those of its pi circuit (C02.Proofs.flows_pi_circuit) *)
Lemma pi_loss_identity : forall br e vf vt sn,
  b_stat br = true -> b_ra br == 0 -> b_xa br == 0 ->
  ~ (b_r br) * (b_r br) + (b_x br) * (b_x br) == 0 -> ~ b_tap br == 0 -> re e * re e + im e * im e == 1 ->
  let s := flows (stamps_core br e) vf vt sn in
  let vf' := Cdiv vf (Cscale (b_tap br) e) in
  re (fst s) + re (snd s) ==
  sn * (b_r br / (b_r br * b_r br + b_x br * b_x br) * csq (Csub vf' vt)
        + b_g br / 2 * csq vf' + (b_g br + b_ga br) / 2 * csq vt).
Proof.
  intros br e vf vt sn Hs Hra Hxa Hz Ht He s vf'.
  destruct (flows_pi_circuit br e vf vt sn Hs Hra Hxa Ht He) as [F1 F2]. cbn [fst snd] in F1, F2. fold vf' in F1, F2.
  unfold s. rewrite F1, F2, !re_scale, re_port_power, (pi_passive _ _ _ _ _ _ _ _ Hz). reflexivity.
Qed.

Lemma pi_loss_nonneg : forall br e vf vt sn,
  b_stat br = true -> b_ra br == 0 -> b_xa br == 0 ->
  ~ (b_r br) * (b_r br) + (b_x br) * (b_x br) == 0 -> ~ b_tap br == 0 -> re e * re e + im e * im e == 1 ->
  0 <= sn -> 0 <= b_r br -> 0 <= b_g br -> 0 <= b_g br + b_ga br ->
  0 <= re (pl (fst (flows (stamps_core br e) vf vt sn)) (snd (flows (stamps_core br e) vf vt sn))).
Proof.
  intros br e vf vt sn Hs Hra Hxa Hz Ht He Hsn Hr Hg Hgt.
  rewrite re_pl, (pi_loss_identity br e vf vt sn Hs Hra Hxa Hz Ht He).
  set (vf' := Cdiv vf (Cscale (b_tap br) e)).
  pose proof (csq_nonneg (Csub vf' vt)) as P1. pose proof (csq_nonneg vf') as P2. pose proof (csq_nonneg vt) as P3.
  assert (Hd : 0 < b_r br * b_r br + b_x br * b_x br).
  { destruct (Qlt_le_dec 0 (b_r br * b_r br + b_x br * b_x br)) as [H|H]; [exact H|]. exfalso. apply Hz. nra. }
  assert (Q1 : 0 <= b_r br / (b_r br * b_r br + b_x br * b_x br)).
  { apply Qle_shift_div_l; [exact Hd | rewrite Qmult_0_l; exact Hr]. }
  assert (Q2 : 0 <= b_g br / 2) by (apply Qle_shift_div_l; [reflexivity | rewrite Qmult_0_l; exact Hg]).
  assert (Q3 : 0 <= (b_g br + b_ga br) / 2) by (apply Qle_shift_div_l; [reflexivity | rewrite Qmult_0_l; exact Hgt]).
  apply Qmult_le_0_compat; [exact Hsn|].
  repeat apply add_nonneg; apply Qmult_le_0_compat; assumption.
Qed.

(* T model: passivity of the T circuit and of the
   pi parameters _wye_delta derives from it *)
Lemma t_passive : forall za zb yc vm It,
  let If := Csub (Cmul yc vm) It in
  re (port_power (Cadd vm (Cmul za If)) (Cadd vm (Cmul zb It)) (If, It))
  == re za * csq If + re zb * csq It + re yc * csq vm.
Proof.
  intros [a1 a2] [b1 b2] [g b] [m1 m2] [t1 t2]. unfold port_power, csq. cbn [fst snd].
  cunfold. qstrip. ring.
Qed.

Global Instance port_power_proper : Proper (Ceq ==> Ceq ==> Ceq2 ==> Ceq) port_power.
Proof.
  intros a a' Ha b b' Hb [i1 i2] [j1 j2] [H1 H2]. unfold port_power. cbn [fst snd] in *.
  rewrite Ha, Hb, H1, H2. reflexivity.
Qed.
Global Instance csq_proper : Proper (Ceq ==> Qeq) csq.
Proof. intros a b [H1 H2]. unfold csq. rewrite H1, H2. reflexivity. Qed.

Lemma t_circuit_loss_nonneg : forall za zb yc vf vt,
  ~ za ==c C0 -> ~ zb ==c C0 -> ~ Cadd (Cadd za zb) (Cmul (Cmul za zb) yc) ==c C0 ->
  0 <= re za -> 0 <= re zb -> 0 <= re yc ->
  0 <= re (port_power vf vt (t_circuit_I za zb yc vf vt)).
Proof.
  intros za zb yc vf vt Ha Hb Hd Pa Pb Pc.
  unfold t_circuit_I.
  set (vm := Cdiv (Cadd (Cdiv vf za) (Cdiv vt zb)) (Cadd (Cadd (Cinv za) (Cinv zb)) yc)).
  set (It := Cdiv (Csub vt vm) zb).
  assert (Hd' : ~ Cadd (Cadd zb za) (Cmul yc (Cmul za zb)) ==c C0) by (intro K; apply Hd; rewrite <- K; ring).
  assert (EI : Cdiv (Csub vf vm) za ==c Csub (Cmul yc vm) It).
  { unfold It, vm. field. repeat split; assumption. }
  assert (Ef : vf ==c Cadd vm (Cmul za (Csub (Cmul yc vm) It))).
  { rewrite <- EI. field. exact Ha. }
  assert (Et : vt ==c Cadd vm (Cmul zb It)).
  { unfold It. field. exact Hb. }
  assert (E : port_power vf vt (Cdiv (Csub vf vm) za, It) ==c
              port_power (Cadd vm (Cmul za (Csub (Cmul yc vm) It))) (Cadd vm (Cmul zb It)) (Csub (Cmul yc vm) It, It)).
  { apply port_power_proper; [exact Ef | exact Et | split; [exact EI | reflexivity]]. }
  rewrite E, t_passive.
  pose proof (csq_nonneg (Csub (Cmul yc vm) It)). pose proof (csq_nonneg It). pose proof (csq_nonneg vm).
  repeat apply add_nonneg; apply Qmult_le_0_compat; assumption.
Qed.

(* the pi parameters returned by _wye_delta (trafo_model = "t") draw non-negative active power for all terminal
   voltages when the T circuit is passive: r*rr >= 0, r*(1-rr) >= 0, g >= 0 *)
Lemma t_model_loss_nonneg : forall r x g b rr xr vf vt,
  let za := wd_za r x rr xr in let zb := wd_zb r x rr xr in let yc := mkC g b in
  ~ za ==c C0 -> ~ zb ==c C0 -> ~ yc ==c C0 ->
  ~ Cadd (Cadd za zb) (Cmul (Cmul za zb) yc) ==c C0 ->
  0 <= re za -> 0 <= re zb -> 0 <= g ->
  let '(r', x', g', b', ga, ba) := wye_delta_core r x g b rr xr in
  0 <= re (port_power vf vt (pi_circuit_I r' x' g' b' ga ba vf vt)).
Proof.
  intros r x g b rr xr vf vt za zb yc Ha Hb Hc Hd Pa Pb Pg.
  pose proof (wye_delta_two_port r x g b rr xr vf vt Ha Hb Hc Hd) as W.
  destruct (wye_delta_core r x g b rr xr) as [[[[[r' x'] g'] b'] ga] ba].
  assert (E : port_power vf vt (pi_circuit_I r' x' g' b' ga ba vf vt) ==c port_power vf vt (t_circuit_I za zb yc vf vt)).
  { apply port_power_proper; [reflexivity | reflexivity | exact W]. }
  rewrite E. apply t_circuit_loss_nonneg; assumption.
Qed.

(* global conservation (double counting)
   if every bus balances (injection = sum of the terminal flows of the branches at the bus), the sum of all
   injections (generation - consumption - shunts) equals the sum of all branch losses *)
Record bflow := { bf_f : nat; bf_t : nat; bf_pf : Q; bf_pt : Q }.
Fixpoint qsum (l : list Q) : Q := match l with [] => 0 | a :: l' => a + qsum l' end.
Definition at_bus (k : nat) (b : bflow) : Q :=
  (if Nat.eqb (bf_f b) k then bf_pf b else 0) + (if Nat.eqb (bf_t b) k then bf_pt b else 0).
Definition bus_outflow (brs : list bflow) (k : nat) : Q := qsum (map (at_bus k) brs).

Lemma qsum_indicator (buses : list nat) n v : NoDup buses -> In n buses ->
  qsum (map (fun k => if Nat.eqb n k then v else 0) buses) == v.
Proof.
  induction buses as [|k l IH]; intros Hnd Hin; [inversion Hin|].
  inversion Hnd as [|? ? Hk Hl]; subst. cbn [map qsum].
  destruct (Nat.eqb n k) eqn:E.
  - apply Nat.eqb_eq in E. subst k.
    assert (Z : qsum (map (fun k => if Nat.eqb n k then v else 0) l) == 0).
    { clear IH Hnd Hl Hin. induction l as [|a l IH]; [reflexivity|]. cbn [map qsum].
      destruct (Nat.eqb n a) eqn:E.
      + apply Nat.eqb_eq in E. subst a. exfalso. apply Hk. left. reflexivity.
      + rewrite IH; [ring | intro K; apply Hk; right; exact K]. }
    rewrite Z. ring.
  - destruct Hin as [->|Hin]; [rewrite Nat.eqb_refl in E; discriminate|].
    rewrite (IH Hl Hin). ring.
Qed.

Lemma qsum_map_add {A} (f g : A -> Q) l : qsum (map (fun a => f a + g a) l) == qsum (map f l) + qsum (map g l).
Proof. induction l as [|a l IH]; cbn [map qsum]; [ring | rewrite IH; ring]. Qed.

Lemma global_conservation : forall (buses : list nat) (brs : list bflow),
  NoDup buses -> (forall b, In b brs -> In (bf_f b) buses /\ In (bf_t b) buses) ->
  qsum (map (bus_outflow brs) buses) == qsum (map (fun b => bf_pf b + bf_pt b) brs).
Proof.
  intros buses brs Hnd. induction brs as [|b brs IH]; intros Hin.
  - unfold bus_outflow. cbn [map qsum]. clear Hnd Hin. induction buses as [|k l IHl]; cbn [map qsum]; [reflexivity|].
    rewrite IHl. ring.
  - assert (E : qsum (map (bus_outflow (b :: brs)) buses)
                == qsum (map (fun k => at_bus k b) buses) + qsum (map (bus_outflow brs) buses)).
    { unfold bus_outflow. cbn [map qsum]. apply (qsum_map_add (fun k => at_bus k b) (fun k => qsum (map (at_bus k) brs))). }
    rewrite E, IH; [|intros b' Hb'; apply Hin; right; exact Hb'].
    cbn [map qsum]. destruct (Hin b (or_introl eq_refl)) as [Hf Ht].
    unfold at_bus. rewrite (qsum_map_add (fun k => if Nat.eqb (bf_f b) k then bf_pf b else 0)
                                         (fun k => if Nat.eqb (bf_t b) k then bf_pt b else 0)).
    rewrite (qsum_indicator buses (bf_f b) (bf_pf b) Hnd Hf), (qsum_indicator buses (bf_t b) (bf_pt b) Hnd Ht). ring.
Qed.

(* corollary in the property's words: nodal balances  =>  sum(generation - consumption) = sum(losses) *)
Lemma conservation_from_nodal_balance : forall buses brs (inj : nat -> Q),
  NoDup buses -> (forall b, In b brs -> In (bf_f b) buses /\ In (bf_t b) buses) ->
  (forall k, In k buses -> inj k == bus_outflow brs k) ->
  qsum (map inj buses) == qsum (map (fun b => bf_pf b + bf_pt b) brs).
Proof.
  intros buses brs inj Hnd Hin Hbal. rewrite <- (global_conservation buses brs Hnd Hin).
  clear Hnd Hin. induction buses as [|k l IH]; cbn [map qsum]; [reflexivity|].
  rewrite (Hbal k (or_introl eq_refl)), IH; [reflexivity | intros j Hj; apply Hbal; right; exact Hj].
Qed.

Lemma loss_is_dissipation : forall br e vf vt sn,
  b_stat br = true -> b_ra br == 0 -> b_xa br == 0 ->
  ~ (b_r br) * (b_r br) + (b_x br) * (b_x br) == 0 -> ~ b_tap br == 0 -> re e * re e + im e * im e == 1 ->
  re (loss_reported br e vf vt sn) == dissipation br e vf vt sn.
Proof.
  intros br e vf vt sn Hs Hra Hxa Hz Ht He.
  unfold loss_reported.
  rewrite re_pl, (pi_loss_identity br e vf vt sn Hs Hra Hxa Hz Ht He).
  unfold dissipation, csq. rewrite (qeqb_ne _ _ Ht).
  set (vf' := Cdiv vf (Cscale (b_tap br) e)). set (d := Csub vf' vt).
  unfold cnorm2. cbn [re im]. qstrip. reflexivity.
Qed.
Lemma dissipation_nonneg : forall br e vf vt sn,
  b_stat br = true -> b_ra br == 0 -> b_xa br == 0 ->
  ~ (b_r br) * (b_r br) + (b_x br) * (b_x br) == 0 -> ~ b_tap br == 0 -> re e * re e + im e * im e == 1 ->
  0 <= sn -> 0 <= b_r br -> 0 <= b_g br -> 0 <= b_g br + b_ga br ->
  0 <= dissipation br e vf vt sn.
Proof.
  intros. rewrite <- (loss_is_dissipation br e vf vt sn) by assumption.
  unfold loss_reported. apply pi_loss_nonneg; assumption.
Qed.
