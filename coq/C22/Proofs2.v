(* C22 — the edits that remove rows: every net along a cascade of drops has fewer referencing rows than the one before ([sub]),
   so what has to be shown is that the keys that go are no longer referenced ([resolves_drop_keys']); drop_lines / drop_trafos /
   drop_elements, drop_buses, fuse_buses, select_subnet.  Then reindex_buses, create_continuous_bus/elements_index and
   reachability over guarded edit lists. *)
From Coq Require Import ZArith List Bool String Lia.
From PPV Require Import C22.Model C22.Proofs.
Import ListNotations.
Open Scope Z_scope.

(* "all foreign keys INTO the tables P resolve" *)
Definition ResolvesP (P : tname -> Prop) (n : net) : Prop :=
  types_ok n /\ forall t x, P t -> refs n t x -> In x (keys n t).
Lemma ResolvesP_all n : ResolvesP (fun _ => True) n <-> Resolves n.
Proof. unfold ResolvesP, Resolves. split; intros [T R]; (split; [exact T|]); intros; [apply R | apply R]; auto. Qed.

(* n' has fewer referencing rows than n (group members / controller targets may shrink); the bus table is not mentioned *)
Record sub (n' n : net) : Prop := {
  S_el : forall k r, In r (el n' k) -> In r (el n k);
  S_sw : forall s, In s (sw n') -> In s (sw n);
  S_meas : forall m, In m (meas n') -> In m (meas n);
  S_pc : forall c, In c (pcost n') -> In c (pcost n);
  S_wc : forall c, In c (wcost n') -> In c (wcost n);
  S_grp : forall g, In g (grp n') -> exists g0, In g0 (grp n) /\ gty g = gty g0 /\ forall x, In x (gmem g) -> In x (gmem g0);
  S_ctrl : forall c, In c (ctrl n') -> exists c0, In c0 (ctrl n) /\ ctty c = ctty c0 /\ forall x, In x (ctidx c) -> In x (ctidx c0);
  S_rbus : forall x, In x (rbus n') -> In x (rbus n);
  S_res : forall k x, In x (res n' k) -> In x (res n k) }.

Lemma sub_refl n : sub n n.
Proof. constructor; auto; intros x Hx; exists x; auto. Qed.
Lemma sub_trans a b c : sub a b -> sub b c -> sub a c.
Proof.
  intros [A1 A2 A3 A4 A5 A6 A7 A8 A9] [B1 B2 B3 B4 B5 B6 B7 B8 B9]. constructor; auto.
  - intros g Hg. destruct (A6 g Hg) as [g0 (H1 & H2 & H3)]. destruct (B6 g0 H1) as [g1 (H4 & H5 & H6)]. exists g1. repeat split; auto; congruence.
  - intros x Hx. destruct (A7 x Hx) as [g0 (H1 & H2 & H3)]. destruct (B7 g0 H1) as [g1 (H4 & H5 & H6)]. exists g1. repeat split; auto; congruence.
Qed.
Lemma sub_refs n' n t x : sub n' n -> refs n' t x -> refs n t x.
Proof.
  intros [A1 A2 A3 A4 A5 A6 A7 A8 A9] R. destruct R.
  - eapply R_el; eauto.
  - apply R_swb; auto.
  - apply R_swe; auto.
  - apply R_meas; auto.
  - eapply R_side; eauto.
  - apply R_cost. apply in_app_iff in H. apply in_app_iff. destruct H; [left|right]; auto.
  - destruct (A6 g H) as [g0 (H1 & H2 & H3)]. rewrite H2. eapply R_grp; eauto.
  - destruct (A7 c H) as [c0 (H1 & H2 & H3)]. rewrite H2. eapply R_ctrl; eauto.
  - apply R_rbus; auto.
  - apply R_res; auto.
Qed.
Lemma sub_types n' n : sub n' n -> types_ok n -> types_ok n'.
Proof.
  intros S [Tm Tg]. split.
  - intros m Hm. apply Tm, (S_meas _ _ S), Hm.
  - intros g Hg. destruct (S_grp _ _ S g Hg) as [g0 (H1 & H2 & _)]. rewrite H2. apply Tg, H1.
Qed.

(* the key lemma for every edit that only removes rows: the keys that disappear ([lost]) are not referenced any more *)
Lemma resolves_drop_keys (P : tname -> Prop) n n' (lost : tname -> Z -> Prop) :
  sub n' n -> ResolvesP P n ->
  (forall t x, P t -> In x (keys n t) -> ~ lost t x -> In x (keys n' t)) ->
  (forall t x, P t -> refs n' t x -> ~ lost t x) -> ResolvesP P n'.
Proof.
  intros S [T R] K L. split; [eapply sub_types; eauto|]. intros t x Pt Rf. apply K; [exact Pt | | apply L; assumption].
  apply R; [exact Pt | eapply sub_refs; eauto].
Qed.

(* who can reference what *)
Lemma refs_el_inv n k x : refs n (TEl k) x ->
  (exists s, In s (sw n) /\ sw_target (swt s) = TEl k /\ sel s = x) \/
  (exists m, In m (meas n) /\ mty m = TEl k /\ mel m = x) \/
  (exists c, In c (pcost n ++ wcost n) /\ cet c = k /\ cel c = x) \/
  (exists g, In g (grp n) /\ gty g = TEl k /\ In x (gmem g)) \/
  (exists c, In c (ctrl n) /\ ctty c = k /\ In x (ctidx c)) \/ In x (res n k).
Proof.
  intros R. inversion R; subst.
  - left. exists s. auto.
  - right. left. exists m. auto.
  - right. right. left. exists c. auto.
  - right. right. right. left. exists g. auto.
  - right. right. right. right. left. exists c. auto.
  - right. right. right. right. right. assumption.
Qed.
Lemma refs_bus_inv n b : refs n TBus b ->
  (exists k r, In r (el n k) /\ In b (ebus r)) \/
  (exists s, In s (sw n) /\ sbus s = b) \/
  (exists s, In s (sw n) /\ swt s = SB /\ sel s = b) \/
  (exists m, In m (meas n) /\ mty m = TBus /\ mel m = b) \/
  (exists m, In m (meas n) /\ msd m = SideBus b) \/
  (exists g, In g (grp n) /\ gty g = TBus /\ In b (gmem g)) \/ In b (rbus n).
Proof.
  intros R. inversion R; subst.
  - left. exists k, r. auto.
  - right. left. exists s. auto.
  - right. right. left. exists s. destruct (swt s); try discriminate. auto.
  - right. right. right. left. exists m. auto.
  - right. right. right. right. left. exists m. auto.
  - right. right. right. right. right. left. exists g. auto.
  - right. right. right. right. right. right. assumption.
Qed.
Lemma refs_other_inv n t x : refs n t x -> t <> TBus -> (forall k, t <> TEl k) ->
  (exists m, In m (meas n) /\ mty m = t) \/ (exists g, In g (grp n) /\ gty g = t /\ In x (gmem g)).
Proof.
  intros R Hb He. destruct R; try congruence; try (exfalso; eapply He; reflexivity).
  - destruct (swt s); simpl in *; try congruence; exfalso; eapply He; reflexivity.
  - left. exists m. auto.
  - right. exists g. auto.
Qed.

Lemma refs_sw_inv n x : types_ok n -> refs n TSwitch x -> exists g, In g (grp n) /\ gty g = TSwitch /\ In x (gmem g).
Proof.
  intros [Tm Tg] R. apply refs_other_inv in R; [|discriminate|discriminate]. destruct R as [[m [H1 H2]]|H]; [|exact H].
  specialize (Tm m H1). rewrite H2 in Tm. discriminate.
Qed.

Lemma resolves_drop_keys' (P : tname -> Prop) n n' (lostb losts : Z -> Prop) (loste : ekind -> Z -> Prop) :
  sub n' n -> ResolvesP P n ->
  (forall x, P TBus -> In x (bus_ids n) -> ~ lostb x -> In x (bus_ids n')) ->
  (forall x, P TSwitch -> In x (map sid (sw n)) -> ~ losts x -> In x (map sid (sw n'))) ->
  (forall k x, P (TEl k) -> In x (el_ids n k) -> ~ loste k x -> In x (el_ids n' k)) ->
  (forall b, P TBus -> refs n' TBus b -> ~ lostb b) ->
  (forall x, P TSwitch -> refs n' TSwitch x -> ~ losts x) ->
  (forall k x, P (TEl k) -> refs n' (TEl k) x -> ~ loste k x) -> ResolvesP P n'.
Proof.
  intros S [T R] Kb Ks Ke Lb Ls Le. split; [eapply sub_types; eauto|]. intros t x Pt Rf.
  pose proof (R t x Pt (sub_refs _ _ _ _ S Rf)) as Hin.
  pose proof (refs_kinds n' t x (sub_types _ _ S T) Rf) as Ht. destruct t; try discriminate Ht.
  - apply Kb; auto.
  - apply Ks; auto.
  - apply Ke; auto.
Qed.

(* the primitive table edits only remove rows *)
Lemma sub_detach n t ids : sub (detach n t ids) n.
Proof.
  constructor; try (intros; assumption).
  - intros g Hg. apply in_detach in Hg. destruct Hg as (g0 & H1 & H2 & _ & H3 & _). exists g0. auto.
  - intros c Hc. exists c. auto.
Qed.
Lemma sub_set_sw n v : (forall s, In s v -> In s (sw n)) -> sub (set_sw n v) n.
Proof. intros H. constructor; simpl; auto; intros x Hx; exists x; auto. Qed.
Lemma sub_set_meas n v : (forall s, In s v -> In s (meas n)) -> sub (set_meas n v) n.
Proof. intros H. constructor; simpl; auto; intros x Hx; exists x; auto. Qed.
Lemma sub_set_bus n v : sub (set_bus n v) n.
Proof. constructor; simpl; auto; intros x Hx; exists x; auto. Qed.
Lemma sub_set_rbus n v : (forall s, In s v -> In s (rbus n)) -> sub (set_rbus n v) n.
Proof. intros H. constructor; simpl; auto; intros x Hx; exists x; auto. Qed.
Lemma upd_incl {A} (f : ekind -> list A) k v : (forall s, In s v -> In s (f k)) -> forall k' r, In r (upd f k v k') -> In r (f k').
Proof. intros H k' r Hr. unfold upd in Hr. destruct (ekind_beq k k') eqn:E; [apply ekind_beq_eq in E; subst; auto | exact Hr]. Qed.
Lemma sub_set_elk n k v : (forall s, In s v -> In s (el n k)) -> sub (set_elk n k v) n.
Proof. intros H. constructor; simpl; auto; try exact (upd_incl _ k v H); intros x Hx; exists x; auto. Qed.
Lemma sub_set_resk n k v : (forall s, In s v -> In s (res n k)) -> sub (set_resk n k v) n.
Proof. intros H. constructor; simpl; auto; try exact (upd_incl _ k v H); intros x Hx; exists x; auto. Qed.
Lemma sub_drop_meas_at n t ids : sub (drop_meas_at n t ids) n.
Proof. apply sub_set_meas. intros m H. apply filter_In in H. apply H. Qed.
Lemma sub_drop_res n k ids : sub (drop_res n k ids) n.
Proof. apply sub_set_resk. intros m H. apply filter_In in H. apply H. Qed.
Lemma sub_drop_costs_of n k ids : sub (drop_costs_of n k ids) n.
Proof.
  unfold drop_costs_of. constructor; simpl; auto; try (intros x Hx; exists x; auto); intros c H; apply filter_In in H; apply H.
Qed.
Lemma sub_set_ctrl n v :
  (forall c, In c v -> exists c0, In c0 (ctrl n) /\ ctty c = ctty c0 /\ forall x, In x (ctidx c) -> In x (ctidx c0)) -> sub (set_ctrl n v) n.
Proof. intros H. constructor; simpl; auto; intros x Hx; exists x; auto. Qed.
Lemma sub_drop_controllers_at n k ids : sub (drop_controllers_at n k ids) n.
Proof.
  unfold drop_controllers_at. destruct ids as [|i0 it]; [apply sub_refl|]. apply sub_set_ctrl. intros c Hc.
  apply in_flat_map in Hc. destruct Hc as [c0 [H0 H]]. exists c0. split; [exact H0|].
  destruct (ekind_beq (ctty c0) k); [|destruct H as [H|[]]; subst; auto].
  destruct (filter (fun i => negb (zin i (i0 :: it))) (ctidx c0)) eqn:F; [destruct H|].
  destruct (ctsingle c0); destruct H as [H|[]]; subst c; cbn [ctty ctidx]; auto. split; [reflexivity|].
  intros x Hx. rewrite <- F in Hx. apply filter_In in Hx. apply Hx.
Qed.
Ltac filt := let H := fresh in intros ? H; apply filter_In in H; exact (proj1 H).
Ltac sub_chain :=
  repeat first
    [ apply sub_refl
    | eapply sub_trans;
      [ first [ apply sub_detach | apply sub_drop_meas_at | apply sub_drop_res | apply sub_drop_costs_of
              | apply sub_drop_controllers_at | apply sub_set_bus
              | apply sub_set_sw; filt | apply sub_set_meas; filt | apply sub_set_rbus; filt | apply sub_set_elk; filt ] | ] ].

(* one stage of a cascade of drops *)
Definition okstep (P : tname -> Prop) (n n' : net) : Prop := ResolvesP P n' /\ sub n' n /\ bus n' = bus n.
Lemma okstep_refl P n : ResolvesP P n -> okstep P n n.
Proof. intros R. split; [exact R|]. split; [apply sub_refl | reflexivity]. Qed.
Lemma okstep_trans P a b c : okstep P a b -> okstep P b c -> okstep P a c.
Proof. intros (_ & S1 & B1) (R & S2 & B2). split; [exact R|]. split; [eapply sub_trans; eauto | congruence]. Qed.

Lemma resolves_same_keys P n n' :
  sub n' n -> bus n' = bus n -> el n' = el n -> sw n' = sw n -> ResolvesP P n -> ResolvesP P n'.
Proof.
  intros S Hb He Hs R. apply (resolves_drop_keys' P n n' (fun _ => False) (fun _ => False) (fun _ _ => False)); auto.
  - intros x _ Hx _. unfold bus_ids. rewrite Hb. exact Hx.
  - intros x _ Hx _. rewrite Hs. exact Hx.
  - intros k x _ Hx _. unfold el_ids. rewrite He. exact Hx.
Qed.

(* what the primitive edits leave behind *)
Lemma detached n t ids g : In g (grp (detach n t ids)) -> gty g = t -> forall x, In x (gmem g) -> ~ In x ids.
Proof. intros Hg Ht x Hx. apply in_detach in Hg. destruct Hg as (g0 & _ & H2 & _ & _ & H5). apply H5; [congruence | exact Hx]. Qed.
Lemma meas_dropped t ids (l : list mrow) m :
  In m (filter (fun m => negb (tname_eqb (mty m) t && zin (mel m) ids)) l) -> mty m = t -> ~ In (mel m) ids.
Proof. intros H Ht. apply filter_In in H. destruct H as [_ H]. rewrite Ht, tname_refl in H. apply zin_false, negb_true_iff, H. Qed.
Lemma res_dropped (f : ekind -> list Z) k ids x : In x (upd f k (filter (fun i => negb (zin i ids)) (f k)) k) -> ~ In x ids.
Proof. unfold upd. rewrite ekind_beq_refl. intros H. apply filter_In in H. apply zin_false, negb_true_iff, H. Qed.

(* switch rows go together with their group memberships *)
Lemma drop_switch_rows P n ids (keep : swrow -> bool) :
  (forall s, In s (sw n) -> keep s = false -> In (sid s) ids) -> ResolvesP P n ->
  okstep P n (set_sw (detach n TSwitch ids) (filter keep (sw n))).
Proof.
  intros Hk R. split; [|split; [sub_chain | reflexivity]].
  apply (resolves_drop_keys' P n _ (fun _ => False) (fun x => In x ids) (fun _ _ => False)); auto.
  - sub_chain.
  - intros x _ Hx Hn. simpl. apply in_map_iff in Hx. destruct Hx as [s [<- Hs]]. apply in_map, filter_In. split; [exact Hs|].
    destruct (keep s) eqn:A; [reflexivity|]. destruct (Hn (Hk s Hs A)).
  - intros x _ Rf. apply refs_sw_inv in Rf; [|eapply sub_types; [|apply R]; sub_chain].
    destruct Rf as [g (H1 & H2 & H3)]. exact (detached n TSwitch ids g H1 H2 x H3).
Qed.
Lemma drop_hit_switches P n (hit : swrow -> bool) :
  ResolvesP P n -> okstep P n (set_sw (detach n TSwitch (map sid (filter hit (sw n)))) (filter (fun s => negb (hit s)) (sw n))).
Proof.
  apply drop_switch_rows. intros s Hs A. apply in_map, filter_In. split; [exact Hs | apply negb_false_iff, A].
Qed.

(* dropping rows of one element table with the cascade: which keys go (ids, the switches sws) and that nothing the cascade
   reaches still names them *)
Record cascaded (n n' : net) (k : ekind) (ids sws : list Z) : Prop := {
  C_sub : sub n' n;
  C_bus : bus n' = bus n;
  C_el : forall k', el n' k' = if ekind_beq k k' then filter (fun r => negb (zin (eid r) ids)) (el n k) else el n k';
  C_sw : forall s, In s (sw n') <-> In s (sw n) /\ ~ In (sid s) sws;
  C_swk : forall s, In s (sw n) -> sw_target (swt s) = TEl k -> In (sel s) ids -> In (sid s) sws;
  C_meas : forall m, In m (meas n') -> mty m = TEl k -> ~ In (mel m) ids;
  C_grp : forall g, In g (grp n') -> gty g = TEl k -> forall x, In x (gmem g) -> ~ In x ids;
  C_grps : forall g, In g (grp n') -> gty g = TSwitch -> forall x, In x (gmem g) -> ~ In x sws;
  C_res : forall x, In x (res n' k) -> ~ In x ids }.

(* what the cascades do not reach: cost rows (drop_lines / drop_trafos) and controllers *)
Definition noctrl (n : net) (k : ekind) (ids : list Z) : Prop :=
  forall c x, In c (ctrl n) -> ctty c = k -> In x (ctidx c) -> ~ In x ids.
Definition nocost (n : net) (k : ekind) (ids : list Z) : Prop :=
  forall c, In c (pcost n ++ wcost n) -> cet c = k -> ~ In (cel c) ids.

Lemma cascaded_resolves P n n' k ids sws :
  cascaded n n' k ids sws -> ResolvesP P n -> nocost n' k ids -> noctrl n' k ids -> ResolvesP P n'.
Proof.
  intros [S Cb Ce Cs Csk Cm Cg Cgs Cr] R Hc Hct.
  apply (resolves_drop_keys' P n n' (fun _ => False) (fun x => In x sws) (fun k' x => k' = k /\ In x ids) S R).
  - intros x _ Hx _. unfold bus_ids. rewrite Cb. exact Hx.
  - intros x _ Hx Hn. apply in_map_iff in Hx. destruct Hx as [s [H1 H2]]. apply in_map_iff. exists s. split; [exact H1|].
    apply Cs. split; [exact H2 | rewrite H1; exact Hn].
  - intros k' x _ Hx Hn. unfold el_ids in *. rewrite Ce. destruct (ekind_beq k k') eqn:E; [|exact Hx].
    apply ekind_beq_eq in E. subst k'. apply in_map_iff in Hx. destruct Hx as [r [H1 H2]]. apply in_map_iff. exists r. split; [exact H1|].
    apply filter_In. split; [exact H2|]. apply negb_true_iff, zin_false. rewrite H1. tauto.
  - tauto.
  - intros x _ Rf. apply refs_sw_inv in Rf; [|eapply sub_types; [exact S | apply R]]. destruct Rf as [g (H1 & H2 & H3)]. eapply Cgs; eauto.
  - intros k' x _ Rf [E Hx]. subst k'. apply refs_el_inv in Rf. destruct Rf as [[s (H1 & H2 & H3)]|[[m (H1 & H2 & H3)]|[[c (H1 & H2 & H3)]|[[g (H1 & H2 & H3)]|[[c (H1 & H2 & H3)]|H]]]]].
    + apply Cs in H1. destruct H1 as [H1 H4]. apply H4. apply Csk; auto. rewrite H3. exact Hx.
    + apply (Cm m H1 H2). rewrite H3. exact Hx.
    + apply (Hc c H1 H2). rewrite H3. exact Hx.
    + apply (Cg g H1 H2 x H3 Hx).
    + apply (Hct c x H1 H2 H3 Hx).
    + apply (Cr x H Hx).
Qed.


(* the switch type names the table: 'l' line, 't' trafo, 't3' trafo3w; no other table has switches of its own *)
Lemma sw_target_inj e e' k : sw_target e = TEl k -> sw_target e' = TEl k -> e' = e.
Proof. destruct e, e'; simpl; congruence. Qed.
Lemma sw_target_swk e k : sw_target e = TEl k -> is_swk k = true.
Proof. destruct e; intros [= <-]; reflexivity. Qed.
Lemma not_swk k e : is_swk k = false -> sw_target e <> TEl k.
Proof. intros Hk He. rewrite (sw_target_swk e k He) in Hk. discriminate. Qed.

(* drop_lines / drop_trafos *)
Lemma cascaded_drop_branch n k e ids n' :
  sw_target e = TEl k -> ids <> [] ->
  drop_branch_sw n k e ids = Ok n' ->
  cascaded n n' k ids (map sid (filter (fun s => zin (sel s) ids && swet_eqb (swt s) e) (sw n))) /\
  pcost n' = pcost n /\ wcost n' = wcost n /\ ctrl n' = ctrl n.
Proof.
  intros He Hne. unfold drop_branch_sw. destruct ids as [|i0 ids0]; [congruence|]. set (ids := i0 :: ids0) in *.
  set (sws := map sid (filter (fun s => zin (sel s) ids && swet_eqb (swt s) e) (sw n))).
  unfold drop_rows_el. cbn [bind].
  match goal with |- context [allin ids ?l] => destruct (allin ids l) eqn:A end; cbn [bind]; [|discriminate].
  intros [= <-]. split; [|repeat split]. constructor.
  - sub_chain.
  - reflexivity.
  - reflexivity.
  - intros s. change (In s (filter (fun s => negb (zin (sid s) sws)) (sw n)) <-> In s (sw n) /\ ~ In (sid s) sws).
    rewrite filter_In, negb_true_iff, zin_false. tauto.
  - intros s Hs Ht Hx. unfold sws. apply in_map, filter_In. split; [exact Hs|].
    apply andb_true_iff. split; [apply zin_true, Hx|]. rewrite (sw_target_inj e _ k He Ht). destruct e; reflexivity.
  - intros m. apply (meas_dropped (TEl k) ids (meas n)).
  - intros g. apply (detached (detach n TSwitch sws) (TEl k) ids).
  - intros g Hg Ht x Hx. change (In g (grp (detach (detach n TSwitch sws) (TEl k) ids))) in Hg.
    apply in_detach in Hg. destruct Hg as (g1 & H1 & H2 & _ & H4 & _). apply (detached n TSwitch sws g1 H1); [congruence | apply H4, Hx].
  - intros x. apply (res_dropped (res n) k ids).
Qed.

(* drop_elements_simple and the generic branch of drop_elements_at_buses: rows, group members, measurements, costs, results *)
Lemma cascaded_simple n k ids n' :
  is_swk k = false ->
  n' = drop_costs_of (drop_res (drop_meas_at (set_elk (detach n (TEl k) ids) k (filter (fun r => negb (zin (eid r) ids)) (el n k))) (TEl k) ids) k ids) k ids ->
  cascaded n n' k ids [] /\ nocost n' k ids /\ ctrl n' = ctrl n.
Proof.
  intros Hs ->. split; [|split; [|reflexivity]]. constructor.
  - sub_chain.
  - reflexivity.
  - reflexivity.
  - intros s. simpl. tauto.
  - intros s _ Ht. destruct (not_swk k _ Hs Ht).
  - intros m. apply (meas_dropped (TEl k) ids (meas n)).
  - intros g. apply (detached n (TEl k) ids).
  - intros g _ _ x _ [].
  - intros x. apply (res_dropped (res n) k ids).
  - intros c Hc Ht. change (In c (filter (fun c => negb (ekind_beq (cet c) k && zin (cel c) ids)) (pcost n) ++
                                  filter (fun c => negb (ekind_beq (cet c) k && zin (cel c) ids)) (wcost n))) in Hc.
    rewrite <- filter_app in Hc. apply filter_In in Hc. destruct Hc as [_ Hc]. rewrite Ht, ekind_beq_refl in Hc.
    apply zin_false, negb_true_iff, Hc.
Qed.

(* the boolean guards *)
Lemma G22_noctrl_prop n k ids : G22_noctrl n k ids = true -> noctrl n k ids.
Proof.
  unfold G22_noctrl. rewrite forallb_forall. intros H c x Hc Hk Hx Hin. specialize (H c Hc).
  apply negb_true_iff, andb_false_iff in H. destruct H as [H|H].
  - subst k. rewrite ekind_beq_refl in H. discriminate.
  - assert (existsb (fun y => zin y ids) (ctidx c) = true); [|congruence].
    apply existsb_exists. exists x. split; [exact Hx | apply zin_true, Hin].
Qed.
Lemma G22_drop_props n k ids : G22_drop n k ids = true -> nocost n k ids /\ noctrl n k ids.
Proof.
  unfold G22_drop. rewrite andb_true_iff. intros [Gc Gt]. split; [|apply G22_noctrl_prop, Gt].
  rewrite forallb_forall in Gc. intros c Hc Hk Hin. specialize (Gc c Hc).
  rewrite Hk, ekind_beq_refl, (proj2 (zin_true _ _) Hin) in Gc. discriminate.
Qed.

Lemma drop_branch_P P n k e ids n' :
  sw_target e = TEl k -> nocost n k ids -> noctrl n k ids ->
  ResolvesP P n -> drop_branch_sw n k e ids = Ok n' -> okstep P n n'.
Proof.
  intros He Gc Gt R E. destruct ids as [|i0 it] eqn:EI.
  - injection E as <-. apply okstep_refl, R.
  - rewrite <- EI in *. assert (Hne : ids <> []) by (rewrite EI; discriminate).
    destruct (cascaded_drop_branch n k e ids n' He Hne E) as (C & Hp & Hw & Hc).
    split; [|split; apply C]. eapply cascaded_resolves; eauto.
    + unfold nocost. rewrite Hp, Hw. exact Gc.
    + unfold noctrl. rewrite Hc. exact Gt.
Qed.
Lemma simple_cascade_P P n k ids n' :
  is_swk k = false -> noctrl n k ids -> ResolvesP P n ->
  n' = drop_costs_of (drop_res (drop_meas_at (set_elk (detach n (TEl k) ids) k (filter (fun r => negb (zin (eid r) ids)) (el n k))) (TEl k) ids) k ids) k ids ->
  okstep P n n'.
Proof.
  intros Hs Gt R E. destruct (cascaded_simple n k ids n' Hs E) as (C & Hc & Hct).
  split; [|split; apply C]. apply (cascaded_resolves P n n' k ids [] C R Hc). unfold noctrl. rewrite Hct. exact Gt.
Qed.
Lemma drop_simple_el_P P n k ids n' :
  is_swk k = false -> noctrl n k ids ->
  ResolvesP P n -> drop_simple_el n k ids = Ok n' -> okstep P n n'.
Proof.
  intros Hs Gt R. unfold drop_simple_el, drop_simple_el_gen, drop_rows_el.
  match goal with |- context [allin ids ?l] => destruct (allin ids l) end; cbn [bind]; [|discriminate].
  intros [= <-]. apply (simple_cascade_P P n k ids); auto.
Qed.

Lemma inv_step_drop_branch n k e ids n' :
  sw_target e = TEl k ->
  G22_drop n k ids = true -> Resolves n -> drop_branch_sw n k e ids = Ok n' -> Resolves n'.
Proof.
  intros He G R E. apply G22_drop_props in G. apply ResolvesP_all in R.
  apply ResolvesP_all. eapply drop_branch_P; eauto; apply G.
Qed.
Lemma inv_step_drop_lines n ids n' : G22_drop n Line ids = true -> Resolves n -> drop_lines n ids = Ok n' -> Resolves n'.
Proof. apply inv_step_drop_branch. reflexivity. Qed.
Lemma inv_step_drop_trafos n (th : bool) ids n' :
  G22_drop n (if th then Trafo3w else Trafo) ids = true -> Resolves n -> drop_trafos n th ids = Ok n' -> Resolves n'.
Proof. unfold drop_trafos. destruct th; apply inv_step_drop_branch; reflexivity. Qed.

Lemma inv_step_drop_switch_rows n ids n' :
  Resolves n -> drop_elements n TSwitch ids = Ok n' -> Resolves n'.
Proof.
  intros R. apply ResolvesP_all in R. cbn [drop_elements].
  match goal with |- context [allin ids ?l] => destruct (allin ids l) end; [|discriminate].
  intros [= <-]. apply ResolvesP_all, (drop_switch_rows _ n ids (fun s => negb (zin (sid s) ids))); [|exact R].
  intros s _ H. apply zin_true, negb_false_iff, H.
Qed.
Lemma inv_step_drop_meas_rows n ids n' :
  Resolves n -> drop_elements n TMeas ids = Ok n' -> Resolves n'.
Proof.
  intros R. apply ResolvesP_all in R. cbn [drop_elements].
  match goal with |- context [allin ids ?l] => destruct (allin ids l) end; [|discriminate].
  intros [= <-]. apply ResolvesP_all. apply (resolves_same_keys _ n); auto. sub_chain.
Qed.

(* drop_buses(drop_elements=True), grid_modification.py:690 *)
Definition NB (t : tname) : Prop := t <> TBus.
Definition free (buses : list Z) (r : erow) : Prop := forall b, In b (ebus r) -> ~ In b buses.
Lemma free_of_true buses r : free_of buses r = true <-> free buses r.
Proof.
  unfold free_of, free. rewrite forallb_forall. split; intros H b Hb.
  - apply zin_false, negb_true_iff, H, Hb.
  - apply negb_true_iff, zin_false, H, Hb.
Qed.

(* the shape of the guards gat (q = free_of buses) and gat_inner (q = not all_at b1): every element row that a controller
   targets, or that a cost row of a line / trafo / trafo3w sits on, passes the test q *)
Record Gat (q : erow -> bool) (n : net) : Prop := {
  GA_ctrl : forall c r, In c (ctrl n) -> In r (el n (ctty c)) -> In (eid r) (ctidx c) -> q r = true;
  GA_cost : forall c r, In c (pcost n ++ wcost n) -> is_swk (cet c) = true -> In r (el n (cet c)) -> eid r = cel c -> q r = true }.
Lemma Gat_true q n :
  forallb (fun c => forallb (fun r => negb (zin (eid r) (ctidx c)) || q r) (el n (ctty c))) (ctrl n) &&
  forallb (fun c => negb (is_swk (cet c)) || forallb (fun r => negb (eid r =? cel c) || q r) (el n (cet c))) (pcost n ++ wcost n) = true ->
  Gat q n.
Proof.
  rewrite andb_true_iff, !forallb_forall. intros [H1 H2]. constructor.
  - intros c r Hc Hr Hx. specialize (H1 c Hc). rewrite forallb_forall in H1. specialize (H1 r Hr).
    rewrite (proj2 (zin_true _ _) Hx) in H1. exact H1.
  - intros c r Hc Hk Hr E. specialize (H2 c Hc). rewrite Hk in H2. simpl in H2. rewrite forallb_forall in H2. specialize (H2 r Hr).
    rewrite E, Z.eqb_refl in H2. exact H2.
Qed.
Lemma gat_true n buses : gat n buses = true -> Gat (free_of buses) n.
Proof. apply Gat_true. Qed.
Lemma gat_inner_true n b1 : gat_inner n b1 = true -> Gat (fun r => negb (all_at b1 r)) n.
Proof. apply Gat_true. Qed.
Lemma Gat_sub q n' n : sub n' n -> Gat q n -> Gat q n'.
Proof.
  intros S [G1 G2]. constructor.
  - intros c r Hc Hr Hx. destruct (S_ctrl _ _ S c Hc) as [c0 (H1 & H2 & H3)]. rewrite H2 in Hr.
    apply (G1 c0 r H1 (S_el _ _ S _ _ Hr) (H3 _ Hx)).
  - intros c r Hc Hk Hr E. apply (G2 c r); auto; [|apply (S_el _ _ S), Hr].
    apply in_app_iff in Hc. apply in_app_iff. destruct Hc; [left; apply (S_pc _ _ S) | right; apply (S_wc _ _ S)]; assumption.
Qed.
(* the rows picked by f fail q: the guard says nothing targets them *)
Lemma Gat_noctrl q n k (f : erow -> bool) :
  (forall r, f r = true -> q r = false) -> Gat q n -> noctrl n k (map eid (filter f (el n k))).
Proof.
  intros Hf [G1 _] c x Hc Hk Hx Hin. apply in_map_iff in Hin. destruct Hin as [r [<- Hr]]. apply filter_In in Hr. destruct Hr as [Hr Hfr].
  subst k. specialize (Hf r Hfr). rewrite (G1 c r Hc Hr Hx) in Hf. discriminate.
Qed.
Lemma Gat_nocost q n k (f : erow -> bool) :
  is_swk k = true -> (forall r, f r = true -> q r = false) -> Gat q n -> nocost n k (map eid (filter f (el n k))).
Proof.
  intros Hk Hf [_ G2] c Hc Hk' Hin. apply in_map_iff in Hin. destruct Hin as [r [E Hr]]. apply filter_In in Hr. destruct Hr as [Hr Hfr].
  subst k. specialize (Hf r Hfr). rewrite (G2 c r Hc Hk Hr E) in Hf. discriminate.
Qed.

Lemma at_buses_not_free k col buses r : at_buses k col buses r = true -> free_of buses r = false.
Proof.
  unfold at_buses. destruct (nth_error (ebus r) col) as [b|] eqn:E; [|discriminate]. intros H.
  destruct (free_of buses r) eqn:F; [|reflexivity]. apply free_of_true in F. destruct (F b (nth_error_In _ _ E)). apply zin_true, H.
Qed.

Lemma post_filter n n' k col buses :
  (forall k', el n' k' = if ekind_beq k k' then filter (fun r => negb (zin (eid r) (map eid (filter (at_buses k col buses) (el n k))))) (el n k) else el n k') ->
  forall r, In r (el n' k) -> at_buses k col buses r = false.
Proof.
  intros He r Hr. rewrite He, ekind_beq_refl in Hr. apply filter_In in Hr. destruct Hr as [Hr Hn].
  destruct (at_buses k col buses r) eqn:A; [|reflexivity]. apply negb_true_iff, zin_false in Hn. exfalso. apply Hn.
  apply in_map. apply filter_In. tauto.
Qed.

Lemma col_step n k col buses n' :
  in_bus_tuples k = true -> Gat (free_of buses) n -> ResolvesP NB n -> drop_el_at_buses_col n k col buses = Ok n' ->
  okstep NB n n' /\ forall r, In r (el n' k) -> at_buses k col buses r = false.
Proof.
  intros Hk G R. unfold drop_el_at_buses_col. set (ids := map eid (filter (at_buses k col buses) (el n k))).
  pose proof (Gat_noctrl _ n k _ (at_buses_not_free k col buses) G) as Gt. fold ids in Gt.
  destruct ids as [|i0 it] eqn:EI.
  { intros [= <-]. split; [apply okstep_refl, R|].
    intros r Hr. destruct (at_buses k col buses r) eqn:A; [|reflexivity].
    assert (In (eid r) ids) by (apply in_map, filter_In; tauto). rewrite EI in H. destruct H. }
  rewrite <- EI in *. assert (Hne : ids <> []) by (rewrite EI; discriminate). clear EI i0 it.
  assert (Branch : forall e, sw_target e = TEl k ->
            drop_branch_sw n k e ids = Ok n' -> okstep NB n n' /\ forall r, In r (el n' k) -> at_buses k col buses r = false).
  { intros e He E. split.
    - exact (drop_branch_P NB n k e ids n' He (Gat_nocost _ n k _ (sw_target_swk e k He) (at_buses_not_free k col buses) G) Gt R E).
    - destruct (cascaded_drop_branch n k e ids n' He Hne E) as (C & _). apply (post_filter n n' k col buses), C. }
  assert (Simple : is_swk k = false ->
            Ok (drop_costs_of (drop_res (drop_meas_at (set_elk (detach n (TEl k) ids) k (filter (fun r => negb (zin (eid r) ids)) (el n k))) (TEl k) ids) k ids) k ids) = Ok n' ->
            okstep NB n n' /\ forall r, In r (el n' k) -> at_buses k col buses r = false).
  { intros Hs [= <-]. split; [apply (simple_cascade_P NB n k ids); auto|]. apply (post_filter n _ k col buses). reflexivity. }
  destruct k; try discriminate Hk;
    try (apply Simple; reflexivity).
  - apply (Branch SL). reflexivity.
  - apply (Branch ST). reflexivity.
  - apply (Branch ST3). reflexivity.
Qed.

Definition sw_hit (buses : list Z) (s : swrow) : bool := zin (sbus s) buses || (zin (sel s) buses && swet_eqb (swt s) SB).
Lemma switch_step n buses :
  ResolvesP NB n ->
  okstep NB n (drop_switches_at_buses_gen true n buses) /\
  forall s, In s (sw (drop_switches_at_buses_gen true n buses)) -> sw_hit buses s = false.
Proof.
  intros R. split.
  - apply (drop_hit_switches NB n (sw_hit buses) R).
  - intros s Hs. simpl in Hs. apply filter_In in Hs. apply negb_true_iff, Hs.
Qed.

Lemma loop_ok buses ts : forall n n',
  (forall k c, In (Some (k, c)) ts -> in_bus_tuples k = true) ->
  drop_at_buses_loop true n ts buses = Ok n' -> Gat (free_of buses) n -> ResolvesP NB n ->
  okstep NB n n' /\
  (forall k c, In (Some (k, c)) ts -> forall r, In r (el n' k) -> at_buses k c buses r = false) /\
  (In None ts -> forall s, In s (sw n') -> sw_hit buses s = false).
Proof.
  induction ts as [|o ts IH]; intros n n' Hts E G R.
  - injection E as <-. split; [apply okstep_refl, R|]. split; [intros k c []| intros []].
  - (* the head stage gives n1 with its own postcondition; the later stages only remove rows, so it still holds of n' *)
    assert (Head : exists n1, drop_at_buses_loop true n1 ts buses = Ok n' /\ okstep NB n n1 /\
              (forall k c, Some (k, c) = o -> forall r, In r (el n1 k) -> at_buses k c buses r = false) /\
              (None = o -> forall s, In s (sw n1) -> sw_hit buses s = false)).
    { destruct o as [[k c]|]; cbn [drop_at_buses_loop] in E.
      - destruct (drop_el_at_buses_col n k c buses) as [n1|] eqn:E1; cbn [bind] in E; [|discriminate].
        destruct (col_step n k c buses n1 (Hts k c (or_introl eq_refl)) G R E1) as [S1 P1].
        exists n1. split; [exact E|]. split; [exact S1|]. split; [|discriminate]. intros k' c' [= -> ->]. exact P1.
      - destruct (switch_step n buses R) as [S1 P1].
        exists (drop_switches_at_buses_gen true n buses). split; [exact E|]. split; [exact S1|]. split; [discriminate | intros _; exact P1]. }
    destruct Head as (n1 & E1 & S1 & Pe & Ps). assert (S1' := S1). destruct S1' as (R1 & Sb1 & _).
    destruct (IH n1 n' (fun k c H => Hts k c (or_intror H)) E1 (Gat_sub _ _ _ Sb1 G) R1) as (S2 & P2 & P3).
    split; [eapply okstep_trans; eauto|]. destruct S2 as (_ & Sb2 & _). split.
    + intros k c [H|H]; [|apply P2, H]. intros r Hr. apply (Pe k c (eq_sym H)), (S_el _ _ Sb2), Hr.
    + intros [H|H]; [|apply P3, H]. intros s Hs. apply (Ps (eq_sym H)), (S_sw _ _ Sb2), Hs.
Qed.

(* drop_controllers_at_buses only edits net.controller *)
Lemma dcab_same buses ks : forall n,
  let n' := fold_left (fun n k => drop_controllers_at n k (connected n k buses)) ks n in
  sub n' n /\ bus n' = bus n /\ el n' = el n /\ sw n' = sw n.
Proof.
  induction ks as [|k ks IH]; intros n; simpl.
  - split; [apply sub_refl | repeat split].
  - destruct (IH (drop_controllers_at n k (connected n k buses))) as (H1 & H2 & H3 & H4).
    split; [eapply sub_trans; [exact H1 | apply sub_drop_controllers_at]|].
    unfold drop_controllers_at in *. destruct (connected n k buses); repeat split; assumption.
Qed.

(* every bus column of a listed table is one of the tuples *)
Lemma tuples_complete k col : in_bus_tuples k = true -> (col < arity k)%nat -> In (Some (k, col)) tuples.
Proof.
  intros Hk Hc. destruct k; try discriminate Hk; simpl in Hc;
    (destruct col as [|[|[|col]]]; [ | | | exfalso; lia]); try (exfalso; lia); simpl; tauto.
Qed.
Lemma tuples_listed k c : In (Some (k, c)) tuples -> in_bus_tuples k = true.
Proof. simpl. intros H. repeat (destruct H as [H|H]; [inversion H; reflexivity|]). destruct H. Qed.

Lemma None_in_tuples : In None tuples.
Proof. simpl. tauto. Qed.

(* dropping bus rows: what does not refer to buses stays intact at once, the bus rows themselves are settled last, when
   nothing refers to them any more *)
Lemma resolves_NB_sub n n' : sub n' n -> Resolves n -> el n' = el n -> sw n' = sw n -> ResolvesP NB n'.
Proof.
  intros S [T R] He Hs. apply (resolves_drop_keys' NB n n' (fun _ => True) (fun _ => False) (fun _ _ => False)); auto.
  - split; [exact T|]. intros; apply R; auto.
  - intros x HH. destruct HH. reflexivity.
  - intros x _ Hx _. rewrite Hs. exact Hx.
  - intros k x _ Hx _. unfold el_ids. rewrite He. exact Hx.
Qed.
Lemma sw_hit_false buses s : sw_hit buses s = false -> ~ In (sbus s) buses /\ (swt s = SB -> ~ In (sel s) buses).
Proof.
  unfold sw_hit. intros H. apply orb_false_iff in H. destruct H as [H1 H2]. split; [apply zin_false, H1|].
  intros E. rewrite E, andb_true_r in H2. apply zin_false, H2.
Qed.
(* n' was reached from n by the head of drop_buses (group members, bus rows, res_bus rows) and further drops; what is left of
   the element, switch and measurement rows does not name the buses *)
Lemma resolves_drop_bus_rows n n' buses :
  Resolves n -> ResolvesP NB n' ->
  sub n' (set_rbus (set_bus (detach n TBus buses) (filter (fun b => negb (zin (fst b) buses)) (bus n))) (filter (fun i => negb (zin i buses)) (rbus n))) ->
  bus_ids n' = map fst (filter (fun b => negb (zin (fst b) buses)) (bus n)) ->
  (forall k r, In r (el n' k) -> free buses r) ->
  (forall s, In s (sw n') -> ~ In (sbus s) buses /\ (swt s = SB -> ~ In (sel s) buses)) ->
  (forall m, In m (meas n') -> (mty m = TBus -> ~ In (mel m) buses) /\ (forall b, msd m = SideBus b -> ~ In b buses)) ->
  Resolves n'.
Proof.
  intros [_ R] [T R'] S K Fel Fsw Fms. assert (S0 : sub n' n) by (eapply sub_trans; [exact S | sub_chain]).
  split; [exact T|]. intros t x Rf. destruct t; try (apply R'; [discriminate | exact Rf]).
  pose proof (R TBus x (sub_refs _ _ _ _ S0 Rf)) as Hin. simpl. rewrite K. apply in_map_iff in Hin. destruct Hin as [p [<- Hp]].
  apply in_map, filter_In. split; [exact Hp|]. apply negb_true_iff, zin_false.
  apply refs_bus_inv in Rf.
  destruct Rf as [(k & r & H1 & H2)|[(s & H1 & H2)|[(s & H1 & H2 & H3)|[(m & H1 & H2 & H3)|[(m & H1 & H2)|[(g & H1 & H2 & H3)|H]]]]]].
  - apply (Fel k r H1 _ H2).
  - rewrite <- H2. apply (proj1 (Fsw s H1)).
  - rewrite <- H3. apply (proj2 (Fsw s H1)), H2.
  - rewrite <- H3. apply (proj1 (Fms m H1)), H2.
  - apply (proj2 (Fms m H1)), H2.
  - destruct (S_grp _ _ S g H1) as [g1 (H4 & H5 & H6)]. apply (detached n TBus buses g1 H4); [congruence | apply H6, H3].
  - apply (S_rbus _ _ S) in H. simpl in H. apply filter_In in H. apply zin_false, negb_true_iff, H.
Qed.
Lemma inv_step_drop_buses n buses n' :
  G22_drop_buses n buses = true -> Resolves n -> drop_buses n buses true = Ok n' -> Resolves n'.
Proof.
  intros G R. unfold drop_buses, drop_buses_gen. destruct buses as [|b0 bt] eqn:EB; [intros [= <-]; exact R|].
  rewrite <- EB in *. clear EB b0 bt.
  unfold G22_drop_buses in G.
  set (n1 := detach n TBus buses) in *.
  set (n2 := set_bus n1 (filter (fun b => negb (zin (fst b) buses)) (bus n1))) in *.
  set (n3 := set_rbus n2 (filter (fun i => negb (zin i buses)) (rbus n2))) in *.
  set (n4 := drop_controllers_at_buses n3 buses) in *.
  rewrite !andb_true_iff in G. destruct G as [[[Gar Gsvc] Gside] G4]. apply gat_true in G4.
  destruct (allin buses (bus_ids n1)) eqn:A; cbn [negb]; [|discriminate]. unfold drop_elements_at_buses.
  destruct (drop_at_buses_loop true n4 tuples buses) as [n5|] eqn:EL; cbn [bind]; [|discriminate].
  intros [= <-].
  (* the part of the invariant that does not talk about buses survives every stage *)
  assert (S3 : sub n3 n1) by (unfold n3, n2; sub_chain).
  assert (S1 : sub n1 n) by (unfold n1; sub_chain).
  assert (R3 : ResolvesP NB n3) by (apply (resolves_NB_sub n); [eapply sub_trans; eassumption | exact R | reflexivity | reflexivity]).
  assert (D4 : sub n4 n3 /\ bus n4 = bus n3 /\ el n4 = el n3 /\ sw n4 = sw n3) by (apply (dcab_same buses ekinds n3)).
  destruct D4 as (S4 & B4 & E4 & W4).
  assert (R4 : ResolvesP NB n4) by (apply (resolves_same_keys NB n3 n4); auto).
  destruct (loop_ok buses tuples n4 n5 tuples_listed EL G4 R4) as ((R5 & S5 & B5) & Pel & Psw).
  set (n6 := drop_meas_at (drop_meas_at n5 TBus buses) TBus buses).
  assert (S6 : sub n6 n5) by (unfold n6; sub_chain).
  assert (R6 : ResolvesP NB n6) by (apply (resolves_same_keys NB n5 n6); auto).
  assert (S63 : sub n6 n3) by (eapply sub_trans; [exact S6|]; eapply sub_trans; eassumption).
  assert (S60 : sub n6 n) by (eapply sub_trans; [exact S63|]; eapply sub_trans; eassumption).
  apply (resolves_drop_bus_rows n n6 buses R R6 S63).
  - change (bus_ids n6) with (map fst (bus n5)). rewrite B5, B4. reflexivity.
  - intros k r H1 b H2. change (In r (el n5 k)) in H1. pose proof (S_el _ _ S60 k r H1) as Hr0.
    destruct (in_bus_tuples k) eqn:Hk.
    + destruct (In_nth _ _ 0 H2) as [col [Hc Hn]]. assert (Hnth : nth_error (ebus r) col = Some b).
      { rewrite <- Hn. apply nth_error_nth'. exact Hc. }
      assert (Hcol : (col < arity k)%nat).
      { unfold arity_ok in Gar. rewrite forallb_ekinds in Gar. specialize (Gar k). rewrite Hk in Gar. simpl in Gar.
        rewrite forallb_forall in Gar. specialize (Gar r Hr0). apply Nat.leb_le in Gar. lia. }
      pose proof (Pel k col (tuples_complete k col Hk Hcol) r H1) as Hp. unfold at_buses in Hp. rewrite Hnth in Hp. apply zin_false, Hp.
    + destruct k; try discriminate Hk. unfold svc_free in Gsvc. rewrite forallb_forall in Gsvc. apply (proj1 (free_of_true buses r) (Gsvc r Hr0)), H2.
  - intros s H1. apply sw_hit_false, (Psw None_in_tuples s H1).
  - intros m H1. split; [exact (meas_dropped TBus buses _ m H1)|]. intros b H2.
    pose proof (S_meas _ _ S60 m H1) as Hm. unfold sides_free in Gside. rewrite forallb_forall in Gside. specialize (Gside m Hm). rewrite H2 in Gside.
    apply zin_false, negb_true_iff, Gside.
Qed.

Lemma inv_step_drop_simple n k ids n' :
  is_swk k = false -> G22_noctrl n k ids = true -> Resolves n -> drop_simple_el n k ids = Ok n' -> Resolves n'.
Proof.
  intros Hs G R E. apply ResolvesP_all. apply ResolvesP_all in R. eapply drop_simple_el_P; eauto. apply G22_noctrl_prop, G.
Qed.

(* drop_elements(net, element_type, index): the dispatch *)
Lemma inv_step_drop_elements n t ids n' :
  G22 n (ODropElements t ids) = true -> Resolves n -> drop_elements n t ids = Ok n' -> Resolves n'.
Proof.
  intros G R E. destruct t as [| | | | |k].
  - cbn [G22] in G. cbn [drop_elements] in E. eapply inv_step_drop_buses; eauto.
  - eapply inv_step_drop_switch_rows; eauto.
  - eapply inv_step_drop_meas_rows; eauto.
  - discriminate E.
  - discriminate E.
  - destruct (is_swk k) eqn:Hk.
    + destruct k; try discriminate Hk.
      * eapply inv_step_drop_lines; eauto.
      * eapply (inv_step_drop_trafos n false); eauto.
      * eapply (inv_step_drop_trafos n true); eauto.
    + apply (inv_step_drop_simple n k ids n'); [exact Hk | | exact R |]; destruct k; try discriminate Hk; assumption.
Qed.
Lemma in_select_bus (bs : list (Z * bool)) buses x :
  In x buses -> In x (map fst bs) -> In x (map fst (flat_map (fun i => filter (fun b => fst b =? i) bs) buses)).
Proof.
  intros Hx Hb. apply in_map_iff in Hb. destruct Hb as [p [H1 H2]]. apply in_map_iff. exists p. split; [exact H1|].
  apply in_flat_map. exists x. split; [exact Hx|]. apply filter_In. split; [exact H2 | apply Z.eqb_eq, H1].
Qed.
Lemma isnil_true {A} (l : list A) : isnil l = true -> l = [].
Proof. destruct l; [reflexivity | discriminate]. Qed.

(* the result rows select_subnet keeps: those of the selection, or all of them when the element table is empty *)
Lemma in_selected_res {A} (ires keep : bool) (r : list Z) (tab : list A) sel x :
  In x (if ires then match r, tab with
                     | [], _ => if keep then r else []
                     | _, [] => if keep then r else []
                     | _, _ => filter (fun i => zin i r) sel
                     end else []) -> In x sel \/ In x r /\ tab = [].
Proof.
  destruct ires; [|intros []]. destruct r as [|r0 rt]; [destruct keep; intros []|].
  destruct tab; [destruct keep; [auto | intros []]|]. intros H. apply filter_In in H. left. apply H.
Qed.

Lemma inv_step_select_subnet n bs0 isb ires keep n' :
  G22_select n keep = true -> Resolves n -> select_subnet n bs0 isb ires keep = Ok n' -> Resolves n'.
Proof.
  intros G I. apply Inv_Resolves in I. unfold select_subnet, select_subnet_gen.
  destruct (if isb then switch_buses n (sw n) bs0 else Ok []) as [add|]; cbn [bind]; [|discriminate].
  set (buses := zsort_uniq (bs0 ++ add)). destruct (allin buses (bus_ids n)) eqn:A; cbn [negb]; [|discriminate].
  rewrite allin_true in A. intros E. injection E as E.
  unfold G22_select in G. apply andb_true_iff in G. destruct G as [Gs Gk]. rewrite forallb_forall in Gs.
  assert (Hkeep : keep = true -> grp n = [] /\ ctrl n = [] /\ el n Svc = []).
  { intros K. rewrite K in Gk. simpl in Gk. rewrite !andb_true_iff in Gk. destruct Gk as [[G1 G2] G3].
    repeat split; apply isnil_true; assumption. }
  set (sel_el := fun k => if in_bus_tuples k then filter (fun r => allin (ebus r) buses) (el n k) else if keep then el n k else []) in *.
  assert (Hbus : forall x, In x buses -> In x (bus_ids n')).
  { intros x Hx. subst n'. apply in_select_bus; [exact Hx | apply A, Hx]. }
  assert (Hsel : forall k r, In r (sel_el k) -> In r (el n k) /\ forall b, In b (ebus r) -> In b buses).
  { intros k r Hr. unfold sel_el in Hr. destruct (in_bus_tuples k) eqn:Hk.
    - apply filter_In in Hr. destruct Hr as [H1 H2]. rewrite allin_true in H2. auto.
    - destruct k; try discriminate Hk. destruct keep; [|destruct Hr]. destruct (Hkeep eq_refl) as (_ & _ & H3). rewrite H3 in Hr. destruct Hr. }
  (* every kept row passed a filter that says where its references point *)
  destruct I as [Ie Is Im Ic Ig Ict Irb Ir]. subst n'. apply Inv_Resolves. constructor; unfold el_ids; cbn [el sw meas pcost wcost grp ctrl rbus res].
  - intros k r b Hr Hb. apply Hbus, (Hsel k r Hr), Hb.
  - intros s Hs. apply filter_In in Hs. destruct Hs as [_ H]. apply andb_true_iff in H. destruct H as [H1 H2]. apply zin_true in H1.
    split; [apply Hbus, H1|]. destruct (swt s); cbn [sw_target keys el_ids el]; [apply Hbus| | |]; apply zin_true, H2.
  - intros m Hm. apply filter_In in Hm. destruct Hm as [Hm0 H].
    assert (Hside : forall k b, mty m = TEl k -> msd m = SideBus b -> In (mel m) (map eid (sel_el k)) -> In b buses).
    { intros k b Em Hb Hin. apply in_map_iff in Hin. destruct Hin as [r [H1 H2]]. destruct (Hsel k r H2) as [H3 H4]. apply H4.
      specialize (Gs m Hm0). unfold side_at_element in Gs. rewrite Hb, Em in Gs. rewrite forallb_forall in Gs. specialize (Gs r H3).
      rewrite H1, Z.eqb_refl in Gs. apply zin_true, Gs. }
    destruct (mty m) as [| | | | |k] eqn:Em; try discriminate H.
    + split; [reflexivity|]. split; [apply Hbus, zin_true, H|]. intros b Hb. specialize (Gs m Hm0). unfold side_at_element in Gs.
      rewrite Hb, Em in Gs. apply Z.eqb_eq in Gs. subst b. apply Hbus, zin_true, H.
    + destruct k; try discriminate H; (split; [reflexivity|]); (split; [cbn [keys el_ids el]; apply zin_true, H|]);
        intros b Hb; eapply Hbus, Hside; eauto; apply zin_true, H.
  - intros c Hc. rewrite <- filter_app in Hc. apply filter_In in Hc. apply zin_true, Hc.
  - intros g Hg. destruct keep; [|destruct Hg]. destruct (Hkeep eq_refl) as (H1 & _ & _). rewrite H1 in Hg. destruct Hg.
  - intros c x Hc. destruct keep; [|destruct Hc]. destruct (Hkeep eq_refl) as (_ & H1 & _). rewrite H1 in Hc. destruct Hc.
  - intros x Hx. apply (in_selected_res ires keep) in Hx. destruct Hx as [Hx|[Hx Eb]]; [apply Hbus, Hx|].
    apply Irb in Hx. unfold bus_ids in Hx. rewrite Eb in Hx. destruct Hx.
  - intros k x Hx. apply (in_selected_res ires keep) in Hx. destruct Hx as [Hx|[Hx Eb]]; [exact Hx|].
    apply Ir in Hx. unfold el_ids in Hx. rewrite Eb in Hx. destruct Hx.
Qed.
Lemma get_indices_map lk : forall l r, get_indices l lk = Ok r -> r = map (remap lk) l.
Proof.
  induction l as [|x t IH]; intros r E; simpl in E; [inversion E; reflexivity|].
  destruct (lookup lk x) as [v|] eqn:L; [|discriminate]. destruct (get_indices t lk) as [r0|] eqn:G; cbn [bind] in E; [|discriminate].
  inversion E; subst. simpl. rewrite <- (IH r0 eq_refl). unfold remap. rewrite L. reflexivity.
Qed.
(* a lookup that succeeded is remap *)
Lemma lk1_remap lk x v : lk1 lk x = Ok v -> v = remap lk x.
Proof. unfold lk1, remap. destruct (lookup lk x); intros E; inversion E; reflexivity. Qed.
Lemma lk1_bind {B} lk x (k : Z -> result B) b : (do i <- lk1 lk x; k i) = Ok b -> k (remap lk x) = Ok b.
Proof. destruct (lk1 lk x) eqn:L; [apply lk1_remap in L as ->; exact (fun E => E) | discriminate]. Qed.
Lemma get_indices_bind {B} lk l (k : list Z -> result B) b : (do r <- get_indices l lk; k r) = Ok b -> k (map (remap lk) l) = Ok b.
Proof. destruct (get_indices l lk) as [r|] eqn:E; [|discriminate]. rewrite (get_indices_map lk l r E). exact (fun E => E). Qed.
Lemma mapM_in {A B} (F : A -> result B) : forall l r, mapM F l = Ok r ->
  (forall b, In b r -> exists a, In a l /\ F a = Ok b) /\ (forall a, In a l -> exists b, In b r /\ F a = Ok b).
Proof.
  induction l as [|a t IH]; intros r E; simpl in E.
  - inversion E; subst. split; intros x [].
  - destruct (F a) as [b|] eqn:Fa; cbn [bind] in E; [|discriminate]. destruct (mapM F t) as [r0|] eqn:Ft; cbn [bind] in E; [|discriminate].
    inversion E; subst. destruct (IH r0 eq_refl) as [H1 H2]. split.
    + intros x [Hx|Hx]; [subst; exists a; split; [left; reflexivity | exact Fa]|]. destruct (H1 x Hx) as [a' [H3 H4]]. exists a'. split; [right|]; assumption.
    + intros x [Hx|Hx]; [subst; exists b; split; [left; reflexivity | exact Fa]|]. destruct (H2 x Hx) as [b' [H3 H4]]. exists b'. split; [right|]; assumption.
Qed.
Fixpoint pick (k : ekind) (ks : list ekind) (vs : list (list erow)) : list erow :=
  match ks, vs with
  | k' :: ks', v :: vs' => if ekind_beq k' k then v else pick k ks' vs'
  | _, _ => []
  end.
Lemma pick_spec (F : ekind -> result (list erow)) k : forall ks vs, mapM F ks = Ok vs -> In k ks -> F k = Ok (pick k ks vs).
Proof.
  induction ks as [|k' ks IH]; intros vs E Hk; [destruct Hk|]. simpl in E.
  destruct (F k') as [v|] eqn:Fk; cbn [bind] in E; [|discriminate]. destruct (mapM F ks) as [vs0|] eqn:Ft; cbn [bind] in E; [|discriminate].
  inversion E; subst. simpl. destruct (ekind_beq k' k) eqn:Ek.
  - apply ekind_beq_eq in Ek. subst. exact Fk.
  - apply IH; [reflexivity|]. destruct Hk as [Hk|Hk]; [|exact Hk]. subst. rewrite ekind_beq_refl in Ek. discriminate.
Qed.

(* every bus reference x of the listed tables becomes remap lk x, and so do the bus keys *)
Lemma inv_step_reindex_buses n lk0 n' :
  G22_reindex_buses n lk0 = true -> Resolves n -> reindex_buses n lk0 = Ok n' -> Resolves n'.
Proof.
  intros G Rn. unfold reindex_buses. fold (bus_lookup n lk0). cbv zeta. set (lk := bus_lookup n lk0) in *. set (f := remap lk).
  destruct (mapM _ (bus n)) as [nb|] eqn:Enb; cbn [bind]; [|discriminate].
  destruct (get_indices (rbus n) lk) as [nr|] eqn:Enr; cbn [bind]; [|discriminate].
  destruct (mapM _ ekinds) as [els|] eqn:Eels; cbn [bind]; [|discriminate].
  destruct (mapM _ (sw n)) as [sws1|] eqn:Esw1; cbn [bind]; [|discriminate].
  destruct (mapM _ (grp n)) as [gs|] eqn:Egs; cbn [bind]; [|discriminate].
  destruct (mapM _ (meas n)) as [ms|] eqn:Ems; cbn [bind]; [|discriminate].
  destruct (mapM _ sws1) as [sws2|] eqn:Esw2; cbn [bind]; [|discriminate].
  intros [= <-]. set (n' := set_meas _ _).
  apply mapM_in in Enb, Esw1, Esw2, Egs, Ems. apply get_indices_map in Enr.
  assert (Hel : forall k, (if in_bus_tuples k
                           then mapM (fun r => do bs <- get_indices (ebus r) lk; Ok {| eid := eid r; ebus := bs; eis := eis r |}) (el n k)
                           else Ok (el n k)) = Ok (el n' k)).
  { intros k. apply (pick_spec _ k ekinds els Eels), in_ekinds. }
  clear Eels.
  apply (follows_resolves (fun t x x' => x' = if tname_eqb t TBus then f x else x) n); [constructor| |exact Rn].
  - intros k r' b' H Hb. specialize (Hel k). destruct (in_bus_tuples k) eqn:Hk.
    + apply mapM_in in Hel. destruct (proj1 Hel r' H) as [r [Hr E]]. apply get_indices_bind in E. injection E as <-.
      apply in_map_iff in Hb as [b [<- Hb]]. exists r, b. auto.
    + (* the unlisted tables keep their bus values: the guard *)
      replace (el n' k) with (el n k) in H by congruence. exists r', b'. split; [exact H|]. split; [exact Hb|].
      destruct k; try discriminate Hk. unfold G22_reindex_buses in G. rewrite forallb_forall in G.
      specialize (G r' H). rewrite forallb_forall in G. symmetry. apply Z.eqb_eq, G, Hb.
  - intros s2 H. destruct (proj1 Esw2 s2 H) as [s1 [H1 E2]]. destruct (proj1 Esw1 s1 H1) as [s [Hs E1]].
    apply lk1_bind in E1. injection E1 as <-. cbn [swt sel sbus sid sclosed] in E2. exists s. split; [exact Hs|].
    destruct (swt s) eqn:Es; cbn [swet_eqb] in E2; [apply lk1_bind in E2| | |]; injection E2 as <-; cbn [swt sbus sel]; rewrite ?Es; auto.
  - intros m' H. destruct (proj1 Ems m' H) as [m [Hm E]]. exists m. split; [exact Hm|].
    destruct (tname_eqb (mty m) TBus) eqn:Et; [apply lk1_bind in E|]; cbn [bind] in E;
      (destruct (msd m) as [| c | b] eqn:Es; [| |destruct (lk1 lk b) eqn:L; [apply lk1_remap in L as -> | discriminate E]]); injection E as <-; cbn [mty mel msd]; rewrite ?Et;
      (split; [reflexivity|]); (split; [reflexivity|]); intros b' Hb'; inversion Hb'; eauto.
  - intros c H. exists c. auto.
  - intros g' H. destruct (proj1 Egs g' H) as [g [Hg E]]. exists g. split; [exact Hg|]. destruct (tname_eqb (gty g) TBus) eqn:Et.
    + apply get_indices_bind in E. injection E as <-. split; [reflexivity|]. cbn [gmem]. intros x' Hx. apply in_map_iff in Hx as [x [<- Hx]]. eauto.
    + injection E as <-. split; [reflexivity|]. eauto.
  - intros c H. exists c. split; [exact H|]. split; [reflexivity|]. eauto.
  - intros x' H. change (In x' nr) in H. rewrite Enr in H. apply in_map_iff in H as [x [<- Hx]]. eauto.
  - intros k x H. exists x. auto.
  - intros t x x' Ht -> Hx. destruct t; try discriminate Ht; cbn [tname_eqb keys].
    + apply in_map_iff in Hx as [p [<- Hp]]. destruct (proj2 Enb p Hp) as [q [Hq E]]. apply lk1_bind in E. injection E as <-.
      exact (in_map fst _ _ Hq).
    + apply in_map_iff in Hx as [s [<- Hs]]. destruct (proj2 Esw1 s Hs) as [s1 [H1 E1]]. apply lk1_bind in E1. injection E1 as <-.
      destruct (proj2 Esw2 _ H1) as [s2 [H2 E2]]. cbn [swt sel sbus sid sclosed] in E2.
      destruct (swet_eqb (swt s) SB); [apply lk1_bind in E2|]; injection E2 as <-; exact (in_map sid _ _ H2).
    + unfold el_ids. specialize (Hel k). destruct (in_bus_tuples k); [|replace (el n' k) with (el n k) by congruence; exact Hx].
      apply mapM_in in Hel. apply in_map_iff in Hx as [r [<- Hr]]. destruct (proj2 Hel r Hr) as [r' [Hr' E]].
      apply get_indices_bind in E. injection E as <-. exact (in_map eid _ _ Hr').
Qed.

Lemma inv_step_cont_bus_index n start n' :
  G22_cont_bus n start = true -> Resolves n -> cont_bus_index n start = Ok n' -> Resolves n'.
Proof.
  intros G I. unfold cont_bus_index. apply inv_step_reindex_buses; [exact G|].
  set (sorted := flat_map (fun i => filter (fun b => fst b =? i) (bus n)) (zsort_uniq (bus_ids n))).
  assert (K : keys_le n (set_bus n sorted)).
  { intros t x. destruct t; simpl; try tauto. intros Hx. unfold bus_ids. simpl. apply in_select_bus; [apply in_zsort_uniq, Hx | exact Hx]. }
  revert I. by_keys_le K.
Qed.
Lemma fuse_unfold n b1 b2in drop fm :
  fuse_buses n b1 b2in drop fm =
  (let b2 := filter (fun x => negb (x =? b1)) (zsort_uniq b2in) in
   let nd := fuse_reroute n b1 b2 fm in
   if drop then
     do n <- drop_buses_gen true nd b2 false;
     do n <- drop_inner_branches_gen true n b1;
     Ok (if fm then set_meas n (dedup_meas [] (meas n) b1) else n)
   else Ok nd).
Proof. reflexivity. Qed.
Lemma reroute_notin b2 b1 x : ~ In b1 b2 -> ~ In (reroute b2 b1 x) b2.
Proof. intros H. unfold reroute. destruct (zin x b2) eqn:Z; [exact H | apply zin_false, Z]. Qed.

(* what fuse_reroute does to a reference x into table t: it stays, or (bus references only) it becomes b1 *)
Definition rerouted (b1 : Z) (t : tname) (x x' : Z) : Prop := x' = x \/ t = TBus /\ x' = b1.
Lemma rerouted_refl b1 t x : rerouted b1 t x x.
Proof. left. reflexivity. Qed.
Lemma reroute_cases b2 b1 x : rerouted b1 TBus x (reroute b2 b1 x).
Proof. unfold rerouted, reroute. destruct (zin x b2); auto. Qed.

Lemma fuse_reroute_keys n b1 b2 fm t : grp_ty_ok t = true -> keys (fuse_reroute n b1 b2 fm) t = keys n t.
Proof.
  intros Ht. destruct t as [| | | | |k]; try discriminate Ht.
  - destruct fm; reflexivity.
  - destruct fm; simpl; rewrite map_map; reflexivity.
  - unfold keys, el_ids. replace (el (fuse_reroute n b1 b2 fm) k) with
      (if in_bus_tuples k then map (fun r => {| eid := eid r; ebus := map (reroute b2 b1) (ebus r); eis := eis r |}) (el n k) else el n k) by (destruct fm; reflexivity).
    destruct (in_bus_tuples k); [rewrite map_map|]; reflexivity.
Qed.

Lemma fuse_reroute_inv n b1 b2 fm : Resolves n -> In b1 (bus_ids n) -> Resolves (fuse_reroute n b1 b2 fm).
Proof.
  intros Rn Hb1. revert Rn.
  apply (follows_resolves (rerouted b1)); [constructor|].
  - intros k r' b' H Hb.
    assert (H' : In r' (if in_bus_tuples k then map (fun r => {| eid := eid r; ebus := map (reroute b2 b1) (ebus r); eis := eis r |}) (el n k) else el n k))
      by (destruct fm; exact H).
    destruct (in_bus_tuples k); [|eauto 6 using rerouted_refl]. apply in_map_iff in H' as [r [<- Hr]]. apply in_map_iff in Hb as [b [<- Hb]].
    exists r, b. split; [exact Hr|]. split; [exact Hb | apply reroute_cases].
  - intros s' H. assert (H' : In s' (map (fun s => {| sid := sid s; sbus := reroute b2 b1 (sbus s); swt := swt s; sel := if swet_eqb (swt s) SB then reroute b2 b1 (sel s) else sel s; sclosed := sclosed s |}) (sw n)))
      by (destruct fm; exact H).
    apply in_map_iff in H' as [s [<- Hs]]. exists s. split; [exact Hs|]. split; [reflexivity|]. split; [apply reroute_cases|].
    cbn [swt sel]. destruct (swt s); simpl; auto using reroute_cases, rerouted_refl.
  - intros m' H. destruct fm; [|exists m'; split; [exact H|]; split; [reflexivity|]; split; eauto using rerouted_refl].
    simpl in H. rewrite map_map in H. apply in_map_iff in H as [m [<- Hm]]. exists m. split; [exact Hm|].
    destruct (tname_eqb (mty m) TBus) eqn:Et; destruct (msd m) eqn:Es; cbn [mty mel msd]; rewrite ?Es; cbn [mty mel msd].
    all: try (apply tname_eqb_eq in Et; rewrite Et).
    all: (split; [reflexivity|]); (split; [auto using reroute_cases, rerouted_refl|]); intros b' [= <-]; eexists; (split; [reflexivity | apply reroute_cases]).
  - intros c' H. exists c'. split; [destruct fm; exact H | auto using rerouted_refl].
  - intros g' H. exists g'. split; [destruct fm; exact H|]. split; [reflexivity | eauto using rerouted_refl].
  - intros c' H. exists c'. split; [destruct fm; exact H|]. split; [reflexivity | eauto using rerouted_refl].
  - intros x H. exists x. split; [destruct fm; exact H | apply rerouted_refl].
  - intros k x H. exists x. split; [destruct fm; exact H | apply rerouted_refl].
  - intros t x x' Ht [-> | [-> ->]] Hx; rewrite (fuse_reroute_keys _ _ _ _ _ Ht); [exact Hx | exact Hb1].
Qed.

Lemma fuse_reroute_free n b1 b2 fm : ~ In b1 b2 ->
  (forall k r b, in_bus_tuples k = true -> In r (el (fuse_reroute n b1 b2 fm) k) -> In b (ebus r) -> ~ In b b2) /\
  (forall s, In s (sw (fuse_reroute n b1 b2 fm)) -> ~ In (sbus s) b2 /\ (swt s = SB -> ~ In (sel s) b2)) /\
  (forall m, In m (meas (fuse_reroute n b1 b2 fm)) ->
     if fm then (mty m = TBus -> ~ In (mel m) b2) /\ (forall b, msd m = SideBus b -> ~ In b b2) else In m (meas n)).
Proof.
  intros Hn. split; [|split].
  - intros k r' b' Hk H Hb.
    assert (H' : In r' (map (fun r => {| eid := eid r; ebus := map (reroute b2 b1) (ebus r); eis := eis r |}) (el n k)))
      by (destruct fm; simpl in H; rewrite Hk in H; exact H).
    apply in_map_iff in H' as [r [<- Hr]]. apply in_map_iff in Hb as [b [<- Hb]]. apply reroute_notin, Hn.
  - intros s' H. assert (H' : In s' (map (fun s => {| sid := sid s; sbus := reroute b2 b1 (sbus s); swt := swt s; sel := if swet_eqb (swt s) SB then reroute b2 b1 (sel s) else sel s; sclosed := sclosed s |}) (sw n)))
      by (destruct fm; exact H).
    apply in_map_iff in H' as [s [<- Hs]]. cbn [sbus swt sel]. split; [apply reroute_notin, Hn|]. intros ->. apply reroute_notin, Hn.
  - intros m' H. destruct fm; [|exact H]. simpl in H. rewrite map_map in H. apply in_map_iff in H as [m [<- Hm]].
    destruct (tname_eqb (mty m) TBus) eqn:Et; destruct (msd m) eqn:Es; cbn [mty mel msd]; rewrite ?Es; cbn [mty mel msd].
    all: split; [intros E; try (rewrite E in Et; discriminate); apply reroute_notin, Hn | intros b' [= <-]; apply reroute_notin, Hn].
Qed.

Lemma inner_not_outer b1 r : all_at b1 r = true -> negb (all_at b1 r) = false.
Proof. intros ->. reflexivity. Qed.

Lemma inner_step_branch P n k e b1 n' :
  sw_target e = TEl k ->
  Gat (fun r => negb (all_at b1 r)) n -> ResolvesP P n -> drop_branch_sw n k e (map eid (filter (all_at b1) (el n k))) = Ok n' -> okstep P n n'.
Proof.
  intros He G R E.
  exact (drop_branch_P P n k e _ n' He (Gat_nocost _ n k _ (sw_target_swk e k He) (inner_not_outer b1) G) (Gat_noctrl _ n k _ (inner_not_outer b1) G) R E).
Qed.
Lemma inner_step_simple P n k b1 n' :
  is_swk k = false -> Gat (fun r => negb (all_at b1 r)) n -> ResolvesP P n ->
  (match map eid (filter (all_at b1) (el n k)) with [] => Ok n | _ => drop_simple_el n k (map eid (filter (all_at b1) (el n k))) end) = Ok n' ->
  okstep P n n'.
Proof.
  intros Hs G R. pose proof (Gat_noctrl _ n k _ (inner_not_outer b1) G) as Gt.
  destruct (map eid (filter (all_at b1) (el n k))) as [|i0 it] eqn:EI.
  - intros [= <-]. apply okstep_refl, R.
  - rewrite <- EI in *. apply drop_simple_el_P; assumption.
Qed.

(* a further stage of a cascade that started at n0 *)
Lemma stage_ok P q n0 a b : okstep P n0 a -> Gat q a -> okstep P a b -> okstep P n0 b /\ Gat q b.
Proof. intros O G O'. split; [eapply okstep_trans; eassumption | eapply Gat_sub; [apply O' | exact G]]. Qed.

Lemma inner_branches_ok P n b1 n' :
  Gat (fun r => negb (all_at b1 r)) n -> ResolvesP P n -> drop_inner_branches_gen true n b1 = Ok n' -> okstep P n n'.
Proof.
  intros G R. pose proof (okstep_refl P n R) as O. unfold drop_inner_branches_gen.
  destruct (drop_lines n (map eid (filter (all_at b1) (el n Line)))) as [n1|] eqn:E1; cbn [bind]; [|discriminate].
  destruct (stage_ok _ _ n _ _ O G (inner_step_branch P n Line SL b1 n1 eq_refl G R E1)) as [O1 G1].
  match goal with |- context [bind ?x _] => destruct x as [n2|] eqn:E2 end; cbn [bind]; [|discriminate].
  destruct (stage_ok _ _ n _ _ O1 G1 (inner_step_simple P n1 Impedance b1 n2 eq_refl G1 (proj1 O1) E2)) as [O2 G2].
  set (isw := fun s => (sbus s =? b1) && (sel s =? b1) && swet_eqb (swt s) SB).
  destruct (stage_ok _ _ n _ _ O2 G2 (drop_hit_switches P n2 isw (proj1 O2))) as [O3 G3].
  set (n3 := set_sw (detach n2 TSwitch (map sid (filter isw (sw n2)))) (filter (fun s => negb (isw s)) (sw n2))) in *.
  change (match drop_trafos n3 false (map eid (filter (all_at b1) (el n3 Trafo))) with
          | Ok n4 => (do n5 <- drop_trafos n4 true (map eid (filter (all_at b1) (el n4 Trafo3w)));
                      match map eid (filter (all_at b1) (el n5 Dcline)) with
                      | [] => Ok n5
                      | _ => drop_simple_el n5 Dcline (map eid (filter (all_at b1) (el n5 Dcline))) end)
          | Err s => Err s end = Ok n' -> okstep P n n').
  destruct (drop_trafos n3 false (map eid (filter (all_at b1) (el n3 Trafo)))) as [n4|] eqn:E4; [|discriminate].
  destruct (stage_ok _ _ n _ _ O3 G3 (inner_step_branch P n3 Trafo ST b1 n4 eq_refl G3 (proj1 O3) E4)) as [O4 G4].
  destruct (drop_trafos n4 true (map eid (filter (all_at b1) (el n4 Trafo3w)))) as [n5|] eqn:E5; cbn [bind]; [|discriminate].
  destruct (stage_ok _ _ n _ _ O4 G4 (inner_step_branch P n4 Trafo3w ST3 b1 n5 eq_refl G4 (proj1 O4) E5)) as [O5 G5].
  intros E6. apply (stage_ok _ _ n _ _ O5 G5 (inner_step_simple P n5 Dcline b1 n' eq_refl G5 (proj1 O5) E6)).
Qed.

Lemma in_dedup_meas b1 : forall l seen m, In m (dedup_meas seen l b1) -> In m l.
Proof.
  induction l as [|x t IH]; intros seen m H; [destruct H|]. simpl in H.
  destruct (tname_eqb (mty x) TBus && (mel x =? b1)).
  - destruct (existsb _ seen); [right; eapply IH; eauto|]. destruct H as [H|H]; [left; exact H | right; eapply IH; eauto].
  - destruct H as [H|H]; [left; exact H | right; eapply IH; eauto].
Qed.

Lemma inv_step_fuse_buses n b1 b2in drop fm n' :
  G22_fuse n b1 b2in drop fm = true -> Resolves n -> fuse_buses n b1 b2in drop fm = Ok n' -> Resolves n'.
Proof.
  intros G R. rewrite fuse_unfold. cbv zeta. unfold G22_fuse in G.
  set (b2 := filter (fun x => negb (x =? b1)) (zsort_uniq b2in)) in *.
  apply andb_true_iff in G. destruct G as [Gb1 G]. apply zin_true in Gb1.
  assert (Hn : ~ In b1 b2).
  { unfold b2. intros H. apply filter_In in H. destruct H as [_ H]. rewrite Z.eqb_refl in H. discriminate. }
  pose proof (fuse_reroute_inv n b1 b2 fm R Gb1) as Id.
  destruct (fuse_reroute_free n b1 b2 fm Hn) as (Fel & Fsw & Fms).
  assert (Sd : el (fuse_reroute n b1 b2 fm) Svc = el n Svc) by (destruct fm; reflexivity).
  set (nd := fuse_reroute n b1 b2 fm) in *.
  destruct drop; [|intros [= <-]; exact Id].
  simpl in G. rewrite !andb_true_iff in G. destruct G as [[Gsvc Gm] Gi]. apply gat_inner_true in Gi.
  clearbody nd. clearbody b2.
  destruct (drop_buses_gen true nd b2 false) as [ne|] eqn:Ee; cbn [bind]; [|discriminate].
  (* the fused buses are referenced by nothing after the rerouting: dropping them keeps the invariant *)
  assert (Oe : ResolvesP (fun _ => True) ne /\ sub ne nd).
  { unfold drop_buses_gen in Ee. destruct b2 as [|b0 bt] eqn:EB.
    { injection Ee as <-. split; [apply ResolvesP_all, Id | apply sub_refl]. }
    rewrite <- EB in *. clear EB b0 bt.
    destruct (allin b2 (bus_ids (detach nd TBus b2))) eqn:A; cbn [negb] in Ee; [|discriminate]. injection Ee as Ee.
    assert (Se : sub ne nd) by (subst ne; sub_chain).
    split; [|exact Se].
    apply ResolvesP_all, (resolves_drop_bus_rows nd ne b2 Id); subst ne; [|apply sub_refl|reflexivity| | |].
    - apply (resolves_NB_sub nd); [exact Se | exact Id | reflexivity | reflexivity].
    - intros k r H1 b H2. destruct (in_bus_tuples k) eqn:Hk; [eapply Fel; eauto|].
      destruct k; try discriminate Hk. simpl in H1. rewrite Sd in H1. unfold svc_free in Gsvc. rewrite forallb_forall in Gsvc.
      apply (proj1 (free_of_true b2 r) (Gsvc r H1)), H2.
    - exact Fsw.
    - intros m H1. specialize (Fms m H1). destruct fm; [exact Fms|].
      simpl in Gm. apply andb_true_iff in Gm. destruct Gm as [Gs Gm]. unfold sides_free in Gs. rewrite forallb_forall in Gs, Gm. split.
      + intros H2. specialize (Gm m Fms). rewrite H2 in Gm. apply zin_false, negb_true_iff, Gm.
      + intros b H2. specialize (Gs m Fms). rewrite H2 in Gs. apply zin_false, negb_true_iff, Gs. }
  destruct Oe as [Re Se]. pose proof (Gat_sub _ _ _ Se Gi) as Ge.
  destruct (drop_inner_branches_gen true ne b1) as [nf|] eqn:Ef; cbn [bind]; [|discriminate].
  destruct (inner_branches_ok (fun _ => True) ne b1 nf Ge Re Ef) as (Rf & _ & _).
  intros E. injection E as E. subst n'. apply ResolvesP_all. destruct fm; [|exact Rf].
  apply (resolves_same_keys _ nf); auto. apply sub_set_meas. intros m Hm. eapply in_dedup_meas; eauto.
Qed.
Lemma in_sort_by {A} (key : A -> Z) l r : In r (sort_by key l) <-> In r l.
Proof.
  unfold sort_by. rewrite in_flat_map. split.
  - intros [i [_ H]]. apply filter_In in H. apply H.
  - intros H. exists (key r). split; [apply in_zsort_uniq, in_map, H|]. apply filter_In. split; [exact H | apply Z.eqb_refl].
Qed.
Lemma in_map_sort_by {A} (key f : A -> Z) l x : In x (map f (sort_by key l)) <-> In x (map f l).
Proof. rewrite !in_map_iff. split; intros [r [H1 H2]]; exists r; (split; [exact H1|]); [apply in_sort_by in H2 | apply in_sort_by]; exact H2. Qed.
Lemma inv_sorted n t : Resolves n ->
  Resolves (match t with
       | TSwitch => set_sw n (sort_by sid (sw n))
       | TMeas => set_meas n (sort_by mid (meas n))
       | TEl k => set_elk n k (sort_by eid (el n k))
       | _ => n end).
Proof.
  intros I. destruct t; try exact I.
  1-2: match goal with |- Resolves ?m =>
         assert (K : keys_le n m) by (apply keys_le_refl_on; simpl; auto; intros x Hx; apply in_map_sort_by, Hx) end;
       revert I; by_keys_le K; intros s Hs; left; apply in_sort_by in Hs; exact Hs.
  assert (K : keys_le n (set_elk n k (sort_by eid (el n k)))).
  { intros t x. destruct t; simpl; try tauto. unfold el_ids. rewrite el_set_elk.
    destruct (ekind_beq k k0) eqn:E; [apply ekind_beq_eq in E as <- | tauto]. intros Hx. apply in_map_sort_by, Hx. }
  revert I. by_keys_le K.
  intros k' r Hr. left. unfold upd in Hr. destruct (ekind_beq k k') eqn:E; [|exact Hr]. apply ekind_beq_eq in E as <-. apply in_sort_by in Hr. exact Hr.
Qed.

Lemma nodupz_true l : nodupz l = true -> NoDup l.
Proof.
  induction l as [|x t IH]; simpl; [constructor|]. intros H. apply andb_true_iff in H. destruct H as [H1 H2].
  constructor; [apply zin_false, negb_true_iff, H1 | apply IH, H2].
Qed.
Lemma lookup_cons_absent a v lk x : ~ In a (map fst lk) -> lookup ((a, v) :: lk) x = if a =? x then Some v else lookup lk x.
Proof.
  intros Ha. unfold lookup at 1. simpl. rewrite lookup_fold. destruct (a =? x) eqn:E.
  - apply Z.eqb_eq in E. subst x. rewrite lookup_none; [reflexivity|]. apply zin_false. exact Ha.
  - destruct (lookup lk x); reflexivity.
Qed.
Lemma combine_keys (l : list Z) : forall s, map fst (combine l (zrange s (List.length l))) = l.
Proof. induction l as [|a t IH]; intros s; simpl; [reflexivity|]. rewrite IH. reflexivity. Qed.
(* renumbering a duplicate free index by position gives exactly start .. start+len-1 *)
Lemma remap_positions (l : list Z) : forall s, NoDup l -> map (remap (combine l (zrange s (List.length l)))) l = zrange s (List.length l).
Proof.
  induction l as [|a t IH]; intros s N; simpl; [reflexivity|]. inversion N as [|? ? Ha Nt]; subst.
  assert (Hk : ~ In a (map fst (combine t (zrange (s + 1) (List.length t))))) by (rewrite combine_keys; exact Ha).
  f_equal.
  - unfold remap. rewrite (lookup_cons_absent a s _ a Hk), Z.eqb_refl. reflexivity.
  - transitivity (map (remap (combine t (zrange (s + 1) (List.length t)))) t); [|apply IH, Nt]. apply map_ext_in. intros x Hx. unfold remap. rewrite (lookup_cons_absent a s _ x Hk).
    destruct (a =? x) eqn:E; [|reflexivity]. apply Z.eqb_eq in E. subst x. contradiction.
Qed.
Lemma in_zrange x : forall n s, In x (zrange s n) <-> s <= x < s + Z.of_nat n.
Proof.
  induction n as [|n IH]; intros s; simpl zrange.
  - simpl. lia.
  - simpl In. rewrite IH. lia.
Qed.

(* what reindex_elements does to the index of the table and to the length of its res_ table *)
Lemma reindex_elements_ids n k lk n' :
  reindex_elements n (TEl k) lk = Ok n' ->
  (n' = n /\ (el_ids n k = [] \/ lk = [])) \/
  (el_ids n' k = map (remap lk) (el_ids n k) /\ List.length (res n' k) = List.length (res n k)).
Proof.
  unfold reindex_elements, reindex_elements_gen.
  destruct (keys n (TEl k)) as [|k0 kt] eqn:EK; [intros E; injection E as E; left; split; [symmetry; exact E | left; exact EK]|].
  destruct lk as [|p0 lt] eqn:ELK; [intros E; injection E as E; left; split; [symmetry; exact E | right; reflexivity]|].
  rewrite <- ELK in *. clear ELK p0 lt. rewrite <- EK. clear EK k0 kt.
  set (old := filter (fun i => haskey lk i) (keys n (TEl k))).
  set (cond := fun x => if zin x old then remap lk x else x).
  cbn [reindex_table andb].
  erewrite (mapM_total _ (fun g => if tname_eqb (gty g) (TEl k) then {| gid := gid g; gty := gty g; gmem := map cond (gmem g) |} else g)).
  2:{ intros g. destruct (tname_eqb (gty g) (TEl k)); reflexivity. }
  cbn [bind]. intros E. injection E as E. subst n'. right. split.
  - unfold el_ids. cbn [el set_wcost set_pcost set_sw set_meas set_grp set_resk set_res set_elk set_el]. unfold upd. rewrite ekind_beq_refl, map_map. symmetry. apply map_map.
  - cbn [res set_wcost set_pcost set_sw set_meas set_grp set_resk set_res set_elk set_el]. unfold upd. rewrite ekind_beq_refl. apply map_length.
Qed.

Lemma inv_cont_res n k start :
  Resolves n -> (forall x, In x (zrange start (List.length (res n k))) -> In x (el_ids n k)) -> Resolves (cont_res n k start).
Proof.
  intros R H. apply Inv_Resolves in R. destruct R as [Ie Is Im Ic Ig Ict Irb Ir]. apply Inv_Resolves. constructor; auto.
  intros k' x Hx. change (In x (upd (res n) k (zrange start (List.length (res n k))) k')) in Hx. unfold upd in Hx.
  change (el_ids (cont_res n k start) k') with (el_ids n k').
  destruct (ekind_beq k k') eqn:E; [apply ekind_beq_eq in E; subst k'; apply H, Hx | apply Ir, Hx].
Qed.

Lemma cont_one_step n t start n1 :
  G22_cont_one n t start = true -> Resolves n -> cont_one n t start = Ok n1 ->
  Resolves (match t with TEl k => cont_res n1 k start | _ => n1 end).
Proof.
  intros G I. unfold cont_one. pose proof (inv_sorted n t I) as Is.
  destruct t as [| | | | |k]; cbn [G22_cont_one] in G; try discriminate G.
  1-4: revert Is; apply inv_step_reindex_table; [discriminate | intros k [=]].
  - set (ns := set_elk n k (sort_by eid (el n k))) in *. cbn [keys] in *. set (ids := el_ids ns k) in *.
    rewrite !andb_true_iff in G. destruct G as [[G1 G2] G3]. apply nodupz_true in G2. apply nodupz_true in G3.
    intros E. assert (I1 : Resolves n1) by (revert Is E; apply inv_step_reindex_table; [discriminate | intros k' [= <-]; exact G1]).
    apply inv_cont_res; [exact I1|]. intros x Hx.
    assert (Hlen : (List.length (res n k) <= List.length ids)%nat).
    { apply NoDup_incl_length; [exact G3|]. intros y Hy. apply (proj2 Is (TEl k) y), R_res, Hy. }
    destruct (reindex_elements_ids ns k _ n1 E) as [[E1 E2]|[E1 E2]].
    + subst n1. fold ids in E2. assert (ids = []).
      { destruct E2 as [E2|E2]; [exact E2|]. destruct ids; [reflexivity | discriminate E2]. }
      rewrite H in Hlen. simpl in Hlen. change (res ns k) with (res n k) in Hx. destruct (res n k); [destruct Hx | simpl in Hlen; lia].
    + rewrite E1. fold ids. rewrite (remap_positions ids start G2). rewrite E2 in Hx. change (res ns k) with (res n k) in Hx.
      apply in_zrange. apply in_zrange in Hx. lia.
Qed.

Lemma cont_loop_inv start : forall ts n n',
  G22_cont_loop n ts start = true -> Resolves n -> cont_loop n ts start = Ok n' -> Resolves n'.
Proof.
  induction ts as [|t r IH]; intros n n' G I E; simpl in E.
  - injection E as E. subst. exact I.
  - cbn [G22_cont_loop] in G. apply andb_true_iff in G. destruct G as [G1 G2].
    destruct (cont_one n t start) as [n1|] eqn:E1; cbn [bind] in E; [|discriminate].
    eapply IH; [exact G2 | | exact E]. eapply cont_one_step; eauto.
Qed.
Lemma inv_step_cont_elements_index n start n' :
  G22_cont_elements n start = true -> Resolves n -> cont_elements_index n start = Ok n' -> Resolves n'.
Proof.
  intros G I. unfold cont_elements_index. unfold G22_cont_elements in G. apply andb_true_iff in G. destruct G as [G1 G2].
  destruct (cont_bus_index n start) as [n1|] eqn:E1; cbn [bind]; [|discriminate].
  apply cont_loop_inv; [exact G2|]. eapply inv_step_cont_bus_index; eauto.
Qed.
(* reachability over guarded edit lists *)
Lemma inv_step_G22 n o n' : G22 n o = true -> Inv n -> step n o = Ok n' -> Inv n'.
Proof.
  rewrite !Inv_Resolves. destruct o; cbn [G22 step]; intros G R E; try discriminate.
  - eapply inv_step_create_bus; eauto.
  - eapply inv_step_create_el; eauto.
  - eapply inv_step_create_switch; eauto.
  - apply andb_true_iff in G. destruct G as [G1 G2]. eapply inv_step_create_meas; eauto.
    intros b Hb. subst s. cbn [side_ok] in G2. apply zin_true, G2.
  - eapply inv_step_create_cost_partial; eauto.
  - eapply inv_step_create_group; eauto.
  - eapply inv_step_create_ctrl_partial; eauto.
  - destruct drop_el; [|discriminate]. eapply inv_step_drop_buses; eauto.
  - eapply inv_step_drop_lines; eauto.
  - eapply inv_step_drop_trafos; eauto.
  - eapply inv_step_drop_elements; eauto.
  - eapply inv_step_fuse_buses; eauto.
  - eapply inv_step_reindex_buses; eauto.
  - destruct t as [| | | | |k].
    2-6: revert R E; apply inv_step_reindex_table; [discriminate | intros k' Hk; inversion Hk; subst; exact G].
    unfold reindex_elements, reindex_elements_gen in E. destruct (keys n TBus) eqn:EK; [injection E as E; subst; exact R|].
    destruct lk as [|p0 lt]; [injection E as E; subst; exact R|]. eapply inv_step_reindex_buses; eauto.
  - eapply inv_step_cont_bus_index; eauto.
  - eapply inv_step_cont_elements_index; eauto.
  - eapply inv_step_select_subnet; eauto.
Qed.
Lemma inv_reachable ops : forall n, Inv n -> guarded n ops = true -> Inv (run_ops n ops).
Proof.
  induction ops as [|o r IH]; intros n I G; simpl; [exact I|].
  simpl in G. apply andb_true_iff in G. destruct G as [G1 G2].
  destruct (step n o) as [n'|s] eqn:E.
  - apply IH; [eapply inv_step_G22; eauto | exact G2].
  - apply IH; assumption.
Qed.
Lemma inv_reachable_from_empty ops : guarded empty_net ops = true -> inv (run_ops empty_net ops) = true.
Proof. intros G. apply inv_iff, inv_reachable; [apply inv_init | exact G]. Qed.
(* the hypotheses are satisfiable by a non-trivial edit list: build a net, then drop a line that has a switch, a
   measurement and a group membership *)
Definition ex_ops : list op :=
  [OCreateBus 3; OCreateBus 7; OCreateBus 9; OCreateEl Line 4 [3; 7]; OCreateEl Line 2 [7; 9]; OCreateEl Line 8 [3; 7]; OCreateEl Load 1 [9];
   OCreateSwitch 5 3 SL 4; OCreateSwitch 6 3 SB 7; OCreateSwitch 7 9 SL 2; OCreateMeas 0 1%nat (TEl Line) 4 (SideBus 3);
   OCreateMeas 1 0%nat TBus 9 SideNone; OCreateCost true 0 Load 1;
   OCreateGroup 2 (TEl Line) [4; 2; 8]; OCreateGroup 3 TSwitch [5; 7]; OCreateGroup 4 TBus [9; 3]; OCreateCtrl Load [1] false;
   OReindexElements (TEl Line) [(4, 11)]; ODropLines [11]; ODropBuses [9] true; ODropElements TSwitch [6]].
