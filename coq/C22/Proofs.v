(* C22 — the invariant of the relational model as a proposition and as the relation "all foreign keys resolve"; the edits
   that add rows (the create functions) and the edit that renames the index of one table (reindex_elements). *)
From Coq Require Import ZArith List Bool String Lia.
From PPV Require Import C22.Model.
Import ListNotations.
Open Scope Z_scope.

(* the invariant as a proposition (the spec) *)
Record Inv (n : net) : Prop := {
  I_el : forall k r b, In r (el n k) -> In b (ebus r) -> In b (bus_ids n);
  I_sw : forall s, In s (sw n) -> In (sbus s) (bus_ids n) /\ In (sel s) (keys n (sw_target (swt s)));
  I_meas : forall m, In m (meas n) ->
           meas_ty_ok (mty m) = true /\ In (mel m) (keys n (mty m)) /\ forall b, msd m = SideBus b -> In b (bus_ids n);
  I_cost : forall c, In c (pcost n ++ wcost n) -> In (cel c) (el_ids n (cet c));
  I_grp : forall g, In g (grp n) -> grp_ty_ok (gty g) = true /\ forall x, In x (gmem g) -> In x (keys n (gty g));
  I_ctrl : forall c x, In c (ctrl n) -> In x (ctidx c) -> In x (el_ids n (ctty c));
  I_rbus : forall x, In x (rbus n) -> In x (bus_ids n);
  I_res : forall k x, In x (res n k) -> In x (el_ids n k) }.

Lemma zin_true x l : zin x l = true <-> In x l.
Proof.
  unfold zin. rewrite existsb_exists. split.
  - intros [y [H1 H2]]. apply Z.eqb_eq in H2. subst. exact H1.
  - intros H. exists x. split; [exact H | apply Z.eqb_refl].
Qed.
Lemma zin_false x l : zin x l = false <-> ~ In x l.
Proof. rewrite <- zin_true. destruct (zin x l); split; congruence. Qed.
Lemma allin_true l m : allin l m = true <-> forall x, In x l -> In x m.
Proof. unfold allin. rewrite forallb_forall. split; intros H x Hx; apply zin_true, H, Hx. Qed.
Lemma ekind_beq_eq a b : ekind_beq a b = true <-> a = b.
Proof. split; [apply internal_ekind_dec_bl | apply internal_ekind_dec_lb]. Qed.
Lemma ekind_beq_refl a : ekind_beq a a = true.
Proof. apply ekind_beq_eq. reflexivity. Qed.
Lemma ekind_beq_sym a b : ekind_beq a b = ekind_beq b a.
Proof. apply eq_true_iff_eq. rewrite !ekind_beq_eq. split; congruence. Qed.
Lemma tname_eqb_eq a b : tname_eqb a b = true <-> a = b.
Proof.
  destruct a, b; simpl; split; intros H; try reflexivity; try discriminate.
  - apply ekind_beq_eq in H. subst. reflexivity.
  - inversion H. apply ekind_beq_refl.
Qed.
Lemma tname_refl t : tname_eqb t t = true.
Proof. apply tname_eqb_eq. reflexivity. Qed.
Lemma in_ekinds k : In k ekinds.
Proof. destruct k; simpl; tauto. Qed.
Lemma forallb_ekinds f : forallb f ekinds = true <-> forall k, f k = true.
Proof.
  rewrite forallb_forall. split; intros H k; [apply H, in_ekinds | intros _; apply H].
Qed.

Lemma inv_iff n : inv n = true <-> Inv n.
Proof.
  unfold inv, inv_el, inv_sw, inv_meas, inv_cost, inv_grp, inv_ctrl, inv_res.
  rewrite !andb_true_iff, !forallb_ekinds.
  split.
  - intros [[[[[[He Hs] Hm] Hc] Hg] Hct] [Hrb Hr]]. constructor.
    + intros k r b Hr' Hb. specialize (He k). rewrite forallb_forall in He.
      specialize (He r Hr'). rewrite allin_true in He. apply He, Hb.
    + intros s Hs'. rewrite forallb_forall in Hs. specialize (Hs s Hs').
      apply andb_true_iff in Hs. rewrite !zin_true in Hs. exact Hs.
    + intros m Hm'. rewrite forallb_forall in Hm. specialize (Hm m Hm').
      rewrite !andb_true_iff in Hm. destruct Hm as [[H1 H2] H3]. rewrite zin_true in H2.
      repeat split; try assumption. intros b Hb. unfold side_ok in H3. rewrite Hb in H3. apply zin_true, H3.
    + intros c Hc'. rewrite forallb_forall in Hc. apply zin_true, Hc, Hc'.
    + intros g Hg'. rewrite forallb_forall in Hg. specialize (Hg g Hg'). apply andb_true_iff in Hg.
      destruct Hg as [H1 H2]. split; [exact H1|]. apply allin_true, H2.
    + intros c x Hc' Hx. rewrite forallb_forall in Hct. specialize (Hct c Hc'). rewrite allin_true in Hct. apply Hct, Hx.
    + apply allin_true, Hrb.
    + intros k. apply allin_true, Hr.
  - intros [He Hs Hm Hc Hg Hct Hrb Hr]. repeat split.
    + intros k. apply forallb_forall. intros r Hr'. apply allin_true. intros b Hb. eapply He; eauto.
    + apply forallb_forall. intros s Hs'. apply andb_true_iff. rewrite !zin_true. apply Hs, Hs'.
    + apply forallb_forall. intros m Hm'. destruct (Hm m Hm') as (H1 & H2 & H3).
      rewrite !andb_true_iff. repeat split; [exact H1 | apply zin_true, H2 |].
      unfold side_ok. destruct (msd m) eqn:E; try reflexivity. apply zin_true, H3. reflexivity.
    + apply forallb_forall. intros c Hc'. apply zin_true, Hc, Hc'.
    + apply forallb_forall. intros g Hg'. destruct (Hg g Hg') as [H1 H2]. apply andb_true_iff. split; [exact H1|].
      apply allin_true, H2.
    + apply forallb_forall. intros c Hc'. apply allin_true. intros x Hx. eapply Hct; eauto.
    + apply allin_true, Hrb.
    + intros k. apply allin_true, Hr.
Qed.

Lemma inv_init : Inv empty_net.
Proof. constructor; simpl; intros; try contradiction. Qed.

Lemma el_set_elk n k v k' : el (set_elk n k v) k' = if ekind_beq k k' then v else el n k'.
Proof. reflexivity. Qed.
Lemma el_set_elk_same n k v : el (set_elk n k v) k = v.
Proof. rewrite el_set_elk, ekind_beq_refl. reflexivity. Qed.
Lemma el_set_elk_other n k v k' : k <> k' -> el (set_elk n k v) k' = el n k'.
Proof.
  intros H. rewrite el_set_elk. destruct (ekind_beq k k') eqn:E; [apply ekind_beq_eq in E; contradiction | reflexivity].
Qed.

(* "all foreign keys resolve" as a relation *)
Inductive refs (n : net) : tname -> Z -> Prop :=
| R_el k r b : In r (el n k) -> In b (ebus r) -> refs n TBus b
| R_swb s : In s (sw n) -> refs n TBus (sbus s)
| R_swe s : In s (sw n) -> refs n (sw_target (swt s)) (sel s)
| R_meas m : In m (meas n) -> refs n (mty m) (mel m)
| R_side m b : In m (meas n) -> msd m = SideBus b -> refs n TBus b
| R_cost c : In c (pcost n ++ wcost n) -> refs n (TEl (cet c)) (cel c)
| R_grp g x : In g (grp n) -> In x (gmem g) -> refs n (gty g) x
| R_ctrl c x : In c (ctrl n) -> In x (ctidx c) -> refs n (TEl (ctty c)) x
| R_rbus x : In x (rbus n) -> refs n TBus x
| R_res k x : In x (res n k) -> refs n (TEl k) x.
Definition types_ok (n : net) : Prop :=
  (forall m, In m (meas n) -> meas_ty_ok (mty m) = true) /\ (forall g, In g (grp n) -> grp_ty_ok (gty g) = true).
Definition Resolves (n : net) : Prop := types_ok n /\ forall t x, refs n t x -> In x (keys n t).

Lemma Inv_Resolves n : Inv n <-> Resolves n.
Proof.
  split.
  - intros [Ie Is Im Ic Ig Ict Irb Ir]. split.
    + split; [intros m Hm; apply (Im m Hm) | intros g Hg; apply (Ig g Hg)].
    + intros t x R. destruct R.
      * eapply Ie; eauto.
      * apply (Is s H).
      * apply (Is s H).
      * apply (Im m H).
      * destruct (Im m H) as (_ & _ & H3). apply H3, H0.
      * apply Ic, H.
      * destruct (Ig g H) as [_ H2]. apply H2, H0.
      * eapply Ict; eauto.
      * apply Irb, H.
      * apply Ir, H.
  - intros [[Tm Tg] R]. constructor.
    + intros k r b H1 H2. apply (R TBus). eapply R_el; eauto.
    + intros s Hs. split; [apply (R TBus), R_swb, Hs | apply R, R_swe, Hs].
    + intros m Hm. repeat split; [apply Tm, Hm | apply R, R_meas, Hm | intros b Hb; apply (R TBus); eapply R_side; eauto].
    + intros c Hc. apply (R (TEl (cet c))), R_cost, Hc.
    + intros g Hg. split; [apply Tg, Hg | intros x Hx; apply R; eapply R_grp; eauto].
    + intros c x Hc Hx. apply (R (TEl (ctty c))). eapply R_ctrl; eauto.
    + intros x Hx. apply (R TBus), R_rbus, Hx.
    + intros k x Hx. apply (R (TEl k)), R_res, Hx.
Qed.

(* keys can only grow: every reference that resolved before still resolves *)
Definition keys_le (n n' : net) : Prop := forall t x, In x (keys n t) -> In x (keys n' t).

(* if the referencing rows are the same and the key sets grew, the invariant is kept *)
Lemma inv_keys_le n n' :
  keys_le n n' ->
  (forall k r, In r (el n' k) -> In r (el n k) \/ forall b, In b (ebus r) -> In b (bus_ids n')) ->
  (forall s, In s (sw n') -> In s (sw n) \/ (In (sbus s) (bus_ids n') /\ In (sel s) (keys n' (sw_target (swt s))))) ->
  (forall m, In m (meas n') -> In m (meas n) \/
        (meas_ty_ok (mty m) = true /\ In (mel m) (keys n' (mty m)) /\ forall b, msd m = SideBus b -> In b (bus_ids n'))) ->
  (forall c, In c (pcost n' ++ wcost n') -> In c (pcost n ++ wcost n) \/ In (cel c) (el_ids n' (cet c))) ->
  (forall g, In g (grp n') -> In g (grp n) \/ (grp_ty_ok (gty g) = true /\ forall x, In x (gmem g) -> In x (keys n' (gty g)))) ->
  (forall c, In c (ctrl n') -> In c (ctrl n) \/ forall x, In x (ctidx c) -> In x (el_ids n' (ctty c))) ->
  rbus n' = rbus n -> res n' = res n ->
  Resolves n -> Resolves n'.
Proof.
  intros K He Hs Hm Hc Hg Hct Hrb Hr [[Tm Tg] R]. split.
  - split.
    + intros m Hm'. destruct (Hm m Hm') as [H|H]; [apply Tm, H | apply H].
    + intros g Hg'. destruct (Hg g Hg') as [H|H]; [apply Tg, H | apply H].
  - (* a reference from an old row is a reference of n, and its key is still there; a new row resolves by hypothesis *)
    intros t x Rf. destruct Rf as [k r b Hr' Hb|s H'|s H'|m H'|m b H' Hb|c H'|g x H' Hx|c x H' Hx|x H'|k x H'].
    + destruct (He k r Hr') as [H|H]; [apply K, (R TBus); eapply R_el; eauto | apply H, Hb].
    + destruct (Hs s H') as [H|H]; [apply K, (R TBus), R_swb, H | apply H].
    + destruct (Hs s H') as [H|H]; [apply K, R, R_swe, H | apply H].
    + destruct (Hm m H') as [H|H]; [apply K, R, R_meas, H | apply H].
    + destruct (Hm m H') as [H|H]; [apply K, (R TBus); eapply R_side; eauto | apply H, Hb].
    + destruct (Hc c H') as [H|H]; [apply K, (R (TEl (cet c))), R_cost, H | exact H].
    + destruct (Hg g H') as [H|H]; [apply K, R; eapply R_grp; eauto | apply H, Hx].
    + destruct (Hct c H') as [H|H]; [apply K, (R (TEl (ctty c))); eapply R_ctrl; eauto | apply H, Hx].
    + rewrite Hrb in H'. apply K, (R TBus), R_rbus, H'.
    + rewrite Hr in H'. apply K, (R (TEl k)), R_res, H'.
Qed.

(* K : keys_le n n'.  What is left are the tables whose rows are not the old ones. *)
Ltac by_keys_le K :=
  apply (inv_keys_le _ _ K); simpl; try reflexivity; try (intros; left; assumption).

Lemma inv_step_create_bus n i n' : Resolves n -> create_bus n i = Ok n' -> Resolves n'.
Proof.
  unfold create_bus. destruct (zin i (bus_ids n)); [discriminate|]. intros I [= <-].
  assert (K : keys_le n (set_bus n (bus n ++ [(i, true)]))).
  { intros t x. destruct t; simpl; try tauto. unfold bus_ids. simpl. rewrite map_app, in_app_iff. tauto. }
  revert I. by_keys_le K.
Qed.

Lemma inv_step_create_el n k i bs n' : Resolves n -> create_el n k i bs = Ok n' -> Resolves n'.
Proof.
  unfold create_el. destruct (zin i (el_ids n k) || negb (allin bs (bus_ids n))) eqn:G; [discriminate|].
  intros I [= <-]. apply orb_false_iff in G. destruct G as [_ G]. apply negb_false_iff in G. rewrite allin_true in G.
  assert (K : keys_le n (set_elk n k (el n k ++ [{| eid := i; ebus := bs; eis := true |}]))).
  { intros t x. destruct t; simpl; try tauto. unfold el_ids. rewrite el_set_elk.
    destruct (ekind_beq k k0) eqn:E; [apply ekind_beq_eq in E as <- | tauto]. rewrite map_app, in_app_iff. tauto. }
  revert I. by_keys_le K. intros k' r Hr. unfold upd in Hr. destruct (ekind_beq k k') eqn:E; [|left; exact Hr].
  apply ekind_beq_eq in E as <-. apply in_app_iff in Hr as [Hr|[<-|[]]]; [left; exact Hr | right; exact G].
Qed.

Lemma keys_le_refl_on n n' :
  bus n' = bus n -> el n' = el n -> (forall x, In x (map sid (sw n)) -> In x (map sid (sw n'))) ->
  (forall x, In x (map mid (meas n)) -> In x (map mid (meas n'))) ->
  (forall x, In x (map cid (pcost n)) -> In x (map cid (pcost n'))) ->
  (forall x, In x (map cid (wcost n)) -> In x (map cid (wcost n'))) -> keys_le n n'.
Proof.
  intros Hb He Hs Hm Hp Hw t x. destruct t; simpl; unfold bus_ids, el_ids; rewrite ?Hb, ?He; auto.
Qed.
(* a row appended to the switch, measurement or cost table *)
Ltac keys_le_app := apply keys_le_refl_on; simpl; auto; intros y; rewrite map_app, in_app_iff; tauto.

Lemma find_row_in x b (l : list erow) :
  existsb (fun r => (eid r =? x) && zin b (ebus r)) l = true -> In x (map eid l).
Proof.
  rewrite existsb_exists. intros [r [H1 H2]]. apply andb_true_iff in H2. destruct H2 as [H2 _].
  apply Z.eqb_eq in H2. subst x. apply in_map, H1.
Qed.

Lemma inv_step_create_switch n i b e x n' : Resolves n -> create_switch n i b e x = Ok n' -> Resolves n'.
Proof.
  unfold create_switch.
  match goal with |- context [negb ?c || _] => destruct c eqn:G end; simpl; [|discriminate].
  destruct (zin i (map sid (sw n))); [discriminate|]. intros I [= <-].
  apply andb_true_iff in G. destruct G as [G1 G2]. apply zin_true in G1.
  assert (K : keys_le n (set_sw n (sw n ++ [{| sid := i; sbus := b; swt := e; sel := x; sclosed := true |}]))) by keys_le_app.
  revert I. by_keys_le K.
  intros s Hs. apply in_app_iff in Hs as [Hs|[<-|[]]]; [left; exact Hs|]. right. simpl.
  split; [exact G1|]. destruct e; simpl; [apply zin_true, G2 | | |]; eapply find_row_in, G2.
Qed.

(* the measured element type must be one that create_measurement accepts (bus or an element table) *)
Lemma inv_step_create_meas n i mt t x s n' :
  meas_ty_ok t = true -> (forall b, s = SideBus b -> In b (bus_ids n)) ->
  Resolves n -> create_meas n i mt t x s = Ok n' -> Resolves n'.
Proof.
  intros Ht Hside. unfold create_meas. destruct (zin x (keys n t)) eqn:G; simpl; [|discriminate].
  destruct (zin i (map mid (meas n))); [discriminate|]. intros I [= <-]. apply zin_true in G.
  assert (K : keys_le n (set_meas n (meas n ++ [{| mid := i; mmt := mt; mty := t; mel := x; msd := s |}]))) by keys_le_app.
  revert I. by_keys_le K.
  intros m Hm. apply in_app_iff in Hm as [Hm|[<-|[]]]; [left; exact Hm|]. right. simpl.
  repeat split; [exact Ht | apply K, G | exact Hside].
Qed.

(* G22 for create_*_cost: the element exists (the impl does not check it) *)
Lemma inv_step_create_cost_partial n p i k x n' :
  zin x (el_ids n k) = true -> Resolves n -> create_cost n p i k x = Ok n' -> Resolves n'.
Proof.
  intros G. apply zin_true in G. unfold create_cost. destruct (cost_exists n k x); [discriminate|].
  destruct p; match goal with |- context [zin i ?l] => destruct (zin i l) end; try discriminate; intros I [= <-].
  all: match goal with |- Resolves ?m => assert (K : keys_le n m) by keys_le_app end; revert I; by_keys_le K.
  all: intros c Hc; rewrite !in_app_iff in *; simpl in Hc; intuition (subst; auto).
Qed.

Lemma keys_le_same_keys n n' :
  bus n' = bus n -> el n' = el n -> sw n' = sw n -> meas n' = meas n -> pcost n' = pcost n -> wcost n' = wcost n -> keys_le n n'.
Proof. intros Hb He Hs Hm Hp Hw. apply keys_le_refl_on; try assumption; rewrite ?Hs, ?Hm, ?Hp, ?Hw; auto. Qed.

Lemma inv_step_create_group n g t mem n' : Resolves n -> create_group n g t mem = Ok n' -> Resolves n'.
Proof.
  unfold create_group. destruct (grp_ty_ok t) eqn:G1; simpl; [|discriminate].
  destruct (allin mem (keys n t)) eqn:G2; simpl; [|discriminate].
  destruct (zin g (map gid (grp n))); [discriminate|]. intros I [= <-]. rewrite allin_true in G2.
  assert (K : keys_le n (set_grp n (grp n ++ [{| gid := g; gty := t; gmem := mem |}]))) by (apply keys_le_same_keys; reflexivity).
  revert I. by_keys_le K.
  intros r Hr. apply in_app_iff in Hr as [Hr|[<-|[]]]; [left; exact Hr | right; split; [exact G1 | exact G2]].
Qed.

(* a controller constructor does not look at the element table: the targets must exist *)
Lemma inv_step_create_ctrl_partial n k idx sg n' :
  allin idx (el_ids n k) = true -> Resolves n -> create_ctrl n k idx sg = Ok n' -> Resolves n'.
Proof.
  intros G. rewrite allin_true in G. unfold create_ctrl. intros I [= <-].
  match goal with |- Resolves ?m => assert (K : keys_le n m) by (apply keys_le_same_keys; reflexivity) end.
  revert I. by_keys_le K.
  intros r Hr. apply in_app_iff in Hr as [Hr|[<-|[]]]; [left; exact Hr | right; exact G].
Qed.

(* edits that rewrite references: every reference of n' stems from a reference of n into the same table, and R relates the
   two values *)
Record follows (R : tname -> Z -> Z -> Prop) (n n' : net) : Prop := {
  F_el : forall k r' b', In r' (el n' k) -> In b' (ebus r') -> exists r b, In r (el n k) /\ In b (ebus r) /\ R TBus b b';
  F_sw : forall s', In s' (sw n') ->
         exists s, In s (sw n) /\ swt s' = swt s /\ R TBus (sbus s) (sbus s') /\ R (sw_target (swt s)) (sel s) (sel s');
  F_meas : forall m', In m' (meas n') ->
           exists m, In m (meas n) /\ mty m' = mty m /\ R (mty m) (mel m) (mel m') /\
                     forall b', msd m' = SideBus b' -> exists b, msd m = SideBus b /\ R TBus b b';
  F_cost : forall c', In c' (pcost n' ++ wcost n') ->
           exists c, In c (pcost n ++ wcost n) /\ cet c' = cet c /\ R (TEl (cet c)) (cel c) (cel c');
  F_grp : forall g', In g' (grp n') ->
          exists g, In g (grp n) /\ gty g' = gty g /\ forall x', In x' (gmem g') -> exists x, In x (gmem g) /\ R (gty g) x x';
  F_ctrl : forall c', In c' (ctrl n') ->
           exists c, In c (ctrl n) /\ ctty c' = ctty c /\ forall x', In x' (ctidx c') -> exists x, In x (ctidx c) /\ R (TEl (ctty c)) x x';
  F_rbus : forall x', In x' (rbus n') -> exists x, In x (rbus n) /\ R TBus x x';
  F_res : forall k x', In x' (res n' k) -> exists x, In x (res n k) /\ R (TEl k) x x' }.

Lemma follows_refs R n n' t x' : follows R n n' -> refs n' t x' -> exists x, refs n t x /\ R t x x'.
Proof.
  intros [Fe Fs Fm Fc Fg Fct Frb Fr] Rf. destruct Rf.
  - destruct (Fe _ _ _ H H0) as (r0 & b0 & H1 & H2 & H3). exists b0. split; [eapply R_el; eauto | exact H3].
  - destruct (Fs _ H) as (s0 & H1 & _ & H3 & _). exists (sbus s0). split; [apply R_swb, H1 | exact H3].
  - destruct (Fs _ H) as (s0 & H1 & -> & _ & H4). exists (sel s0). split; [apply R_swe, H1 | exact H4].
  - destruct (Fm _ H) as (m0 & H1 & -> & H3 & _). exists (mel m0). split; [apply R_meas, H1 | exact H3].
  - destruct (Fm _ H) as (m0 & H1 & _ & _ & H4). destruct (H4 _ H0) as (b0 & H5 & H6). exists b0. split; [eapply R_side; eauto | exact H6].
  - destruct (Fc _ H) as (c0 & H1 & -> & H3). exists (cel c0). split; [apply R_cost, H1 | exact H3].
  - destruct (Fg _ H) as (g0 & H1 & -> & H3). destruct (H3 _ H0) as (x0 & H4 & H5). exists x0. split; [eapply R_grp; eauto | exact H5].
  - destruct (Fct _ H) as (c0 & H1 & -> & H3). destruct (H3 _ H0) as (x0 & H4 & H5). exists x0. split; [eapply R_ctrl; eauto | exact H5].
  - destruct (Frb _ H) as (x0 & H1 & H2). exists x0. split; [apply R_rbus, H1 | exact H2].
  - destruct (Fr _ _ H) as (x0 & H1 & H2). exists x0. split; [apply R_res, H1 | exact H2].
Qed.
(* only the bus table, the switch table and the element tables are ever referenced *)
Lemma refs_kinds n t x : types_ok n -> refs n t x -> grp_ty_ok t = true.
Proof.
  intros [Tm Tg] R. destruct R; try reflexivity.
  - destruct (swt s); reflexivity.
  - specialize (Tm m H). destruct (mty m); try discriminate Tm; reflexivity.
  - apply Tg, H.
Qed.
Lemma follows_resolves R n n' :
  follows R n n' -> (forall t x x', grp_ty_ok t = true -> R t x x' -> In x (keys n t) -> In x' (keys n' t)) -> Resolves n -> Resolves n'.
Proof.
  intros F K [[Tm Tg] Rs].
  assert (T' : types_ok n').
  { split.
    - intros m' Hm'. destruct (F_meas _ _ _ F m' Hm') as (m & Hm & -> & _). apply Tm, Hm.
    - intros g' Hg'. destruct (F_grp _ _ _ F g' Hg') as (g & Hg & -> & _). apply Tg, Hg. }
  split; [exact T'|].
  intros t x' Rf. destruct (follows_refs _ _ _ _ _ F Rf) as (x & Hx & HR). apply (K t x x' (refs_kinds _ _ _ T' Rf) HR), Rs, Hx.
Qed.

Lemma in_zinsert x y l : In x (zinsert y l) <-> x = y \/ In x l.
Proof.
  induction l as [|z t IH]; simpl; [intuition|].
  destruct (y <? z); simpl; [intuition|]. destruct (y =? z) eqn:E; simpl.
  - apply Z.eqb_eq in E. subst. intuition.
  - rewrite IH. intuition.
Qed.
Lemma in_zsort_uniq x l : In x (zsort_uniq l) <-> In x l.
Proof.
  induction l as [|y t IH]; simpl; [tauto|]. unfold zsort_uniq in *. simpl. rewrite in_zinsert, IH. intuition.
Qed.
Lemma in_zuniq x seen l : In x (zuniq seen l) <-> In x l /\ ~ In x seen.
Proof.
  revert seen. induction l as [|y t IH]; intros seen; simpl; [tauto|].
  destruct (zin y seen) eqn:E.
  - apply zin_true in E. rewrite IH. split; [tauto|]. intros [[H|H] Hn]; [subst; contradiction | tauto].
  - apply zin_false in E. simpl. rewrite IH. simpl. split.
    + intros [H|[H1 H2]]; [subst; tauto | tauto].
    + intros [[H|H] Hn]; [left; exact H|]. destruct (Z.eq_dec y x); [left; exact e | right; split; [exact H|]; intros [?|?]; tauto].
Qed.
Lemma in_zdiff x l d : In x (zdiff l d) <-> In x l /\ ~ In x d.
Proof.
  unfold zdiff. destruct d as [|d0 d'].
  - rewrite in_zuniq. simpl. tauto.
  - rewrite in_zsort_uniq, filter_In, negb_true_iff, zin_false. tauto.
Qed.

(* groups.py detach_from_groups: members of the detached type lose exactly `ids`, nothing else changes *)
Lemma in_detach n t ids g :
  In g (grp (detach n t ids)) ->
  exists g0, In g0 (grp n) /\ gty g = gty g0 /\ gid g = gid g0 /\
             (forall x, In x (gmem g) -> In x (gmem g0)) /\
             (gty g0 = t -> forall x, In x (gmem g) -> ~ In x ids).
Proof.
  unfold detach. simpl. rewrite in_flat_map. intros [g0 [H0 H]]. exists g0. split; [exact H0|].
  destruct (tname_eqb (gty g0) t) eqn:E.
  - destruct (zdiff (gmem g0) ids) eqn:D; [destruct H|]. destruct H as [H|[]]. subst g. simpl.
    assert (M : forall x, In x (z :: l) -> In x (gmem g0) /\ ~ In x ids).
    { intros x Hx. rewrite <- D in Hx. apply in_zdiff in Hx. exact Hx. }
    repeat split; auto; [intros x Hx; apply (M x Hx) | intros _ x Hx; apply (M x Hx)].
  - destruct H as [H|[]]. subst g. repeat split; auto. intros Ht. subst t. rewrite tname_refl in E. discriminate.
Qed.
Lemma detach_other n t ids :
  bus (detach n t ids) = bus n /\ el (detach n t ids) = el n /\ sw (detach n t ids) = sw n /\ meas (detach n t ids) = meas n /\
  pcost (detach n t ids) = pcost n /\ wcost (detach n t ids) = wcost n /\ ctrl (detach n t ids) = ctrl n /\
  rbus (detach n t ids) = rbus n /\ res (detach n t ids) = res n.
Proof. repeat split. Qed.

(* nets for the witnesses of the statements that are false of the faithful model *)
Ltac wit := split; [vm_compute; reflexivity | split; vm_compute; reflexivity].
Definition w_bus2 : net := set_bus empty_net [(0, true); (1, true)].
Definition w_bus3 : net := set_bus empty_net [(0, true); (1, true); (2, true)].
Definition w_t3 : net :=
  set_sw (set_elk w_bus3 Trafo3w [{| eid := 0; ebus := [0; 1; 2]; eis := true |}]) [{| sid := 0; sbus := 0; swt := ST3; sel := 0; sclosed := true |}].
Definition w_load : net := set_elk (set_bus empty_net [(0, true)]) Load [{| eid := 0; ebus := [0]; eis := true |}].

Lemma lookup_fold lk k acc :
  fold_left (fun a kv => if fst kv =? k then Some (snd kv) else a) lk acc =
  match lookup lk k with Some v => Some v | None => acc end.
Proof.
  unfold lookup. revert acc. induction lk as [|kv t IH]; intros acc; simpl; [reflexivity|].
  rewrite IH. rewrite (IH (if fst kv =? k then Some (snd kv) else None)).
  destruct (fold_left _ t None); [reflexivity|]. destruct (fst kv =? k); reflexivity.
Qed.
Lemma lookup_none lk k : haskey lk k = false -> lookup lk k = None.
Proof.
  unfold haskey. intros H. apply zin_false in H. induction lk as [|kv t IH]; [reflexivity|].
  unfold lookup. simpl. rewrite lookup_fold. simpl in H.
  destruct (fst kv =? k) eqn:E; [apply Z.eqb_eq in E; exfalso; apply H; left; exact E|].
  rewrite IH; [reflexivity|]. intros X. apply H. right. exact X.
Qed.
Lemma remap_nokey lk x : haskey lk x = false -> remap lk x = x.
Proof. intros H. unfold remap. rewrite (lookup_none lk x H). reflexivity. Qed.
Lemma mapM_total {A B} (F : A -> result B) (f : A -> B) l : (forall a, F a = Ok (f a)) -> mapM F l = Ok (map f l).
Proof. intros H. induction l as [|a t IH]; simpl; [reflexivity|]. rewrite H. simpl. rewrite IH. reflexivity. Qed.

Lemma G22_reindex_ctrl n k lk c x :
  G22_reindex n k lk = true -> In c (ctrl n) -> ctty c = k -> In x (ctidx c) -> remap lk x = x.
Proof.
  unfold G22_reindex. rewrite forallb_forall. intros H Hc Hk Hx. specialize (H c Hc).
  apply negb_true_iff, andb_false_iff in H. destruct H as [H|H].
  - subst k. rewrite ekind_beq_refl in H. discriminate.
  - destruct (Z.eq_dec (remap lk x) x) as [E|E]; [exact E|]. exfalso.
    assert (existsb (moved lk) (ctidx c) = true); [|congruence].
    apply existsb_exists. exists x. split; [exact Hx|]. unfold moved. apply negb_true_iff, Z.eqb_neq, E.
Qed.

Lemma match_not_bus {A} t (a b : A) : t <> TBus -> match t with TBus => a | _ => b end = b.
Proof. destruct t; congruence. Qed.

(* reindex_elements on any table but bus (data_modification.py:210 after the repair).  The rows of table t get the index
   remap lk; every reference x into t that the impl looks at becomes (if x is an old index with a lookup entry then remap lk x
   else x), which is remap lk x for a reference that resolved; controller targets are the one kind of reference it does not
   look at (G22_reindex). *)
Lemma inv_step_reindex_table n t lk n' :
  t <> TBus -> (forall k, t = TEl k -> G22_reindex n k lk = true) ->
  Resolves n -> reindex_elements n t lk = Ok n' -> Resolves n'.
Proof.
  intros Ht G Rn. unfold reindex_elements, reindex_elements_gen.
  destruct (keys n t) as [|k0 kt] eqn:EK; [intros [= <-]; exact Rn|].
  destruct lk as [|p0 lt] eqn:ELK; [intros [= <-]; exact Rn|].
  rewrite <- ELK, <- EK in *. clear EK ELK.
  rewrite (match_not_bus t _ _ Ht).
  set (old := filter (fun i => haskey lk i) (keys n t)).
  set (cond := fun x => if zin x old then remap lk x else x).
  erewrite (mapM_total _ (fun g => if tname_eqb (gty g) t then {| gid := gid g; gty := gty g; gmem := map cond (gmem g) |} else g)).
  2:{ intros g. destruct (tname_eqb (gty g) t); reflexivity. }
  cbn [bind andb]. intros [= <-].
  apply (follows_resolves (fun t' x x' => x' = if tname_eqb t' t && zin x old then remap lk x else x) n); [constructor| |exact Rn].
  (* table by table; the result is a chain of set_.. around [match t], so each case starts by going through the tables t can be *)
  - intros k r' b' H Hb. destruct t; try congruence; simpl in *; eauto.
    unfold upd in H. destruct (ekind_beq k1 k) eqn:E; [|eauto]. apply ekind_beq_eq in E as <-. apply in_map_iff in H as [r [<- H]]. eauto.
  - intros s' H. destruct t; try congruence; simpl in H; rewrite ?map_map in H; apply in_map_iff in H as [s [<- H]];
      exists s; (split; [exact H|]); cbn [sid sbus swt sel]; destruct (_ && _); auto.
  - intros m' H. destruct t; try congruence; simpl in H; rewrite ?map_map in H; apply in_map_iff in H as [m [<- H]];
      exists m; (split; [exact H|]); cbn [mty mel msd]; destruct (_ && _); cbn [mty mel msd]; eauto.
  - intros c' H. destruct t; try congruence; simpl in H; rewrite ?map_map in H; apply in_app_iff in H as [H|H];
      apply in_map_iff in H as [c [<- H]]; exists c; (split; [apply in_app_iff; auto|]); cbn [cet cel tname_eqb andb]; try destruct (_ && _); auto.
  - intros g' H. assert (H' : In g' (map (fun g => if tname_eqb (gty g) t then {| gid := gid g; gty := gty g; gmem := map cond (gmem g) |} else g) (grp n)))
      by (destruct t; try congruence; exact H).
    apply in_map_iff in H' as [g [<- H']]. exists g. split; [exact H'|]. destruct (tname_eqb (gty g) t); cbn [gty gmem andb]; split; eauto.
    intros x' Hx. apply in_map_iff in Hx as [x [<- Hx]]. eauto.
  - (* controllers are left alone: the guard *)
    intros c H. exists c. split; [destruct t; try congruence; exact H|]. split; [reflexivity|]. intros x Hx. exists x. split; [exact Hx|].
    destruct (tname_eqb (TEl (ctty c)) t) eqn:E; [|reflexivity]. apply tname_eqb_eq in E. cbn [andb]. destruct (zin x old); [|reflexivity].
    symmetry. apply (G22_reindex_ctrl n (ctty c) lk c x); auto. destruct t; try congruence; exact H.
  - intros x H. exists x. destruct t; try congruence; (split; [exact H | reflexivity]).
  - intros k x' H. destruct t; try congruence; simpl in *; eauto.
    unfold upd in H. rewrite (ekind_beq_sym k k1). destruct (ekind_beq k1 k) eqn:E; [|eauto].
    apply ekind_beq_eq in E as <-. apply in_map_iff in H as [x [<- H]]. eauto.
  - (* the keys: an index of table t that is no old index with a lookup entry is not moved by remap *)
    intros t' x x' Ht' -> Hx.
    assert (Hc : (if tname_eqb t' t && zin x old then remap lk x else x) = if tname_eqb t' t then remap lk x else x).
    { destruct (tname_eqb t' t) eqn:E; [|reflexivity]. apply tname_eqb_eq in E as ->. cbn [andb]. destruct (zin x old) eqn:Z; [reflexivity|].
      symmetry. apply remap_nokey. destruct (haskey lk x) eqn:HK; [|reflexivity]. apply zin_false in Z. exfalso; apply Z, filter_In; auto. }
    rewrite Hc. clear Hc. destruct t; try congruence; destruct t'; try discriminate Ht'; simpl in *; rewrite ?map_map; try exact Hx.
    all: try (apply in_map_iff in Hx as [s [<- Hs]]; apply in_map_iff; exists s; split; [try destruct (_ && _); reflexivity | exact Hs]).
    unfold el_ids in *. simpl. unfold upd. rewrite (ekind_beq_sym k1 k). destruct (ekind_beq k k1) eqn:E; [|exact Hx].
    apply ekind_beq_eq in E as <-. rewrite map_map. apply in_map_iff in Hx as [r [<- Hr]]. apply (in_map (fun r => remap lk (eid r))), Hr.
Qed.

Lemma inv_step_reindex_elements n k lk n' :
  G22_reindex n k lk = true -> Inv n -> reindex_elements n (TEl k) lk = Ok n' -> Inv n'.
Proof.
  intros G I E. apply Inv_Resolves. apply Inv_Resolves in I. revert I E.
  apply inv_step_reindex_table; [discriminate | intros ? [= <-]; exact G].
Qed.
