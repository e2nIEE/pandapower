(* C23/ReplProofs.v — the ward / xward / ext_grid replacements keep what the replaced element contributes to the bus equations *)
From Coq Require Import ZArith QArith List Bool String Arith Lia Lqa Setoid Morphisms.
From PPV Require Import Base.QN C23.Repl.
Import ListNotations.
Open Scope Q_scope.

Definition req (a b : row4) : Prop := pd a == pd b /\ qd a == qd b /\ gs a == gs b /\ qsh a == qsh b.
Infix "=r=" := req (at level 70, no associativity).
Lemma req_refl a : a =r= a. Proof. repeat split; reflexivity. Qed.
Lemma req_sym a b : a =r= b -> b =r= a. Proof. intros (A & B & C & D). repeat split; symmetry; assumption. Qed.
Lemma req_trans a b c : a =r= b -> b =r= c -> a =r= c.
Proof. intros (A & B & C & D) (A' & B' & C' & D'). repeat split; etransitivity; eassumption. Qed.
Add Parametric Relation : row4 req reflexivity proved by req_refl symmetry proved by req_sym transitivity proved by req_trans as req_rel.
Global Instance radd_proper : Proper (req ==> req ==> req) radd.
Proof. intros a b (A & B & C & D) c d (A' & B' & C' & D'). unfold radd, req; simpl. qnorm. repeat split; lra. Qed.
(* identities between sums of rows, the rows being variables: four linear identities over Q *)
Ltac rsolve := unfold req, radd, rzero; cbn [pd qd gs qsh]; qstrip; repeat split; lra.
Lemma radd_0_l a : radd rzero a =r= a. Proof. rsolve. Qed.
Lemma radd_0_r a : radd a rzero =r= a. Proof. rsolve. Qed.
Lemma radd_comm a b : radd a b =r= radd b a. Proof. rsolve. Qed.
Lemma radd_assoc a b c : radd a (radd b c) =r= radd (radd a b) c. Proof. rsolve. Qed.
Lemma radd_interchange a b c d : radd (radd a b) (radd c d) =r= radd (radd a c) (radd b d). Proof. rsolve. Qed.
(* the four table totals of a bus row when what is added to the load and shunt totals (l', s') is what the ward total,
   or the xward total, loses *)
Lemma row4_from_wards l l' s s' w x : radd (radd l l') (radd (radd s s') (radd w x)) =r= radd l (radd s (radd (radd (radd l' s') w) x)).
Proof. rsolve. Qed.
Lemma row4_from_xwards l l' s s' w x : radd (radd l l') (radd (radd s s') (radd w x)) =r= radd l (radd s (radd w (radd (radd l' s') x))).
Proof. rsolve. Qed.

Section Tot.
Variable lk : nat -> nat.
Context {A : Type}.
Variable bus : A -> nat.
Variable c : A -> row4.
Variable r : nat.
Notation T := (tot lk bus c r).

Lemma tot_cons a l : T (a :: l) = if Nat.eqb (lk (bus a)) r then radd (c a) (T l) else T l.
Proof. reflexivity. Qed.
Lemma tot_app l1 l2 : T (l1 ++ l2) =r= radd (T l1) (T l2).
Proof.
  induction l1 as [|a l IH]; [symmetry; apply radd_0_l|].
  simpl app. rewrite !tot_cons. destruct (Nat.eqb (lk (bus a)) r); [|exact IH].
  rewrite IH. apply radd_assoc.
Qed.

Variable id : A -> nat.
Lemma find_split i tab a : NoDup (map id tab) -> find (fun x => Nat.eqb (id x) i) tab = Some a ->
  T tab =r= radd (T [a]) (T (filter (fun x => negb (Nat.eqb (id x) i)) tab)).
Proof.
  induction tab as [|x t IH]; intros ND F; [discriminate|]. simpl in F. inversion ND as [|? ? N1 N2]; subst.
  destruct (Nat.eqb (id x) i) eqn:E.
  - inversion F; subst a. cbn [filter]. rewrite E. cbn [negb].
    assert (Fl : filter (fun y => negb (Nat.eqb (id y) i)) t = t).
    { apply Nat.eqb_eq in E. clear -N1 E. induction t as [|y t IH]; [reflexivity|]. cbn [filter].
      destruct (Nat.eqb (id y) i) eqn:E'.
      - apply Nat.eqb_eq in E'. exfalso. apply N1. left. congruence.
      - cbn [negb]. f_equal. apply IH. intros H. apply N1. right. exact H. }
    rewrite Fl. rewrite !tot_cons. destruct (Nat.eqb (lk (bus x)) r); [|symmetry; apply radd_0_l].
    cbn [tot fold_right]. rewrite radd_0_r. reflexivity.
  - cbn [filter]. rewrite E. cbn [negb]. rewrite (tot_cons x t), (tot_cons x (filter _ t)).
    specialize (IH N2 F). destruct (Nat.eqb (lk (bus x)) r); [|exact IH]. rewrite IH.
    rewrite !radd_assoc. rewrite (radd_comm (c x)). reflexivity.
Qed.

Lemma pick_filter i tab sel : ~ In i sel -> pick id (filter (fun x => negb (Nat.eqb (id x) i)) tab) sel = pick id tab sel.
Proof.
  intros NI. induction sel as [|j t IH]; [reflexivity|]. simpl. rewrite IH by (intros H; apply NI; right; exact H).
  assert (J : j <> i) by (intros ->; apply NI; left; reflexivity).
  assert (Ff : find (fun a => Nat.eqb (id a) j) (filter (fun x => negb (Nat.eqb (id x) i)) tab) = find (fun a => Nat.eqb (id a) j) tab).
  { clear -J. induction tab as [|x tb IHt]; [reflexivity|]. cbn [filter find].
    destruct (Nat.eqb (id x) i) eqn:E; cbn [negb].
    - apply Nat.eqb_eq in E. destruct (Nat.eqb (id x) j) eqn:E'; [apply Nat.eqb_eq in E'; congruence|exact IHt].
    - cbn [find]. destruct (Nat.eqb (id x) j); [reflexivity|exact IHt]. }
  rewrite Ff. reflexivity.
Qed.
Lemma NoDup_filter_ids (p : A -> bool) tab : NoDup (map id tab) -> NoDup (map id (filter p tab)).
Proof.
  induction tab as [|x t IH]; intros ND; [constructor|]. inversion ND as [|? ? N1 N2]; subst. cbn [filter].
  destruct (p x); [|auto]. simpl. constructor; [|auto]. intros H. apply N1.
  apply in_map_iff in H. destruct H as [y [Ey Hy]]. apply filter_In in Hy. apply in_map_iff. exists y. tauto.
Qed.
Lemma filter_filter_sel i t tab :
  filter (fun a => negb (memb (id a) t)) (filter (fun x => negb (Nat.eqb (id x) i)) tab) = filter (fun a => negb (memb (id a) (i :: t))) tab.
Proof.
  induction tab as [|x tb IH]; [reflexivity|]. cbn [filter]. unfold memb at 2. cbn [existsb].
  destruct (Nat.eqb (id x) i) eqn:E; cbn [negb orb].
  - exact IH.
  - cbn [filter]. fold (memb (id x) t). destruct (memb (id x) t); cbn [negb]; [exact IH|f_equal; exact IH].
Qed.

(* net.<tab>.loc[sel] and the rows that stay make up the table: nothing is counted twice, nothing is lost *)
Lemma pick_split sel : forall tab hit, NoDup sel -> NoDup (map id tab) -> pick id tab sel = Some hit ->
  T tab =r= radd (T hit) (T (drop_sel id tab sel)).
Proof.
  induction sel as [|i t IH]; intros tab hit NS ND P.
  - simpl in P. inversion P; subst. unfold drop_sel. cbn [memb existsb negb].
    assert (F : filter (fun _ : A => true) tab = tab) by (clear; induction tab; simpl; congruence).
    unfold memb. cbn [existsb negb]. rewrite F. symmetry. apply radd_0_l.
  - simpl in P. destruct (find (fun a => Nat.eqb (id a) i) tab) as [a|] eqn:F; [|discriminate].
    destruct (pick id tab t) as [rr|] eqn:Pt; [|discriminate]. inversion P; subst hit. inversion NS as [|? ? N1 N2]; subst.
    rewrite (find_split i tab a ND F).
    set (tab' := filter (fun x => negb (Nat.eqb (id x) i)) tab).
    assert (P' : pick id tab' t = Some rr) by (unfold tab'; rewrite pick_filter; assumption).
    rewrite (IH tab' rr N2 (NoDup_filter_ids _ tab ND) P').
    unfold drop_sel, tab'. rewrite filter_filter_sel.
    change (a :: rr) with ([a] ++ rr). rewrite (tot_app [a] rr). apply radd_assoc.
Qed.
End Tot.

Lemma tot_map lk {A B} (f : A -> B) (bus : B -> nat) (c : B -> row4) r l :
  tot lk bus c r (map f l) = tot lk (fun a => bus (f a)) (fun a => c (f a)) r l.
Proof. induction l as [|a l IH]; [reflexivity|]. simpl. rewrite IH. reflexivity. Qed.
Lemma tot_ext lk {A} r (bus : A -> nat) (c1 c2 : A -> row4) l :
  (forall a, In a l -> c1 a = c2 a) -> tot lk bus c1 r l = tot lk bus c2 r l.
Proof.
  intros H. induction l as [|a l IHl]; [reflexivity|]. rewrite !tot_cons, (H a (or_introl eq_refl)), IHl; auto.
  intros a' Ha'. apply H. right. exact Ha'.
Qed.
Lemma pick_In {A} (id : A -> nat) tab sel hit : pick id tab sel = Some hit -> forall a, In a hit -> In a tab.
Proof.
  revert hit. induction sel as [|i t IH]; intros hit P a Ha; simpl in P.
  - inversion P; subst. contradiction.
  - destruct (find (fun a => Nat.eqb (id a) i) tab) as [x|] eqn:F; [|discriminate].
    destruct (pick id tab t) as [rr|]; [|discriminate]. inversion P; subst. destruct Ha as [<-|Ha].
    + apply find_some in F. tauto.
    + eapply IH; eauto.
Qed.

Section Ward.
Variable bis : nat -> bool.
Variable lk : nat -> nat.
Variable bk : nat -> Q.

Lemma a01_cases x : a01 x == 0 \/ a01 x == 1. Proof. destruct x; [right|left]; reflexivity. Qed.

(* an element with constant-power part (ps, qs) and constant-impedance part (pz, qz) at a bus contributes what a load
   (scaling 1) and a shunt (step 1, vn_kv = BASE_KV of the row) with the same values and in_service flag contribute *)
Lemma element_split vn bus ps qs pz qz on : bk (lk bus) == vn -> ~ vn == 0 ->
  let a := a01 (on && bis bus) in
  {| pd := qmul ps a; qd := qmul qs a; gs := qmul pz a; qsh := qmul qz a |} =r=
  radd (load_c bis {| l_bus := bus; l_p := ps; l_q := qs; l_sc := 1; l_is := on |})
       (shunt_c bis lk bk {| s_bus := bus; s_p := pz; s_q := qz; s_vn := vn; s_step := 1; s_is := on |}).
Proof.
  intros B V a. unfold req, radd, load_c, shunt_c. cbn [pd qd gs qsh l_bus l_p l_q l_sc l_is s_bus s_p s_q s_vn s_step s_is].
  fold a. qstrip. rewrite B. repeat split; field; assumption.
Qed.
Lemma ward_element vn w : bk (lk (w_bus w)) == vn -> ~ vn == 0 ->
  ward_c bis w =r= radd (load_c bis (ward_load w)) (shunt_c bis lk bk (ward_shunt vn w)).
Proof. apply element_split. Qed.
Lemma xward_element vn x : bk (lk (x_bus x)) == vn -> ~ vn == 0 ->
  xward_c bis x =r= radd (load_c bis (xward_load x)) (shunt_c bis lk bk (xward_shunt vn x)).
Proof. apply element_split. Qed.
End Ward.

(* the rated voltage of every bus that carries a ward is the BASE_KV of its ppc row and is not zero
   (buses fused by a bus-bus switch have the same vn_kv) *)
Definition base_ok (lk : nat -> nat) (bk : nat -> Q) (n : net) (b : nat) : Prop :=
  forall vn, vn_of n b = Some vn -> bk (lk b) == vn /\ ~ vn == 0.

Lemma ward_shunts_tot bis lk bk n r : forall hit sh, ward_shunts n hit = Ok sh ->
  (forall w, In w hit -> base_ok lk bk n (w_bus w)) ->
  radd (tot lk l_bus (load_c bis) r (map ward_load hit)) (tot lk s_bus (shunt_c bis lk bk) r sh) =r= tot lk w_bus (ward_c bis) r hit.
Proof.
  induction hit as [|w t IH]; intros sh W G.
  - simpl in W. inversion W; subst. cbn. apply radd_0_l.
  - simpl in W. destruct (vn_of n (w_bus w)) as [vn|] eqn:V; [|discriminate].
    destruct (ward_shunts n t) as [rr|e] eqn:Wt; [|discriminate]. inversion W; subst sh.
    specialize (IH rr eq_refl (fun w' H => G w' (or_intror H))).
    destruct (G w (or_introl eq_refl) vn V) as [B NZ].
    pose proof (ward_element bis lk bk vn w B NZ) as El.
    cbn [map]. rewrite !tot_cons. cbn [l_bus ward_load s_bus ward_shunt].
    destruct (Nat.eqb (lk (w_bus w)) r); [|exact IH].
    rewrite <- IH, El. apply radd_interchange.
Qed.

Theorem replace_wards_row lk bk n sel m r :
  replace_wards n sel = Ok m -> NoDup sel -> NoDup (map w_id (wards n)) ->
  (forall w, In w (wards n) -> base_ok lk bk n (w_bus w)) ->
  bus_row lk bk m r =r= bus_row lk bk n r.
Proof.
  unfold replace_wards. intros R NS ND G.
  destruct (pick w_id (wards n) sel) as [hit|] eqn:P; [|discriminate].
  destruct (ward_shunts n hit) as [sh|e] eqn:W; [|discriminate]. inversion R; subst m; clear R.
  unfold bus_row, bus_row4, bus_is; cbn [loads shunts wards xwards buses].
  fold (bus_is n).
  pose proof (pick_split lk w_bus (ward_c (bus_is n)) r w_id sel (wards n) hit NS ND P) as S.
  pose proof (ward_shunts_tot (bus_is n) lk bk n r hit sh W (fun w H => G w (pick_In w_id _ _ _ P w H))) as E.
  rewrite (tot_app lk l_bus _ r (loads n)), (tot_app lk s_bus _ r (shunts n)).
  rewrite S, <- E. apply row4_from_wards.
Qed.

(* per unit on net.sn_mva: the complex power drawn and the shunt admittance at a ppc row *)
Definition pu_eq (sn1 : Q) (a : row4) (sn2 : Q) (b : row4) : Prop :=
  fst (s_pu sn1 a) == fst (s_pu sn2 b) /\ snd (s_pu sn1 a) == snd (s_pu sn2 b) /\
  fst (ysh_pu sn1 a) == fst (ysh_pu sn2 b) /\ snd (ysh_pu sn1 a) == snd (ysh_pu sn2 b).
Lemma row_pu sn a b : a =r= b -> pu_eq sn a sn b.
Proof.
  intros (A & B & C & D). unfold pu_eq, s_pu, ysh_pu, bs. cbn [fst snd]. qstrip. rewrite A, B, C, D. repeat split; reflexivity.
Qed.

Definition xs_inv (n0 n : net) : Prop :=
  sn n = sn n0 /\ wards n = wards n0 /\ xwards n = xwards n0 /\ egrids n = egrids n0 /\
  (forall b vn, vn_of n0 b = Some vn -> vn_of n b = Some vn) /\
  (forall b, vn_of n0 b <> None -> bus_is n b = bus_is n0 b).

Lemma vn_of_app n b l : vn_of n b <> None ->
  find (fun r => Nat.eqb (b_id r) b) (buses n ++ l) = find (fun r => Nat.eqb (b_id r) b) (buses n).
Proof.
  unfold vn_of. induction (buses n) as [|x t IH]; intros H; [cbn in H; congruence|].
  cbn [app find] in *. destruct (Nat.eqb (b_id x) b); [reflexivity|apply IH; exact H].
Qed.
Lemma new_bus_fresh n : forall x, In x (buses n) -> (b_id x < new_bus_id n)%nat.
Proof.
  unfold new_bus_id. induction (buses n) as [|y t IH]; intros x H; [contradiction|]. cbn [fold_right].
  destruct H as [->|H]; [lia|]. specialize (IH x H). lia.
Qed.
Lemma bus_is_app n b x : Nat.eqb (b_id x) b = false ->
  existsb (fun r => Nat.eqb (b_id r) b && b_is r) (buses n ++ [x]) = bus_is n b.
Proof. intros E. rewrite existsb_app. cbn [existsb]. rewrite E. cbn. rewrite !orb_false_r. reflexivity. Qed.

(* what the loop over the selected xwards keeps: xs_inv n0 n *)
Lemma xs_inv_refl n : xs_inv n n.
Proof. repeat split; auto. Qed.
Lemma xs_inv_known a b x : xs_inv a b -> vn_of a x <> None -> vn_of b x <> None.
Proof. intros (_ & _ & _ & _ & K & _) H. destruct (vn_of a x) eqn:E; [|congruence]. rewrite (K _ _ E). discriminate. Qed.
Lemma xs_inv_trans a b c : xs_inv a b -> xs_inv b c -> xs_inv a c.
Proof.
  intros I1 I2. pose proof (fun x => xs_inv_known a b x I1) as N.
  destruct I1 as (S1 & W1 & X1 & E1 & K1 & B1), I2 as (S2 & W2 & X2 & E2 & K2 & B2). repeat split; try congruence.
  - intros x vn H. apply K2, K1, H.
  - intros x H. rewrite B2; [apply B1, H | apply N, H].
Qed.

(* one loop iteration adds the load and the shunt of this xward (and a bus with a fresh index, a gen, an impedance) *)
Lemma xward_step_row old n x m : xward_step old (Ok n) x = Ok m ->
  exists vn, vn_of n (x_bus x) = Some vn /\
    loads m = loads n ++ [xward_load x] /\ shunts m = shunts n ++ [xward_shunt vn x] /\ xs_inv n m.
Proof.
  unfold xward_step. intros S. destruct (vn_of n (x_bus x)) as [vn|] eqn:V; [|discriminate].
  inversion S; subst m; clear S. exists vn. cbn. repeat split; try reflexivity.
  - intros b v H. unfold vn_of in *. cbn [buses]. rewrite vn_of_app; [exact H|]. unfold vn_of. intros X. rewrite X in H. discriminate.
  - intros b H. unfold bus_is at 1. cbn [buses]. apply bus_is_app. cbn [b_id].
    apply Nat.eqb_neq. intros E. apply H. unfold vn_of.
    destruct (find (fun r0 => Nat.eqb (b_id r0) b) (buses n)) as [y|] eqn:F; [|reflexivity].
    apply find_some in F. destruct F as [F1 F2]. apply Nat.eqb_eq in F2. pose proof (new_bus_fresh n y F1). lia.
Qed.

Lemma xward_loop_raise old e : forall hit, fold_left (xward_step old) hit (Raise e) = Raise e.
Proof. induction hit; cbn; auto. Qed.
Lemma xward_loop_inv old : forall hit n m, fold_left (xward_step old) hit (Ok n) = Ok m -> xs_inv n m.
Proof.
  induction hit as [|x t IH]; intros n m F; cbn [fold_left] in F; [inversion F; apply xs_inv_refl|].
  destruct (xward_step old (Ok n) x) as [n1|e] eqn:S; [|rewrite xward_loop_raise in F; discriminate].
  destruct (xward_step_row old n x n1 S) as (_ & _ & _ & _ & I1). exact (xs_inv_trans _ _ _ I1 (IH _ _ F)).
Qed.

(* the whole loop: the new tails of the load and shunt tables sit at the buses of the selected xwards and total what these
   contribute, whatever the in_service flags of the buses *)
Lemma xward_loop old lk bk r : forall hit n m,
  fold_left (xward_step old) hit (Ok n) = Ok m ->
  (forall x, In x hit -> base_ok lk bk n (x_bus x) /\ vn_of n (x_bus x) <> None) ->
  exists sh, loads m = loads n ++ map xward_load hit /\ shunts m = shunts n ++ sh /\ map s_bus sh = map x_bus hit /\
    forall bis, radd (tot lk l_bus (load_c bis) r (map xward_load hit)) (tot lk s_bus (shunt_c bis lk bk) r sh) =r=
                tot lk x_bus (xward_c bis) r hit.
Proof.
  induction hit as [|x t IH]; intros n m F G.
  - cbn in F. inversion F; subst m. exists []. rewrite !app_nil_r. repeat split; auto.
  - cbn [fold_left] in F. destruct (xward_step old (Ok n) x) as [n1|e] eqn:S; [|rewrite xward_loop_raise in F; discriminate].
    destruct (xward_step_row old n x n1 S) as (vn & V & L1 & S1 & I1).
    assert (G1 : forall y, In y t -> base_ok lk bk n1 (x_bus y) /\ vn_of n1 (x_bus y) <> None).
    { intros y Hy. destruct (G y (or_intror Hy)) as [Gy Vy]. split; [|exact (xs_inv_known _ _ _ I1 Vy)].
      intros v Hv. apply Gy. destruct (vn_of n (x_bus y)) as [v0|] eqn:E; [|congruence].
      destruct I1 as (_ & _ & _ & _ & K1 & _). rewrite (K1 _ _ E) in Hv. exact Hv. }
    destruct (IH n1 m F G1) as (sh & L & Sh & Sb & T).
    exists (xward_shunt vn x :: sh).
    rewrite L, Sh, L1, S1, <- !app_assoc. cbn [app map s_bus xward_shunt]. rewrite Sb. do 3 (split; [reflexivity|]).
    intros bis. rewrite !tot_cons. cbn [l_bus xward_load s_bus xward_shunt].
    destruct (proj1 (G x (or_introl eq_refl)) vn V) as [Bq NZ].
    destruct (Nat.eqb (lk (x_bus x)) r); [|apply T]. rewrite <- T, (xward_element bis lk bk vn x Bq NZ). apply radd_interchange.
Qed.

(* the row does not change when the in_service flags change outside the buses P at which the elements sit *)
Lemma bus_row4_ext (P : nat -> Prop) bis1 bis2 lk bk ls ss ws xs r : (forall b, P b -> bis1 b = bis2 b) ->
  (forall a, In a ls -> P (l_bus a)) -> (forall a, In a ss -> P (s_bus a)) ->
  (forall a, In a ws -> P (w_bus a)) -> (forall a, In a xs -> P (x_bus a)) ->
  bus_row4 bis1 lk bk ls ss ws xs r = bus_row4 bis2 lk bk ls ss ws xs r.
Proof.
  intros E Hl Hs Hw Hx. unfold bus_row4, load_c, shunt_c, ward_c, xward_c.
  f_equal; [|f_equal; [|f_equal]]; apply tot_ext; intros a Ha; rewrite E by auto; reflexivity.
Qed.

Theorem replace_xwards_row old lk bk n sel m r :
  replace_xwards_gen old n sel = Ok m -> NoDup sel -> NoDup (map x_id (xwards n)) ->
  (forall x, In x (xwards n) -> base_ok lk bk n (x_bus x) /\ vn_of n (x_bus x) <> None) ->
  (forall l, In l (loads n) -> vn_of n (l_bus l) <> None) -> (forall s, In s (shunts n) -> vn_of n (s_bus s) <> None) ->
  (forall w, In w (wards n) -> vn_of n (w_bus w) <> None) ->
  bus_row lk bk m r =r= bus_row lk bk n r.
Proof.
  unfold replace_xwards_gen. intros R NS ND G GL GS GW.
  destruct (pick x_id (xwards n) sel) as [hit|] eqn:P; [|discriminate].
  destruct (fold_left (xward_step old) hit (Ok n)) as [m1|e] eqn:F; [|discriminate]. inversion R; subst m; clear R.
  pose proof (fun x H => G x (pick_In x_id _ _ _ P x H)) as Gh.
  destruct (xward_loop old lk bk r hit n m1 F Gh) as (sh & L & Sh & Sb & T).
  destruct (xward_loop_inv old hit n m1 F) as (_ & W & X & _ & _ & B).
  assert (K : forall b, In b (map x_bus hit) -> vn_of n b <> None).
  { intros b Hb. apply in_map_iff in Hb. destruct Hb as (x & <- & Hx). apply Gh, Hx. }
  unfold bus_row. cbn [loads shunts wards xwards]. rewrite L, Sh, W, X.
  (* every element of the result sits at a bus that existed, and there bus_is has not changed *)
  rewrite (bus_row4_ext (fun b => vn_of n b <> None) _ (bus_is n)); [|exact B| | |exact GW|].
  - unfold bus_row4. rewrite (tot_app lk l_bus _ r (loads n)), (tot_app lk s_bus _ r (shunts n)).
    rewrite (pick_split lk x_bus (xward_c (bus_is n)) r x_id sel (xwards n) hit NS ND P), <- (T (bus_is n)).
    apply row4_from_xwards.
  - intros a Ha. apply in_app_or in Ha. destruct Ha as [Ha|Ha]; [exact (GL a Ha)|].
    apply K. rewrite <- (map_map xward_load l_bus). apply in_map, Ha.
  - intros a Ha. apply in_app_or in Ha. destruct Ha as [Ha|Ha]; [exact (GS a Ha)|]. apply K. rewrite <- Sb. apply in_map, Ha.
  - intros a Ha. apply filter_In in Ha. apply G, Ha.
Qed.

(* the voltage source behind r + jx: the branch to the internal node and its PV set point, per unit on net.sn_mva *)
Definition vsrc_eq (a b : vsrc) : Prop :=
  z_r a == z_r b /\ z_x a == z_x b /\ fst (z_asym a) == fst (z_asym b) /\ snd (z_asym a) == snd (z_asym b) /\
  (let '(g, b0, ga, ba) := z_sh a in let '(g', b0', ga', ba') := z_sh b in g == g' /\ b0 == b0' /\ ga == ga' /\ ba == ba') /\
  fst (z_tap a) == fst (z_tap b) /\ snd (z_tap a) == snd (z_tap b) /\ v_set a == v_set b /\ p_set a == p_set b /\ v_on a = v_on b.

(* series r (x) of the created impedance as impedance_branch puts it on net.sn_mva, against that of the xward's internal
   branch: z * c / vn^2 with c = net.sn_mva, and c = 1 before the repair *)
Lemma xward_z_pu old z snet basekv vn : (old = true -> snet == 1) -> basekv == vn -> ~ vn == 0 -> ~ snet == 0 ->
  qmul (qdiv (if old then qdiv z (qmul vn vn) else qdiv (qmul z snet) (qmul vn vn)) snet) snet == qdiv z (qdiv (qmul basekv basekv) snet).
Proof. intros O B V S. destruct old; qstrip; rewrite B, ?(O eq_refl); field; auto. Qed.
Lemma xward_vsrc_gen old snet basekv vn nb x : (old = true -> snet == 1) -> basekv == vn -> ~ vn == 0 -> ~ snet == 0 ->
  vsrc_eq (vsrc_of_internal snet (xward_imped old snet vn x) (xward_gen nb x)) (vsrc_of_xward snet basekv true x).
Proof.
  intros O B V S. split; [exact (xward_z_pu old (x_r x) _ _ _ O B V S)|]. split; [exact (xward_z_pu old (x_x x) _ _ _ O B V S)|].
  (* the other columns are constants, or the same value twice *)
  repeat split; cbn -[qsub qmul qdiv]; rewrite ?andb_true_r; try reflexivity; qstrip; ring.
Qed.
Definition w_xward : xward := {| x_id := 0; x_bus := 0; x_ps := 1 # 8; x_qs := 1 # 16; x_pz := 1 # 4; x_qz := 1 # 8;
                                 x_r := 1 # 2; x_x := 1; x_vm := 1; x_is := true |}.
Lemma xward_vsrc_old_refuted : exists snet vn nb x, ~ vn == 0 /\ ~ snet == 0 /\
  ~ z_r (vsrc_of_internal snet (xward_imped true snet vn x) (xward_gen nb x)) == z_r (vsrc_of_xward snet vn true x).
Proof. exists 100, 20, 7%nat, w_xward. repeat split; try (vm_compute; discriminate). Qed.

Definition vref_eq (a b : option vref) : Prop :=
  match a, b with
  | None, None => True
  | Some u, Some v => is_ref u = is_ref v /\ is_pv u = is_pv v /\ vm_set u == vm_set v /\ va_set u == va_set v
  | _, _ => False
  end.
Definition w_egrid : egrid := {| e_id := 0; e_bus := 0; e_vm := 1; e_va := 10; e_is := true |}.
(* the table step: the created gens are exactly the images of the selected ext_grids, in the order of the selection *)
Lemma replace_egrids_tables n slack resp sel m : replace_egrids n slack resp sel = Ok m ->
  exists hit, pick e_id (egrids n) sel = Some hit /\ gens m = gens n ++ map (fun e => egrid_gen slack (resp (e_id e)) e) hit /\
              egrids m = drop_sel e_id (egrids n) sel /\ buses m = buses n.
Proof.
  unfold replace_egrids. destruct (pick e_id (egrids n) sel) as [hit|]; [|discriminate]. intros H. inversion H; subst.
  exists hit. repeat split.
Qed.

Lemma replace_wards_sn n sel m : replace_wards n sel = Ok m -> sn m = sn n.
Proof.
  unfold replace_wards. destruct (pick w_id (wards n) sel); [|discriminate]. destruct (ward_shunts n l); [|discriminate].
  intros H; inversion H; reflexivity.
Qed.
Lemma replace_xwards_sn old n sel m : replace_xwards_gen old n sel = Ok m -> sn m = sn n.
Proof.
  unfold replace_xwards_gen. destruct (pick x_id (xwards n) sel); [|discriminate].
  destruct (fold_left (xward_step old) l (Ok n)) eqn:F; [|discriminate]. intros H; inversion H; cbn. apply (xward_loop_inv old l n a F).
Qed.
(* a concrete net on which all hypotheses hold *)
Definition w_rnet : net :=
  {| sn := 10; buses := [{| b_id := 0; b_vn := 20; b_is := true |}; {| b_id := 3; b_vn := 20; b_is := true |}];
     loads := [{| l_bus := 3; l_p := 1 # 4; l_q := 1 # 8; l_sc := 1; l_is := true |}]; shunts := [];
     wards := [{| w_id := 4; w_bus := 3; w_ps := 1 # 8; w_qs := 1 # 16; w_pz := 1 # 4; w_qz := 1 # 8; w_is := true |};
               {| w_id := 1; w_bus := 0; w_ps := 1 # 2; w_qs := 0; w_pz := 0; w_qz := 1 # 8; w_is := true |}];
     xwards := [{| x_id := 2; x_bus := 3; x_ps := 1 # 8; x_qs := 1 # 16; x_pz := 1 # 4; x_qz := 1 # 8;
                   x_r := 1 # 2; x_x := 1; x_vm := 1; x_is := true |}];
     gens := []; egrids := [w_egrid]; imps := [] |}.
Lemma w_rnet_base_ok b : base_ok (fun x => x) (fun _ => 20) w_rnet b.
Proof.
  intros vn H. unfold vn_of in H. cbn [buses w_rnet find b_id] in H.
  destruct (Nat.eqb 0 b); [inversion H; split; [reflexivity|discriminate]|].
  destruct (Nat.eqb 3 b); [inversion H; split; [reflexivity|discriminate]|discriminate].
Qed.
Example replace_wards_nonvacuous : exists m,
  replace_wards w_rnet [4%nat] = Ok m /\ NoDup [4%nat] /\ NoDup (map w_id (wards w_rnet)) /\
  (forall w, In w (wards w_rnet) -> base_ok (fun x => x) (fun _ => 20) w_rnet (w_bus w)) /\
  ~ pd (bus_row (fun x => x) (fun _ => 20) w_rnet 3) == 0 /\ List.length (loads m) = 2%nat /\ List.length (wards m) = 1%nat.
Proof.
  eexists. split; [vm_compute; reflexivity|]. split; [repeat constructor; simpl; tauto|].
  split; [repeat constructor; simpl; intuition discriminate|]. split; [intros; apply w_rnet_base_ok|].
  split; [vm_compute; discriminate|]. split; reflexivity.
Qed.
Example replace_xwards_nonvacuous : exists m,
  replace_xwards w_rnet [2%nat] = Ok m /\ NoDup [2%nat] /\ NoDup (map x_id (xwards w_rnet)) /\
  (forall x, In x (xwards w_rnet) -> base_ok (fun x => x) (fun _ => 20) w_rnet (x_bus x) /\ vn_of w_rnet (x_bus x) <> None) /\
  List.length (buses m) = 3%nat /\ List.length (imps m) = 1%nat /\ xwards m = [].
Proof.
  eexists. split; [vm_compute; reflexivity|]. split; [repeat constructor; simpl; tauto|].
  split; [repeat constructor; simpl; tauto|].
  split; [intros x [<-|[]]; split; [apply w_rnet_base_ok|vm_compute; discriminate]|]. repeat split; reflexivity.
Qed.
