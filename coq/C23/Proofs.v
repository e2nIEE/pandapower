(* C23/Proofs.v — under G23a (line index 0..n-1 in table order) reading a numpy array at the label is reading the
   line's own row, so the rule of replace_line_by_impedance before the repair agrees with the repaired one. *)
From Coq Require Import ZArith QArith List Bool String Lia.
From PPV Require Import Base.QN C23.Model.
Import ListNotations.
Open Scope Q_scope.

(* labels = positions when the index is 0..n-1 in order *)
Lemma ident_label_pos tab : forall k i l, ident_from k tab = true -> by_label tab i = Some l ->
  (k <= i < k + Z.of_nat (List.length tab))%Z /\ nth_error tab (Z.to_nat (i - k)) = Some l.
Proof.
  induction tab as [|a t IH]; intros k i l H Hl; simpl in *; [discriminate|].
  apply andb_true_iff in H. destruct H as [H1 H2]. apply Z.eqb_eq in H1.
  destruct (Z.eqb (lid a) i) eqn:E.
  - apply Z.eqb_eq in E. inversion Hl; subst. split; [lia|]. replace (lid l - lid l)%Z with 0%Z by lia. reflexivity.
  - apply Z.eqb_neq in E. destruct (IH (k + 1)%Z i l H2 Hl) as [B N]. split; [lia|].
    replace (Z.to_nat (i - k)) with (S (Z.to_nat (i - (k + 1)))) by lia. exact N.
Qed.
Lemma G23a_pos_eq_label tab i l : G23a tab = true -> by_label tab i = Some l -> by_pos tab i = Some l.
Proof.
  intros G Hl. destruct (ident_label_pos tab 0 i l G Hl) as [B N]. unfold by_pos.
  assert (H1 : (0 <=? i)%Z = true) by (apply Z.leb_le; lia).
  assert (H2 : (i <? Z.of_nat (List.length tab))%Z = true) by (apply Z.ltb_lt; lia).
  rewrite H1, H2. simpl. replace (i - 0)%Z with i in N by lia. exact N.
Qed.
Lemma G23a_impl_is_label tab sn i : G23a tab = true -> line_to_imp_old tab sn i = line_to_imp tab sn i.
Proof.
  intros G. unfold line_to_imp_old, line_to_imp. destruct (by_label tab i) as [l|] eqn:Hl; [|reflexivity].
  rewrite (G23a_pos_eq_label tab i l G Hl). reflexivity.
Qed.
(* line index [1, 0] with different lengths: the impedance of line 1 is computed with the length of line 0 *)
Definition w_tab : list line :=
  [{| lid := 1; r_km := 1 # 4; x_km := 1 # 8; c_km := 0; g_km := 0; len := 2; par := 1; vn := 20 |};
   {| lid := 0; r_km := 1 # 4; x_km := 1 # 8; c_km := 0; g_km := 0; len := 1 # 2; par := 1; vn := 20 |}].
