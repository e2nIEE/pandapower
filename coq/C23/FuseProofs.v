(* C23/FuseProofs.v — fuse_buses over buses that the power flow fuses anyway leaves the ppc bus lookup partition unchanged *)
From Coq Require Import List Bool Arith Lia Relations.
From PPV Require Import Base.C07Graph C07.Model C07.UnionFind C23.Fuse.
Import ListNotations.
Local Open Scope nat_scope.

Lemma in_fuse_edges n sw u v :
  In (u, v) (fuse_edges_of n sw) <-> exists s, In s sw /\ fuses n s = true /\ u = s_bus s /\ v = s_el s.
Proof.
  unfold fuse_edges_of. rewrite in_flat_map. split.
  - intros [s [I H]]. destruct (fuses n s) eqn:F; [|contradiction]. destruct H as [H|[]]. inversion H; subst. eauto.
  - intros [s [I [F [-> ->]]]]. exists s. split; auto. rewrite F. now left.
Qed.
Lemma fuses_parts n s : fuses n s = true ->
  s_closed s = true /\ s_et s = ETb /\ s_zpos s = false /\ bus_is n (s_bus s) = true /\ bus_is n (s_el s) = true.
Proof.
  unfold fuses. intros F. repeat (apply andb_prop in F; destruct F as [F ?]).
  repeat split; auto; [destruct (s_et s); simpl in *; congruence|destruct (s_zpos s); simpl in *; congruence].
Qed.
Lemma fuse_edge_is n u v : In (u, v) (fuse_edges n) -> bus_is n u = true /\ bus_is n v = true.
Proof. intros H. apply in_fuse_edges in H. destruct H as [s [_ [F [-> ->]]]]. apply fuses_parts in F. tauto. Qed.
Lemma fuse_path_is n a b : upath (fuse_edges n) a b -> a = b \/ (bus_is n a = true /\ bus_is n b = true).
Proof.
  intros H. induction H as [x y E| |x y z _ IH1 _ IH2]; auto.
  - right. apply sym_In in E. destruct E as [E|E]; apply fuse_edge_is in E; tauto.
  - destruct IH1 as [->|[A B]]; auto. destruct IH2 as [<-|[C D]]; auto.
Qed.

(* a node map that sends every edge of g to an undirected path of g' sends paths to paths *)
Lemma upath_image (f : nat -> nat) g g' : (forall u v, In (u, v) g -> upath g' (f u) (f v)) ->
  forall u v, upath g u v -> upath g' (f u) (f v).
Proof.
  intros H. apply upath_map; [apply upath_refl | intros x y z; apply upath_trans | intros x y; apply upath_sym | exact H].
Qed.

Section Fuse.
Variable n : net.
Variable b1 : nat.
Variable b2s : list nat.
(* every bus that is fused into b1 already shares the ppc row of b1 *)
Hypothesis Hc : forall x, in_b2 b1 b2s x = true -> upath (fuse_edges n) b1 x.

Notation s := (sb b1 b2s).
Notation m := (fuse_buses n b1 b2s).
Notation E := (fuse_edges n).
Notation E' := (fuse_edges m).

Lemma in_b2_neq x : in_b2 b1 b2s x = true -> x <> b1.
Proof. unfold in_b2. intros H. apply andb_prop in H. destruct H as [_ H]. intros ->. rewrite Nat.eqb_refl in H. discriminate. Qed.
Lemma in_b2_sb x : in_b2 b1 b2s (s x) = false.
Proof.
  unfold sb. destruct (in_b2 b1 b2s x) eqn:I; [|exact I]. unfold in_b2. rewrite Nat.eqb_refl. apply andb_false_r.
Qed.
Lemma sb_path x : upath E x (s x).
Proof. unfold sb. destruct (in_b2 b1 b2s x) eqn:I; [apply upath_sym, Hc, I|apply upath_refl]. Qed.
Lemma b2_is x : in_b2 b1 b2s x = true -> bus_is n x = true /\ bus_is n b1 = true.
Proof.
  intros I. destruct (fuse_path_is n b1 x (Hc x I)) as [H|H]; [|tauto]. exfalso. apply (in_b2_neq x I). auto.
Qed.
Lemma bus_is_sb x : bus_is n (s x) = bus_is n x.
Proof. unfold sb. destruct (in_b2 b1 b2s x) eqn:I; [|reflexivity]. destruct (b2_is x I) as [A B]. congruence. Qed.
Lemma bus_is_m y : bus_is m y = bus_is n y && negb (in_b2 b1 b2s y).
Proof.
  unfold bus_is. cbn [buses fuse_buses]. induction (buses n) as [|r t IH]; [reflexivity|]. cbn [filter existsb].
  destruct (in_b2 b1 b2s (b_id r)) eqn:I; cbn [negb existsb].
  - rewrite IH. destruct (Nat.eqb (b_id r) y) eqn:Ey; cbn [andb orb]; [|reflexivity].
    apply Nat.eqb_eq in Ey. subst y. rewrite I. cbn. rewrite !andb_false_r. destruct (b_is r); reflexivity.
  - rewrite IH. destruct (Nat.eqb (b_id r) y) eqn:Ey; cbn [andb orb]; [|reflexivity].
    apply Nat.eqb_eq in Ey. subst y. rewrite I. cbn. destruct (b_is r); cbn; [reflexivity|].
    rewrite andb_true_r. reflexivity.
Qed.
(* in-service state of the row of a fused bus: b1 stands for its class *)
Corollary fuse_in_service x : bus_is m (s x) = bus_is n x.
Proof. rewrite bus_is_m, in_b2_sb, bus_is_sb. apply andb_true_r. Qed.

(* a switch fuses after the rerouting iff it fused before *)
Lemma fuses_resw w : fuses m (resw s w) = fuses n w.
Proof.
  unfold fuses. cbn [resw s_closed s_et s_zpos s_bus s_el]. destruct (swet_eqb (s_et w) ETb) eqn:Eb.
  - rewrite !fuse_in_service. reflexivity.
  - rewrite !andb_false_r. reflexivity.
Qed.

Lemma edge_forward u v : In (u, v) E -> s u = s v \/ In (s u, s v) E'.
Proof.
  intros H. apply in_fuse_edges in H. destruct H as [w [I [F [-> ->]]]].
  destruct (fuses_parts n w F) as (_ & Et & _).
  destruct (inner_sw b1 (resw s w)) eqn:In1.
  - left. unfold inner_sw in In1. cbn [resw s_bus s_el s_et] in In1. rewrite Et in In1. cbn in In1.
    rewrite andb_true_r in In1. apply andb_prop in In1. destruct In1 as [A B]. apply Nat.eqb_eq in A, B. congruence.
  - right. apply in_fuse_edges. exists (resw s w). split; [|split; [rewrite fuses_resw; exact F|]].
    + cbn [switches fuse_buses]. apply filter_In. split; [apply in_map; exact I|]. rewrite In1. cbn [negb andb].
      cbn [resw s_et]. rewrite Et. reflexivity.
    + cbn [resw s_bus s_el]. rewrite Et. cbn. split; reflexivity.
Qed.
Lemma edge_backward u v : In (u, v) E' -> upath E u v.
Proof.
  intros H. apply in_fuse_edges in H. destruct H as [w' [I [F [-> ->]]]].
  cbn [switches fuse_buses] in I. apply filter_In in I. destruct I as [I _]. apply in_map_iff in I.
  destruct I as [w [<- I]]. rewrite fuses_resw in F. destruct (fuses_parts n w F) as (_ & Et & _).
  cbn [resw s_bus s_el]. rewrite Et. cbn.
  eapply upath_trans; [apply upath_sym, sb_path|]. eapply upath_trans; [|apply sb_path].
  apply upath_edge. apply in_fuse_edges. exists w. auto.
Qed.

Theorem fuse_partition a b : rep m (s a) = rep m (s b) <-> rep n a = rep n b.
Proof.
  rewrite !rep_iff_fused. split.
  - intros H. eapply upath_trans; [apply sb_path|]. eapply upath_trans; [|apply upath_sym, sb_path].
    exact (upath_image (fun x => x) E' E edge_backward _ _ H).
  - apply (upath_image s E E'). intros u v H.
    destruct (edge_forward u v H) as [->|H']; [apply upath_refl|now apply upath_edge].
Qed.
(* for the surviving buses the lookup partition is literally the same *)
Corollary fuse_partition_surviving a b : in_b2 b1 b2s a = false -> in_b2 b1 b2s b = false ->
  (rep m a = rep m b <-> rep n a = rep n b).
Proof.
  intros A B. rewrite <- fuse_partition. unfold sb. rewrite A, B. tauto.
Qed.
End Fuse.

(* the case of the property text: b1 and b2 joined by a closed bus-bus switch without impedance *)
Lemma G23f_path n b1 b2 : G23f n b1 b2 = true -> forall x, in_b2 b1 [b2] x = true -> upath (fuse_edges n) b1 x.
Proof.
  unfold G23f. intros G x I. apply andb_prop in G. destruct G as [_ G]. apply existsb_exists in G.
  destruct G as [w [Iw G]]. apply andb_prop in G. destruct G as [F J].
  unfold in_b2, memn in I. cbn [existsb] in I. rewrite orb_false_r in I. apply andb_prop in I. destruct I as [I _].
  apply Nat.eqb_eq in I. subst x.
  unfold joins in J. apply orb_prop in J. destruct J as [J|J]; apply andb_prop in J; destruct J as [J1 J2];
    apply Nat.eqb_eq in J1, J2.
  - apply upath_edge. apply in_fuse_edges. exists w. auto.
  - apply upath_sym, upath_edge. apply in_fuse_edges. exists w. auto.
Qed.
(* fusing across the open bus-bus switch of w_net merges two rows of the ppc; w_net_closed has the switch closed *)
Definition w_net : net :=
  {| buses := [{| b_id := 0; b_is := true |}; {| b_id := 1; b_is := true |}; {| b_id := 2; b_is := true |}];
     lines := [{| r_id := 0; r_f := 0; r_t := 1; r_is := true |}]; trafos := []; trafo3ws := []; imps := []; dclines := []; xwards := [];
     switches := [{| s_bus := 1; s_el := 2; s_et := ETb; s_closed := false; s_zpos := false |}];
     injs := [{| i_bus := 0; i_is := true; i_pv := true; i_slack := true |}; {| i_bus := 2; i_is := true; i_pv := false; i_slack := false |}] |}.
Definition w_net_closed : net :=
  {| buses := buses w_net; lines := lines w_net; trafos := []; trafo3ws := []; imps := []; dclines := []; xwards := [];
     switches := [{| s_bus := 1; s_el := 2; s_et := ETb; s_closed := true; s_zpos := false |}]; injs := injs w_net |}.
