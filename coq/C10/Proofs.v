(* C10 — lemmas: total deviation of the gen rows of a participating bus, sums over grouped (bus, weight) pairs; witnesses of the
   rules before the repairs. *)
From Coq Require Import ZArith QArith Qabs List Bool Lia Lqa Setoid Morphisms.
From PPV Require Import Base.QN Base.QC C01.Model C01.Proofs C01.Balance C10.Model.
Import ListNotations.
Open Scope Q_scope.

(* bus level: with the slack equation satisfied the gen rows of a participating bus deviate in total by
   - w_bus * s * baseMVA  (pfsoln adds the demand the solver used, so ZIP loads at the bus do not disturb this) *)
Lemma bus_deviation n ref k v sinj wb s :
  memn k ref = true -> split_ok n k = true ->
  ds_mism n k v sinj wb s == 0 ->
  gen_p n ref k v sinj - sumf g_pg (gens_on_at n k) == - (wb * s * base n).
Proof.
  intros Hr Hs Hm. rewrite (gen_p_sum _ _ _ _ _ Hr Hs), p_bus_eq.
  unfold ds_mism in Hm. rewrite qadd_correct, !qmul_correct, mism_p_eq in Hm. lra.
Qed.

(* a bus one of whose rows is a reference row can be split: split_ok *)
Lemma split_ok_ref n k g : In g (gens_on_at n k) -> g_ref g = true -> split_ok n k = true.
Proof.
  intros Hin Hg. unfold split_ok. set (G := gens_on_at n k) in *.
  assert (Hex : existsb g_ref G = true) by (apply existsb_exists; exists g; split; assumption).
  destruct (Nat.eqb (length G) 1) eqn:E1; [reflexivity|]. apply Nat.eqb_neq in E1.
  rewrite Hex, andb_true_r. apply Nat.ltb_lt. destruct G; [destruct Hin | cbn in *; lia].
Qed.

(* _split_p_for_gens_at_same_bus on a reference bus, the two cases a participating row can be in:
   the only row of its bus takes the bus power; among several rows with positive total weight sw of the reference rows
   it takes its setpoint plus the share w/sw of what the reference rows have to cover *)
Lemma pg_after_single n ref k g v sinj :
  gens_on_at n k = [g] -> memn k ref = true -> pg_after n ref g v sinj = p_bus n k v sinj.
Proof.
  intros E Hr. destruct (gens_on_at_In n k g) as [Hb Ho]; [rewrite E; left; reflexivity|].
  unfold pg_after. rewrite Hb, Ho, Hr, E. reflexivity.
Qed.
Lemma pg_after_weighted n ref k g v sinj :
  In g (gens_on_at n k) -> memn k ref = true -> g_ref g = true -> (1 < length (gens_on_at n k))%nat ->
  0 < sumf g_w (filter g_ref (gens_on_at n k)) ->
  pg_after n ref g v sinj ==
  g_pg g + (p_bus n k v sinj - sumf g_pg (filter (fun x => negb (g_ref x)) (gens_on_at n k)) - sumf g_pg (filter g_ref (gens_on_at n k)))
           * g_w g / sumf g_w (filter g_ref (gens_on_at n k)).
Proof.
  intros Hin Hr Hg L Hsw. destruct (gens_on_at_In _ _ _ Hin) as [Hb Ho].
  apply Nat.ltb_lt in L. apply qltb_lt in Hsw.
  unfold pg_after. rewrite Hb, Ho, Hr, L, Hg, Hsw. cbn [andb]. qstrip. reflexivity.
Qed.

Lemma filter_single {A} (p : A -> bool) a : p a = true -> filter p [a] = [a].
Proof. intros H. cbn. rewrite H. reflexivity. Qed.


Lemma sumf_key_pick (keys : list nat) a c : NoDup keys -> In a keys ->
  sumf (fun b => if Nat.eqb a b then c else 0) keys == c.
Proof.
  induction keys as [|x keys IH]; intros Hnd Hin; [destruct Hin|].
  rewrite sumf_cons. inversion Hnd as [|? ? Hx Hnd']; subst.
  destruct Hin as [->|Hin].
  - rewrite Nat.eqb_refl.
    rewrite (sumf_ext _ (fun _ => 0)); [rewrite sumf_const; ring|].
    intros b Hb. destruct (Nat.eqb a b) eqn:E; [|reflexivity]. apply Nat.eqb_eq in E. subst. contradiction.
  - destruct (Nat.eqb a x) eqn:E; [apply Nat.eqb_eq in E; subst; contradiction|].
    rewrite (IH Hnd' Hin). ring.
Qed.
(* grouping: the per-key sums over distinct keys add up to the total *)
Lemma group_total (m : list (nat * Q)) (keys : list nat) :
  NoDup keys -> (forall p, In p m -> In (fst p) keys) ->
  sumf (fun b => sumf snd (filter (fun p => Nat.eqb (fst p) b) m)) keys == sumf snd m.
Proof.
  intros Hnd. induction m as [|p m IH]; intros Hin.
  - cbn [filter]. transitivity (sumf (fun _ : nat => 0) keys); [apply sumf_ext; intros; reflexivity|].
    rewrite sumf_const. change (sumf snd (@nil (nat * Q))) with 0. ring.
  - rewrite sumf_cons, <- IH by (intros q Hq; apply Hin; right; exact Hq).
    rewrite <- (sumf_key_pick keys (fst p) (snd p) Hnd) at 1 by (apply Hin; left; reflexivity).
    rewrite <- sumf_add. apply sumf_ext. intros b _. cbn [filter].
    destruct (Nat.eqb (fst p) b); [rewrite sumf_cons; reflexivity | ring].
Qed.
Lemma sumf_snd_map_scale (m : list (nat * Q)) : forall s,
  sumf snd (map (fun p => (fst p, qdiv (snd p) s)) m) == sumf snd m / s.
Proof.
  intros s. induction m as [|p m IH]; [cbn [map]; rewrite !sumf_nil; unfold Qdiv; ring|].
  cbn [map]. rewrite !sumf_cons, IH. cbn [snd]. qstrip. unfold Qdiv. ring.
Qed.
Lemma combine_map_r {A B C} (f : B -> C) (a : list A) (b : list B) :
  combine a (map f b) = map (fun p => (fst p, f (snd p))) (combine a b).
Proof. revert b. induction a as [|x a IH]; intros [|y b]; cbn; [reflexivity..|]. rewrite IH. reflexivity. Qed.
Lemma filter_map_fst {B} (f : Q -> B) (p : nat -> bool) (m : list (nat * Q)) :
  filter (fun q => p (fst q)) (map (fun q => (fst q, f (snd q))) m) = map (fun q => (fst q, f (snd q))) (filter (fun q => p (fst q)) m).
Proof. induction m as [|x m IH]; [reflexivity|]. cbn [map filter fst]. destruct (p (fst x)); cbn [map]; rewrite IH; reflexivity. Qed.

(* the old pairing of the xward weights with sorted-unique PQ buses: with two xwards in descending bus order the weights swap *)
Definition wit_xwb : list xwbr := [mkXb 3 true; mkXb 2 true].
Definition wit_wsrc : list wsrc := [mkW 0 1 false; mkW 7 1 true; mkW 8 2 true].
(* two in-service xwards with positive weights on different buses: the old extraction gave each the other's variable part *)
Definition wit_x2 : list xwrow := [mkXw 3 3 5 1 true true; mkXw 2 2 3 2 true true].

(* old rule: after a q-limit pass the xward got no slack share at all (constant power demand 5 at the bus, injection -6) *)
Definition witql_net : net := mkNet [] [mkPq 3 3 5 0 1 true false] [] [] false 1 [].
Definition witql_x : xwrow := mkXw 3 3 5 1 true true.
