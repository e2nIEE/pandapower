(* C10 — the island search of _subnetworks as an input of the weight normalisation:
   the computed island list is a partition into undirected-path classes of the reference buses (Base.C07Graph),
   the normalisation loop writes bus weights that sum to 1 on EVERY island of a disjoint island list,
   an island without participant makes it fail, and the final zone check accepts exactly one island. *)
From Coq Require Import QArith Qabs List Lia Lqa Morphisms Relations.
From PPV Require Import Base.Lists Base.QN Base.QC C01.Model C01.Proofs C10.Model C10.Proofs.
From PPV Require Base.C07Graph.
Import ListNotations.
Open Scope Q_scope.

Lemma memn_nIn x l : memn x l = false <-> ~ In x l.
Proof.
  split.
  - intros H Hin. apply memn_In in Hin. congruence.
  - intros H. destruct (memn x l) eqn:E; [|reflexivity]. apply memn_In in E. contradiction.
Qed.

Lemma filter_none {A} (p : A -> bool) l : (forall x, In x l -> p x = false) -> filter p l = [].
Proof. apply Lists.filter_none. Qed.
Lemma sumf_key_none (keys : list nat) a c : ~ In a keys -> sumf (fun b => if Nat.eqb a b then c else 0) keys == 0.
Proof.
  intros H. rewrite (sumf_ext _ (fun _ => 0)); [rewrite sumf_const; ring|].
  intros b Hb. destruct (Nat.eqb a b) eqn:E; [|reflexivity]. apply Nat.eqb_eq in E. subst. contradiction.
Qed.

(* the assignment list ppc["bus"][buses, SL_FAC_BUS] = ... *)
Definition keyf (k : nat) (g : list (nat * Q)) := filter (fun p => Nat.eqb (fst p) k) g.
Lemma keyf_nil_iff k g : keyf k g = [] <-> memn k (map fst g) = false.
Proof.
  induction g as [|p g IH]; [cbn; tauto|]. unfold keyf in *. cbn [filter map memn existsb].
  rewrite (Nat.eqb_sym k (fst p)). destruct (Nat.eqb (fst p) k); cbn [orb]; [split; discriminate|exact IH].
Qed.
Lemma bw_lookup_notkey g k : memn k (map fst g) = false -> bw_lookup g k = 0.
Proof. intros H. apply keyf_nil_iff in H. unfold bw_lookup. fold (keyf k g). rewrite H. reflexivity. Qed.
(* later assignments win *)
Lemma bw_lookup_app a g k : bw_lookup (a ++ g) k = if memn k (map fst g) then bw_lookup g k else bw_lookup a k.
Proof.
  unfold bw_lookup. rewrite filter_app, rev_app_distr. fold (keyf k g) (keyf k a).
  destruct (memn k (map fst g)) eqn:E.
  - destruct (rev (keyf k g)) as [|p l] eqn:R; [|reflexivity].
    assert (Z : keyf k g = []) by (rewrite <- (rev_involutive (keyf k g)), R; reflexivity).
    apply keyf_nil_iff in Z. congruence.
  - apply keyf_nil_iff in E. rewrite E. reflexivity.
Qed.
Lemma bw_lookup_single b q k : bw_lookup [(b, q)] k = if Nat.eqb b k then q else 0.
Proof. unfold bw_lookup. cbn [filter fst]. destruct (Nat.eqb b k); reflexivity. Qed.
Lemma bw_lookup_cons b q g k : ~ In b (map fst g) ->
  bw_lookup ((b, q) :: g) k == (if Nat.eqb b k then q else 0) + bw_lookup g k.
Proof.
  intros Hb. change ((b, q) :: g) with ([(b, q)] ++ g). rewrite bw_lookup_app, bw_lookup_single.
  destruct (memn k (map fst g)) eqn:E.
  - destruct (Nat.eqb b k) eqn:Ek; [|ring]. apply Nat.eqb_eq in Ek. subst. apply memn_In in E. contradiction.
  - rewrite (bw_lookup_notkey _ _ E). ring.
Qed.
(* summing the looked-up weights over a duplicate-free bus list picks the entries with a key in that list *)
Lemma sum_lookup g U : NoDup (map fst g) -> NoDup U ->
  sumf (bw_lookup g) U == sumf snd (filter (fun p => memn (fst p) U) g).
Proof.
  intros Hg HU. induction g as [|[b q] g IH].
  - cbn [filter]. rewrite sumf_nil. rewrite (sumf_ext _ (fun _ => 0)); [rewrite sumf_const; ring | reflexivity].
  - cbn [map fst] in Hg. inversion Hg as [|? ? Hb Hg']; subst.
    rewrite (sumf_ext _ (fun k => (if Nat.eqb b k then q else 0) + bw_lookup g k))
      by (intros k _; apply bw_lookup_cons; exact Hb).
    rewrite sumf_add, (IH Hg'). cbn [filter fst]. destruct (memn b U) eqn:E.
    + rewrite sumf_cons. cbn [snd]. apply memn_In in E. rewrite (sumf_key_pick U b q HU E). reflexivity.
    + apply memn_nIn in E. rewrite (sumf_key_none U b q E). ring.
Qed.
Lemma lookup_add bw0 g k : (memn k (map fst g) = true -> bw_lookup bw0 k == 0) ->
  bw_lookup (bw0 ++ g) k == bw_lookup bw0 k + bw_lookup g k.
Proof.
  intros H. rewrite bw_lookup_app. destruct (memn k (map fst g)) eqn:E.
  - rewrite (H eq_refl). ring.
  - rewrite (bw_lookup_notkey _ _ E). ring.
Qed.

Lemma group_keys buses ws sub : map fst (group_weights buses ws sub) =
  nodup Nat.eq_dec (map fst (filter (fun p => memn (fst p) sub) (combine buses ws))).
Proof. unfold group_weights. rewrite map_map. cbn [fst]. apply map_id. Qed.
Lemma group_keys_NoDup buses ws sub : NoDup (map fst (group_weights buses ws sub)).
Proof. rewrite group_keys. apply NoDup_nodup. Qed.
Lemma group_keys_sub buses ws sub k : In k (map fst (group_weights buses ws sub)) -> In k sub.
Proof.
  rewrite group_keys, nodup_In, in_map_iff. intros (p & <- & Hp). apply filter_In in Hp. apply memn_In. apply Hp.
Qed.
Lemma group_sum buses ws sub : sumf snd (group_weights buses ws sub) == masked_sum buses ws sub.
Proof.
  unfold group_weights, masked_sum. set (m := filter _ _). rewrite sumf_map. cbn [snd].
  apply group_total; [apply NoDup_nodup | intros p Hp; apply nodup_In, in_map, Hp].
Qed.
Lemma masked_sum_scale buses ws sub s : masked_sum buses (map (fun w => qdiv w s) ws) sub == masked_sum buses ws sub / s.
Proof.
  unfold masked_sum. rewrite combine_map_r, (filter_map_fst (fun w => qdiv w s) (fun b => memn b sub)). apply sumf_snd_map_scale.
Qed.
Lemma close0_nonzero s : qleb (Qabs s) CLOSE0 = false -> ~ s == 0.
Proof.
  intros E Z. assert (qleb (Qabs s) CLOSE0 = true); [|congruence].
  apply qleb_le. rewrite Z. cbn. discriminate.
Qed.

Notation pdisj := (C07Graph.pairwise_disjoint).

(* keys written by the loop lie in the islands it visited *)
Lemma norm_loop_frame buses : forall subs ws bw0 bw k,
  norm_loop buses ws subs bw0 = NOk bw -> (forall sub, In sub subs -> ~ In k sub) -> bw_lookup bw k = bw_lookup bw0 k.
Proof.
  induction subs as [|sub rest IH]; intros ws bw0 bw k H Hk; cbn [norm_loop] in H.
  - injection H as <-. reflexivity.
  - destruct (qleb _ _); [discriminate|]. destruct (qltb _ _); [discriminate|].
    rewrite (IH _ _ _ k H) by (intros s' Hs'; apply Hk; right; exact Hs').
    rewrite bw_lookup_app.
    destruct (memn k (map fst _)) eqn:E; [|reflexivity].
    apply memn_In, group_keys_sub in E. exfalso. apply (Hk sub); [left; reflexivity | exact E].
Qed.

Lemma nq_S n : nq (S n) == nq n + 1.
Proof. unfold nq. rewrite Nat2Z.inj_succ, <- Z.add_1_r, inject_Z_plus. reflexivity. Qed.

(* one pass on an island with paired weight sum s <> 0, on top of assignments bw0 that are zero on the island: the entries
   written (the grouped weights, all divided by s) add to bw0, vanish outside the island and sum to one over any
   duplicate-free bus list that contains the island *)
Lemma norm_pass buses ws sub bw0 :
  let s := masked_sum buses ws sub in
  let gw := group_weights buses (map (fun w => qdiv w s) ws) sub in
  ~ s == 0 -> (forall k, In k sub -> bw_lookup bw0 k == 0) ->
  (forall k, bw_lookup (bw0 ++ gw) k == bw_lookup bw0 k + bw_lookup gw k) /\
  (forall k, ~ In k sub -> bw_lookup gw k = 0) /\
  (forall U, NoDup U -> incl sub U -> sumf (bw_lookup gw) U == 1).
Proof.
  intros s gw Hs H0. split; [|split].
  - intros k. apply lookup_add. intros Hk. apply H0. apply memn_In, group_keys_sub in Hk. exact Hk.
  - intros k Hk. apply bw_lookup_notkey, memn_nIn. intros Hkey. apply Hk. apply group_keys_sub in Hkey. exact Hkey.
  - intros U HU Hin. rewrite (sum_lookup gw U (group_keys_NoDup _ _ _) HU), filter_all.
    + unfold gw. rewrite group_sum, masked_sum_scale. fold s. field. exact Hs.
    + intros p Hp. apply memn_In, Hin. apply (group_keys_sub buses (map (fun w => qdiv w s) ws)). apply in_map. exact Hp.
Qed.

(* sum of the written weights over any duplicate-free bus set U that contains the visited islands: one per island *)
Lemma norm_loop_total buses U : NoDup U -> forall subs ws bw0 bw,
  pdisj subs -> (forall sub k, In sub subs -> In k sub -> In k U) ->
  (forall sub k, In sub subs -> In k sub -> bw_lookup bw0 k == 0) ->
  norm_loop buses ws subs bw0 = NOk bw ->
  sumf (bw_lookup bw) U == sumf (bw_lookup bw0) U + nq (length subs).
Proof.
  intros HU. induction subs as [|sub rest IH]; intros ws bw0 bw Hd Hin H0 H; cbn [norm_loop] in H.
  - injection H as <-. unfold nq. cbn. ring.
  - destruct (qleb _ CLOSE0) eqn:E0; [discriminate|]. destruct (qltb _ 0); [discriminate|].
    inversion Hd as [|? ? Hdc Hdr]; subst.
    destruct (norm_pass buses ws sub bw0 (close0_nonzero _ E0) (fun k => H0 sub k (or_introl eq_refl))) as (Hadd & Hout & Hone).
    rewrite (fun a b => IH _ _ _ Hdr a b H).
    + rewrite (sumf_ext _ _ U (fun k _ => Hadd k)), sumf_add, (Hone U HU (fun k => Hin sub k (or_introl eq_refl))).
      cbn [length]. rewrite nq_S. ring.
    + intros s' k Hs'. apply (Hin s'). right. exact Hs'.
    + intros s' k Hs' Hk. rewrite Hadd, (H0 s' k (or_intror Hs') Hk), Hout; [ring|].
      intros Hk'. apply (Hdc s' Hs' k Hk' Hk).
Qed.

(* per island: the weights written on the buses of every island of a disjoint island list sum to one *)
Lemma norm_loop_per_island buses : forall subs ws bw0 bw,
  pdisj subs -> (forall sub, In sub subs -> NoDup sub) ->
  (forall sub k, In sub subs -> In k sub -> bw_lookup bw0 k == 0) ->
  norm_loop buses ws subs bw0 = NOk bw ->
  forall sub, In sub subs -> sumf (bw_lookup bw) sub == 1.
Proof.
  induction subs as [|sub rest IH]; intros ws bw0 bw Hd Hnd H0 H isl Hisl; [destruct Hisl|].
  cbn [norm_loop] in H. destruct (qleb _ CLOSE0) eqn:E0; [discriminate|]. destruct (qltb _ 0); [discriminate|].
  inversion Hd as [|? ? Hdc Hdr]; subst.
  destruct (norm_pass buses ws sub bw0 (close0_nonzero _ E0) (fun k => H0 sub k (or_introl eq_refl))) as (Hadd & Hout & Hone).
  destruct Hisl as [<-|Hisl].
  - (* the island of this pass: the later passes write outside it *)
    etransitivity; [|apply (Hone sub (Hnd sub (or_introl eq_refl)) (incl_refl sub))].
    apply sumf_ext. intros k Hk.
    rewrite (norm_loop_frame buses rest _ _ bw k H) by (intros s' Hs' Hk'; apply (Hdc s' Hs' k Hk Hk')).
    rewrite Hadd, (H0 sub k (or_introl eq_refl) Hk). ring.
  - apply (fun z => IH _ _ bw Hdr (fun s' Hs' => Hnd s' (or_intror Hs')) z H isl Hisl).
    intros s' k Hs' Hk. rewrite Hadd, (H0 s' k (or_intror Hs') Hk), Hout; [ring|].
    intros Hk'. apply (Hdc s' Hs' k Hk' Hk).
Qed.

(* an island whose paired weights sum to zero stops the loop with an error, wherever it is in the list *)
Lemma norm_loop_zero_island buses : forall subs ws bw0 sub,
  In sub subs -> masked_sum buses ws sub == 0 -> exists e, norm_loop buses ws subs bw0 = NErr e.
Proof.
  induction subs as [|s0 rest IH]; intros ws bw0 sub Hin Hz; [destruct Hin|]. cbn [norm_loop].
  destruct (qleb (Qabs (masked_sum buses ws s0)) CLOSE0) eqn:E0; [eexists; reflexivity|].
  destruct (qltb (masked_sum buses ws s0) 0); [eexists; reflexivity|].
  destruct Hin as [->|Hin].
  - exfalso. apply (close0_nonzero _ E0). exact Hz.
  - apply (IH _ _ sub Hin). rewrite masked_sum_scale, Hz. unfold Qdiv. ring.
Qed.

(* the (bus, weight) pairs the normalisation works on: gen / ext_grid rows at their own bus, the j-th xward gen at the
   PQ bus of the j-th in-service xward *)
Definition pairing (gens : list wsrc) (xws : list xwbr) : list (nat * Q) :=
  combine (map w_bus (filter (fun g => negb (w_xw g)) gens) ++ xward_pq_buses xws)
          (map w_w (filter (fun g => negb (w_xw g)) gens) ++ map w_w (filter w_xw gens)).
Definition island_weight (gens : list wsrc) (xws : list xwbr) (isl : list nat) : Q :=
  sumf snd (filter (fun p => memn (fst p) isl) (pairing gens xws)).
Lemma no_participant_zero gens xws isl :
  (forall b w, In (b, w) (pairing gens xws) -> In b isl -> w == 0) -> island_weight gens xws isl == 0.
Proof.
  intros H. unfold island_weight. rewrite (sumf_ext _ (fun _ => 0)); [rewrite sumf_const; ring|].
  intros [b w] Hp. apply filter_In in Hp. destruct Hp as [Hp Hm]. apply (H b w Hp). apply memn_In. exact Hm.
Qed.

Lemma tot_zero nb : sumf (fun k : nat => bw_lookup [] k) (seq 0 nb) == 0.
Proof. rewrite (sumf_ext _ (fun _ => 0)); [rewrite sumf_const; ring | reflexivity]. Qed.

(* the final zone check accepts exactly one island *)
Lemma normalise_one_island xpqf gens xws subs nb bw :
  pdisj subs -> (forall sub, In sub subs -> NoDup sub) -> (forall sub k, In sub subs -> In k sub -> (k < nb)%nat) ->
  normalise_with xpqf gens xws subs nb = NOk bw ->
  length subs = 1%nat /\ forall sub, In sub subs -> sumf (bw_lookup bw) sub == 1.
Proof.
  intros Hd Hnd Hlt. unfold normalise_with.
  destruct (existsb _ _); [discriminate|]. destruct (_ && _); [discriminate|].
  set (buses := _ ++ xpqf xws). set (ws := _ ++ _).
  destruct (norm_loop buses ws subs []) as [e|bw'] eqn:L; [discriminate|].
  destruct (qleb _ CLOSE1) eqn:T; [|discriminate]. intros H. injection H as <-.
  split.
  - pose proof (norm_loop_total buses (seq 0 nb) (seq_NoDup nb 0) subs ws [] bw' Hd) as HT.
    rewrite HT in T; [| intros sub k Hs Hk; apply in_seq; specialize (Hlt sub k Hs Hk); lia | intros; reflexivity | exact L].
    rewrite tot_zero in T. apply qleb_le in T.
    destruct (length subs) as [|[|m]]; [exfalso | reflexivity | exfalso].
    + revert T. unfold nq. cbn. intros T. apply T. reflexivity.
    + assert (P : 1 <= qsub (0 + nq (S (S m))) 1).
      { rewrite qsub_correct, !nq_S.
        assert (0 <= nq m) by (unfold nq; change 0 with (inject_Z 0); rewrite <- Zle_Qle; lia). lra. }
      pose proof (Qle_Qabs (qsub (0 + nq (S (S m))) 1)) as A.
      assert (C1 : CLOSE1 < 1) by reflexivity. lra.
  - intros sub Hs. apply (norm_loop_per_island buses subs ws [] bw' Hd Hnd); [intros; reflexivity | exact L | exact Hs].
Qed.
Lemma normalise_zero_island xpqf gens xws subs nb sub :
  In sub subs ->
  masked_sum (map w_bus (filter (fun g => negb (w_xw g)) gens) ++ xpqf xws)
             (map w_w (filter (fun g => negb (w_xw g)) gens) ++ map w_w (filter w_xw gens)) sub == 0 ->
  exists e, normalise_with xpqf gens xws subs nb = NErr e.
Proof.
  intros Hin Hz. unfold normalise_with.
  destruct (existsb _ _); [eexists; reflexivity|]. destruct (_ && _); [eexists; reflexivity|].
  destruct (norm_loop_zero_island _ subs _ [] sub Hin Hz) as [e ->]. eexists; reflexivity.
Qed.

Lemma comps_aux_shape g : forall todo acc c,
  In c (C07Graph.comps_aux nat Nat.eq_dec g todo acc) -> In c acc \/ exists x, In x todo /\ c = C07Graph.component Nat.eq_dec g x.
Proof.
  induction todo as [|x t IH]; intros acc c H; cbn [C07Graph.comps_aux] in H; [left; exact H|].
  destruct (existsb _ acc).
  - destruct (IH _ _ H) as [Ha|(y & Hy & E)]; [left; exact Ha | right; exists y; split; [right; exact Hy | exact E]].
  - destruct (IH _ _ H) as [Ha|(y & Hy & E)].
    + apply in_app_or in Ha. destruct Ha as [Ha|[<-|[]]]; [left; exact Ha | right; exists x; split; [left; reflexivity|reflexivity]].
    + right; exists y; split; [right; exact Hy | exact E].
Qed.
Lemma island_is_component brs bt isl : In isl (subnetworks brs bt) ->
  exists x, In x (slack_buses bt) /\ isl = C07Graph.component Nat.eq_dec (island_arcs brs bt) x.
Proof. intros H. destruct (comps_aux_shape _ _ _ _ H) as [[]|E]. exact E. Qed.
Lemma island_NoDup brs bt isl : In isl (subnetworks brs bt) -> NoDup isl.
Proof. intros H. destruct (island_is_component _ _ _ H) as (x & _ & ->). apply C07Graph.reach_NoDup. Qed.
Lemma slack_lt bt x : In x (slack_buses bt) -> (x < length bt)%nat /\ nth x bt 1%nat = BT_REF.
Proof.
  unfold slack_buses. rewrite filter_In, in_seq. intros [H E]. split; [lia|]. apply Nat.eqb_eq. exact E.
Qed.
Lemma island_arc_wf brs bt u v : wf_branches brs bt = true -> In (u, v) (island_arcs brs bt) ->
  (u < length bt)%nat /\ (v < length bt)%nat.
Proof.
  intros W H. unfold island_arcs in H. apply in_map_iff in H. destruct H as (r & E & Hr). injection E as <- <-.
  apply filter_In in Hr. destruct Hr as [Hr _].
  unfold wf_branches in W. rewrite forallb_forall in W. specialize (W r Hr).
  apply andb_true_iff in W. destruct W as [A B]. apply Nat.ltb_lt in A, B. tauto.
Qed.
Lemma island_lt brs bt isl k : wf_branches brs bt = true -> In isl (subnetworks brs bt) -> In k isl -> (k < length bt)%nat.
Proof.
  intros W H Hk. destruct (island_is_component _ _ _ H) as (x & Hx & ->).
  apply C07Graph.component_iff in Hk.
  apply (C07Graph.upath_invariant nat (island_arcs brs bt) (fun k => (k < length bt)%nat)) with (u := x).
  - intros u v E. destruct (island_arc_wf _ _ _ _ W E). tauto.
  - exact Hk.
  - apply slack_lt. exact Hx.
Qed.

(* witnesses: bus 0 -- 1 in service, 2 -- 3 in service, branch 1 -- 2 out of service; reference buses 0 and 3 *)
Definition wit_brs : list pbr := [mkPbr 0 1 true; mkPbr 1 2 false; mkPbr 2 3 true].
Definition wit_bt : list nat := [3; 1; 1; 3]%nat.
