(* C27 — refinement of detach / drop_elements_simple / drop_lines / reindex_elements to an abstract set model of group
   membership that covers index based AND reference-column (name based) rows *)
From Coq Require Import ZArith List Bool String.
From PPV Require Import C27.Model C27.Proofs.
Import ListNotations.
Open Scope Z_scope.

(* x is a member of row r, given the element table tb of the row's element type:
   index based row: x is listed;  reference-column row: an element x of the table carries a listed reference value *)
Definition row_mem (tb : list (Z * Z)) (r : grow) (x : Z) : Prop :=
  if rc_null (grc r) then In x (gmem r) else exists nm, In (x, nm) tb /\ In nm (gmem r).
(* x is a member of group g for element type et *)
Definition member (s : st) (g : Z) (et : nat) (x : Z) : Prop :=
  exists r, In r (grp s) /\ gid r = g /\ gty r = et /\ row_mem (tab s et) r x.
Definition selected (sl : option (list Z)) (g : Z) : Prop := match sl with None => True | Some l => In g l end.
(* the reference values of a table are unique *)
Definition uniq_names (tb : list (Z * Z)) : Prop := forall i j nm, In (i, nm) tb -> In (j, nm) tb -> i = j.

Lemma nodupb_true l : nodupb l = true -> NoDup l.
Proof.
  induction l as [|x t IH]; simpl; [constructor|]. intros H. apply andb_true_iff in H. destruct H as [H1 H2].
  constructor; [apply zin_false, negb_true_iff, H1 | apply IH, H2].
Qed.
Lemma nodup_snd_inj (tb : list (Z * Z)) : NoDup (map snd tb) -> uniq_names tb.
Proof.
  induction tb as [|p t IH]; intros N i j nm Hi Hj; [destruct Hi|]. inversion N as [|? ? Hn N']; subst.
  destruct Hi as [Hi|Hi], Hj as [Hj|Hj].
  - congruence.
  - exfalso. apply Hn. subst p. simpl. change nm with (snd (j, nm)). apply in_map, Hj.
  - exfalso. apply Hn. subst p. simpl. change nm with (snd (i, nm)). apply in_map, Hi.
  - eapply IH; eauto.
Qed.
Lemma G27_names_uniq s et : G27_names s et = true -> uniq_names (tab s et).
Proof. unfold G27_names, names. intros H. apply andb_true_iff in H. apply nodup_snd_inj, nodupb_true, H. Qed.
Lemma G27_refcols_uniq s : G27_refcols s = true -> forall r, In r (grp s) -> rc_null (grc r) = false -> uniq_names (tab s (gty r)).
Proof.
  unfold G27_refcols. rewrite forallb_forall. intros H r Hr N. specialize (H r Hr). rewrite N in H. apply G27_names_uniq, H.
Qed.
Lemma G27_refcols_uniq_at s et : G27_refcols s = true ->
  forall r, In r (grp s) -> gty r = et -> rc_null (grc r) = false -> uniq_names (tab s et).
Proof. intros G r H1 <- H3. exact (G27_refcols_uniq s G r H1 H3). Qed.

Lemma row_mem_nonempty tb r x : row_mem tb r x -> gmem r <> [].
Proof. unfold row_mem. destruct (rc_null (grc r)); [|intros [nm [_ H]]]; intros; destruct (gmem r); auto; discriminate. Qed.

Definition detach_names (s : st) (et : nat) (idl : list Z) : list Z :=
  flat_map (name_of s et) (filter (fun i => zin i (ids s et)) (zuniq [] idl)).
Definition detach_mem (s : st) (et : nat) (idl : list Z) (r : grow) : list Z :=
  if rc_null (grc r) then zdiff (gmem r) idl else zdiff (gmem r) (detach_names s et idl).
Definition with_mem (r : grow) (m : list Z) : grow := {| gid := gid r; gty := gty r; gmem := m; grc := grc r |}.

Lemma detach_in s et idl sl r' :
  In r' (grp (detach s et idl sl)) <->
  exists r, In r (grp s) /\
    (if targeted et sl r then detach_mem s et idl r <> [] /\ r' = with_mem r (detach_mem s et idl r) else r' = r).
Proof.
  unfold detach. simpl. rewrite in_flat_map. split; intros [r [Hr H]]; exists r; (split; [exact Hr|]);
    fold (targeted et sl r) in *; fold (detach_names s et idl) in *; fold (detach_mem s et idl r) in *;
    destruct (targeted et sl r).
  - destruct (detach_mem s et idl r) eqn:M; [destruct H|]. destruct H as [H|[]]. split; [discriminate|]. subst r'. reflexivity.
  - destruct H as [H|[]]. auto.
  - destruct H as [H1 H2]. destruct (detach_mem s et idl r) eqn:M; [contradiction|]. left. subst r'. reflexivity.
  - left. auto.
Qed.

Lemma in_detach_names s et idl nm : In nm (detach_names s et idl) <-> exists i, In i idl /\ In (i, nm) (tab s et).
Proof.
  unfold detach_names, name_of. rewrite in_flat_map. split.
  - intros [i [H1 H2]]. apply filter_In in H1. destruct H1 as [H1 _]. apply in_zuniq in H1. destruct H1 as [H1 _].
    apply in_map_iff in H2. destruct H2 as [[j nm'] [H2 H3]]. simpl in H2. subst nm'. apply filter_In in H3. destruct H3 as [H3 H4].
    simpl in H4. apply Z.eqb_eq in H4. subst j. exists i. tauto.
  - intros [i [H1 H2]]. exists i. split.
    + apply filter_In. split; [apply in_zuniq; simpl; tauto|]. apply zin_true. unfold ids. change i with (fst (i, nm)). apply in_map, H2.
    + apply in_map_iff. exists (i, nm). split; [reflexivity|]. apply filter_In. split; [exact H2 | simpl; apply Z.eqb_refl].
Qed.

Lemma targeted_iff et sl r : targeted et sl r = true <-> gty r = et /\ selected sl (gid r).
Proof.
  unfold targeted, selected. rewrite andb_true_iff, Nat.eqb_eq. destruct sl; [rewrite zin_true|]; intuition.
Qed.

(* one targeted row: the members become members \ ids — for index based rows always, for reference-column rows when the
   reference values of the table are unique *)
Lemma row_detach s et idl r x :
  (rc_null (grc r) = false -> uniq_names (tab s et)) ->
  (row_mem (tab s et) (with_mem r (detach_mem s et idl r)) x <-> row_mem (tab s et) r x /\ ~ In x idl).
Proof.
  intros U. unfold row_mem, detach_mem, with_mem. simpl. destruct (rc_null (grc r)) eqn:N.
  - apply in_zdiff.
  - specialize (U eq_refl). split.
    + intros [nm [H1 H2]]. apply in_zdiff in H2. destruct H2 as [H2 H3]. split; [exists nm; tauto|].
      intros Hx. apply H3. apply in_detach_names. exists x. tauto.
    + intros [[nm [H1 H2]] Hx]. exists nm. split; [exact H1|]. apply in_zdiff. split; [exact H2|].
      intros H3. apply in_detach_names in H3. destruct H3 as [i [H3 H4]]. assert (i = x) by (eapply U; eauto). subst i. contradiction.
Qed.

Lemma detach_member s et idl sl g et' x :
  (forall r, In r (grp s) -> gty r = et -> rc_null (grc r) = false -> uniq_names (tab s et)) ->
  (member (detach s et idl sl) g et' x <-> member s g et' x /\ ~ (et' = et /\ selected sl g /\ In x idl)).
Proof.
  intros U. unfold member. change (tab (detach s et idl sl)) with (tab s). split.
  - intros [r' (H1 & H2 & H3 & H4)]. apply detach_in in H1. destruct H1 as [r [Hr H1]]. destruct (targeted et sl r) eqn:T.
    + destruct H1 as [_ H1]. subst r'. simpl in H2, H3. apply targeted_iff in T. destruct T as [T1 T2].
      assert (E : et' = et) by congruence. rewrite E in *. apply (row_detach s et idl r x) in H4; [|intros; eapply U; eauto].
      split; [exists r; tauto | tauto].
    + subst r'. split; [exists r; tauto|]. intros (E1 & E2 & _). subst et'.
      assert (targeted et sl r = true) by (apply targeted_iff; subst g; tauto). congruence.
  - intros [[r (H1 & H2 & H3 & H4)] Hn]. destruct (targeted et sl r) eqn:T.
    + pose proof T as T'. apply targeted_iff in T'. destruct T' as [T1 T2]. assert (E : et' = et) by congruence. rewrite E in *.
      assert (Hx : ~ In x idl) by (intros Hx; apply Hn; subst g; tauto).
      assert (R : row_mem (tab s et) (with_mem r (detach_mem s et idl r)) x).
      { apply row_detach; [intros; eapply U; eauto | tauto]. }
      exists (with_mem r (detach_mem s et idl r)). split; [|simpl; tauto].
      apply detach_in. exists r. split; [exact H1|]. rewrite T. split; [|reflexivity].
      apply (row_mem_nonempty _ _ _ R).
    + exists r. split; [|tauto]. apply detach_in. exists r. rewrite T. tauto.
Qed.

Lemma tab_set_tab s et v e : tab (set_tab s et v) e = if Nat.eqb e et then v else tab s e.
Proof. reflexivity. Qed.
(* removing rows from an element table whose ids are members of no group leaves the membership alone *)
Lemma member_drop_rows s et idl g et' x :
  (forall g x, member s g et x -> ~ In x idl) ->
  (member (set_tab s et (filter (fun p => negb (zin (fst p) idl)) (tab s et))) g et' x <-> member s g et' x).
Proof.
  intros Hfree. unfold member. change (grp (set_tab s et _)) with (grp s). rewrite tab_set_tab.
  destruct (Nat.eqb et' et) eqn:E; [|tauto]. apply Nat.eqb_eq in E. subst et'.
  split; intros [r (H1 & H2 & H3 & H4)]; exists r; (split; [exact H1|]; split; [exact H2|]; split; [exact H3|]).
  - unfold row_mem in *. destruct (rc_null (grc r)); [exact H4|]. destruct H4 as [nm [H4 H5]]. apply filter_In in H4. exists nm. tauto.
  - assert (Hx : ~ In x idl) by (apply (Hfree g x); exists r; tauto).
    unfold row_mem in *. destruct (rc_null (grc r)); [exact H4|]. destruct H4 as [nm [H4 H5]]. exists nm. split; [|exact H5].
    apply filter_In. split; [exact H4|]. apply negb_true_iff, zin_false, Hx.
Qed.

(* the elements leave the groups and the table *)
Definition drop_rows (s : st) (et : nat) (idl : list Z) : st :=
  set_tab (detach s et idl None) et (filter (fun p => negb (zin (fst p) idl)) (tab s et)).
Lemma drop_rows_spec s et idl :
  (forall r, In r (grp s) -> gty r = et -> rc_null (grc r) = false -> uniq_names (tab s et)) ->
  (forall g et' x, member (drop_rows s et idl) g et' x <-> member s g et' x /\ ~ (et' = et /\ In x idl)) /\
  (forall p, In p (tab (drop_rows s et idl) et) <-> In p (tab s et) /\ ~ In (fst p) idl) /\
  (forall e, e <> et -> tab (drop_rows s et idl) e = tab s e).
Proof.
  intros U. unfold drop_rows. split; [|split].
  - intros g et' x. change (tab s et) with (tab (detach s et idl None) et). rewrite member_drop_rows.
    + rewrite (detach_member s et idl None g et' x U). simpl. tauto.
    + intros g0 x0 H. apply (detach_member s et idl None g0 et x0 U) in H. simpl in H. tauto.
  - intros p. rewrite tab_set_tab, Nat.eqb_refl, filter_In, negb_true_iff, zin_false. tauto.
  - intros e He. rewrite tab_set_tab. apply Nat.eqb_neq in He. rewrite He. reflexivity.
Qed.

Lemma drop_simple_member s et idl s' :
  (forall r, In r (grp s) -> gty r = et -> rc_null (grc r) = false -> uniq_names (tab s et)) ->
  drop_simple s et idl = Ok s' ->
  (forall g et' x, member s' g et' x <-> member s g et' x /\ ~ (et' = et /\ In x idl)) /\
  (forall p, In p (tab s' et) <-> In p (tab s et) /\ ~ In (fst p) idl) /\
  (forall e, e <> et -> tab s' e = tab s e) /\ lsw s' = lsw s.
Proof.
  intros U. unfold drop_simple. destruct (forallb (fun i => zin i (ids s et)) idl); [|discriminate].
  intros E. inversion E; subst s'; clear E. destruct (drop_rows_spec s et idl U) as (M & T & O). auto.
Qed.

Definition line_switches (s : st) (idl : list Z) : list Z := map fst (filter (fun p => zin (snd p) idl) (lsw s)).

Lemma detach_other_type s et idl sl r : gty r <> et -> (In r (grp (detach s et idl sl)) <-> In r (grp s)).
Proof.
  intros Hne. rewrite detach_in. split.
  - intros [r0 [H0 H]]. destruct (targeted et sl r0) eqn:T; [|subst; exact H0].
    apply targeted_iff in T. destruct H as [_ H]. subst r. tauto.
  - intros H. exists r. split; [exact H|]. destruct (targeted et sl r) eqn:T; [|reflexivity]. apply targeted_iff in T. tauto.
Qed.
Lemma detach_nonempty s et idl sl :
  (forall r, In r (grp s) -> gmem r <> []) -> forall r, In r (grp (detach s et idl sl)) -> gmem r <> [].
Proof.
  intros H r Hr. apply detach_in in Hr. destruct Hr as [r0 [H0 H1]]. destruct (targeted et sl r0).
  - destruct H1 as [H1 H2]. subst r. exact H1.
  - subst r. apply H, H0.
Qed.
Lemma detach_name_rows s et idl sl r :
  In r (grp (detach s et idl sl)) -> exists r0, In r0 (grp s) /\ gty r0 = gty r /\ grc r0 = grc r.
Proof.
  intros Hr. apply detach_in in Hr. destruct Hr as [r0 [H0 H1]]. exists r0. destruct (targeted et sl r0).
  - destruct H1 as [_ H1]. subst r. auto.
  - subst r. auto.
Qed.

Definition drop_lines_core (s : st) (idl : list Z) : result st :=
  let i := map fst (filter (fun p => zin (snd p) idl) (lsw s)) in
  let s1 := detach s ET_SWITCH i None in
  let s1 := set_lsw (set_tab s1 ET_SWITCH (filter (fun p => negb (zin (fst p) i)) (tab s1 ET_SWITCH)))
                    (filter (fun p => negb (zin (fst p) i)) (lsw s1)) in
  let s2 := detach s1 ET_LINE idl None in
  if forallb (fun x => zin x (ids s ET_LINE)) idl
  then Ok (set_tab s2 ET_LINE (filter (fun p => negb (zin (fst p) idl)) (tab s2 ET_LINE)))
  else Err "KeyError".
Lemma drop_lines_unfold s idl : drop_lines s idl = match idl with [] => Ok s | _ => drop_lines_core s idl end.
Proof. destruct idl; reflexivity. Qed.

Definition drop_lines_spec (s : st) (idl : list Z) (s' : st) : Prop :=
  (* every group loses exactly the dropped lines and the line switches at them *)
  (forall g et x, member s' g et x <->
       member s g et x /\ ~ (et = ET_LINE /\ In x idl) /\ ~ (et = ET_SWITCH /\ In x (line_switches s idl))) /\
  (* the tables lose exactly these rows *)
  (forall p, In p (tab s' ET_LINE) <-> In p (tab s ET_LINE) /\ ~ In (fst p) idl) /\
  (forall p, In p (tab s' ET_SWITCH) <-> In p (tab s ET_SWITCH) /\ ~ In (fst p) (line_switches s idl)) /\
  (forall p, In p (lsw s') <-> In p (lsw s) /\ ~ In (fst p) (line_switches s idl)) /\
  (forall e, e <> ET_LINE -> e <> ET_SWITCH -> tab s' e = tab s e) /\
  (* rows of other element types are untouched, no row is left without members *)
  (forall r, gty r <> ET_LINE -> gty r <> ET_SWITCH -> (In r (grp s') <-> In r (grp s))) /\
  ((forall r, In r (grp s) -> gmem r <> []) -> forall r, In r (grp s') -> gmem r <> []).

(* drop_lines is drop_rows for the line switches (and their rows of the line-switch table), then for the lines *)
Lemma drop_lines_core_member s idl s' :
  (forall r, In r (grp s) -> rc_null (grc r) = false -> uniq_names (tab s (gty r))) ->
  drop_lines_core s idl = Ok s' -> drop_lines_spec s idl s'.
Proof.
  intros U. unfold drop_lines_core. fold (line_switches s idl). set (i := line_switches s idl).
  destruct (forallb (fun x => zin x (ids s ET_LINE)) idl); [|discriminate].
  set (s1 := set_lsw (drop_rows s ET_SWITCH i) (filter (fun p => negb (zin (fst p) i)) (lsw s))).
  intros E. assert (E' : s' = drop_rows s1 ET_LINE idl) by (inversion E; reflexivity). clear E. subst s'.
  destruct (drop_rows_spec s ET_SWITCH i) as (M1 & T1 & O1).
  { intros r H1 H2 H3. rewrite <- H2. apply U; assumption. }
  destruct (drop_rows_spec s1 ET_LINE idl) as (M2 & T2 & O2).
  { intros r H1 H2 H3. apply (detach_name_rows s ET_SWITCH i None) in H1. destruct H1 as [r0 (H4 & H5 & H6)].
    change (tab s1 ET_LINE) with (tab s ET_LINE). rewrite <- H2, <- H5. apply U; [exact H4 | congruence]. }
  change (forall g et x, member s1 g et x <-> member s g et x /\ ~ (et = ET_SWITCH /\ In x i)) in M1.
  change (forall p, In p (tab s1 ET_SWITCH) <-> In p (tab s ET_SWITCH) /\ ~ In (fst p) i) in T1.
  change (forall e, e <> ET_SWITCH -> tab s1 e = tab s e) in O1.
  unfold drop_lines_spec. split; [|split; [|split; [|split; [|split; [|split]]]]].
  - intros g et x. rewrite M2, M1. tauto.
  - intros p. rewrite T2, O1 by discriminate. tauto.
  - intros p. rewrite O2 by discriminate. apply T1.
  - intros p. change (lsw (drop_rows s1 ET_LINE idl)) with (filter (fun p => negb (zin (fst p) i)) (lsw s)).
    rewrite filter_In, negb_true_iff, zin_false. tauto.
  - intros e H1 H2. rewrite O2, O1 by assumption. reflexivity.
  - intros r H1 H2. change (In r (grp (detach s1 ET_LINE idl None)) <-> In r (grp s)).
    rewrite (detach_other_type s1 ET_LINE idl None r H1). apply (detach_other_type s ET_SWITCH i None r H2).
  - intros H. apply (detach_nonempty s1 ET_LINE idl None). apply (detach_nonempty s ET_SWITCH i None), H.
Qed.

(* drop_lines(net, lines): every group loses exactly the dropped lines (as line members) and the line switches at them
   (as switch members); the line / switch tables lose exactly these rows; nothing else changes *)
Lemma drop_lines_member s idl s' :
  (forall r, In r (grp s) -> rc_null (grc r) = false -> uniq_names (tab s (gty r))) ->
  drop_lines s idl = Ok s' -> drop_lines_spec s idl s'.
Proof.
  intros U. rewrite drop_lines_unfold. destruct idl as [|i0 it]; [|apply drop_lines_core_member, U].
  intros E. inversion E; subst s'; clear E. unfold drop_lines_spec, line_switches. simpl.
  assert (F : filter (fun p : Z * Z => false) (lsw s) = []) by (induction (lsw s); simpl; auto).
  rewrite F. repeat split; try tauto; intros; tauto.
Qed.

Definition remap (lk : list (Z * Z)) (i : Z) : Z := match lookup lk i with Some v => v | None => i end.
(* the renaming that reindex_elements(net, et, lookup) applies: rows of the table that are keys of the lookup move *)
Definition rho (s : st) (et : nat) (lk : list (Z * Z)) (i : Z) : Z :=
  if zin i (filter (fun i => zin i (map fst lk)) (ids s et)) then remap lk i else i.

Lemma lookup_fold lk k acc :
  fold_left (fun a kv => if fst kv =? k then Some (snd kv) else a) lk acc =
  match lookup lk k with Some v => Some v | None => acc end.
Proof.
  unfold lookup. revert acc. induction lk as [|kv t IH]; intros acc; simpl; [reflexivity|].
  rewrite IH. rewrite (IH (if fst kv =? k then Some (snd kv) else None)).
  destruct (fold_left _ t None); [reflexivity|]. destruct (fst kv =? k); reflexivity.
Qed.
Lemma lookup_none lk k : ~ In k (map fst lk) -> lookup lk k = None.
Proof.
  induction lk as [|kv t IH]; intros H; [reflexivity|]. unfold lookup. simpl. rewrite lookup_fold.
  destruct (fst kv =? k) eqn:E; [apply Z.eqb_eq in E; exfalso; apply H; left; exact E|].
  rewrite IH; [reflexivity|]. intros X. apply H. right. exact X.
Qed.
Lemma rho_ids s et lk i : In i (ids s et) -> rho s et lk i = remap lk i.
Proof.
  intros Hi. unfold rho. destruct (zin i (filter (fun i => zin i (map fst lk)) (ids s et))) eqn:Z; [reflexivity|].
  apply zin_false in Z. unfold remap. rewrite lookup_none; [reflexivity|]. intros H. apply Z. apply filter_In. split; [exact Hi | apply zin_true, H].
Qed.
Lemma rho_nil s et i : rho s et [] i = i.
Proof. unfold rho. destruct (zin i _); reflexivity. Qed.
Lemma rho_notab s et lk i : tab s et = [] -> rho s et lk i = i.
Proof. intros H. unfold rho, ids. rewrite H. reflexivity. Qed.

Definition reindex_spec (s : st) (et : nat) (lk : list (Z * Z)) (s' : st) : Prop :=
  (* the members of every group of this element type are the images of the old members, other types keep theirs *)
  (forall g et' x', member s' g et' x' <-> exists x, member s g et' x /\ x' = if Nat.eqb et' et then rho s et lk x else x) /\
  (* the table index is renamed by the same function, which is the lookup on every existing row *)
  tab s' et = map (fun p => (rho s et lk (fst p), snd p)) (tab s et) /\
  (forall e, e <> et -> tab s' e = tab s e) /\
  (forall x, In x (ids s et) -> rho s et lk x = remap lk x).

Lemma reindex_spec_id s et lk : (forall i, rho s et lk i = i) -> reindex_spec s et lk s.
Proof.
  intros Hid. split; [|split; [|split]].
  - intros g et' x'. split.
    + intros H. exists x'. split; [exact H|]. destruct (Nat.eqb et' et); [rewrite Hid|]; reflexivity.
    + intros [x [H E]]. destruct (Nat.eqb et' et); [rewrite Hid in E|]; subst; exact H.
  - rewrite <- (map_id (tab s et)) at 1. apply map_ext. intros [a b]. rewrite Hid. reflexivity.
  - reflexivity.
  - intros x Hx. apply rho_ids, Hx.
Qed.

(* renaming the listed indices of an index based row, or the elements of the table for a reference-column row, renames the members *)
Lemma row_mem_map (f : Z -> Z) tb r x' :
  row_mem (map (fun p => (f (fst p), snd p)) tb) (if rc_null (grc r) then with_mem r (map f (gmem r)) else r) x' <->
  exists x, row_mem tb r x /\ x' = f x.
Proof.
  unfold row_mem. destruct (rc_null (grc r)) eqn:N; simpl; rewrite N.
  - rewrite in_map_iff. split; intros [x [H1 H2]]; exists x; auto.
  - split.
    + intros [nm [H1 H2]]. apply in_map_iff in H1. destruct H1 as [[a b] [E Hp]]. inversion E; subst.
      exists a. split; [exists nm; auto | reflexivity].
    + intros [x [[nm [H1 H2]] ->]]. exists nm. split; [|exact H2]. apply in_map_iff. exists (x, nm). auto.
Qed.

(* members after mapping the rows with a function that keeps id and type, and replacing the table of et *)
Lemma member_map_rows s (F : _ -> _) et tb g et' x :
  (forall r, gid (F r) = gid r /\ gty (F r) = gty r) ->
  member (set_tab (set_grp s (map F (grp s))) et tb) g et' x <->
  exists r, In r (grp s) /\ gid r = g /\ gty r = et' /\ row_mem (if Nat.eqb et' et then tb else tab s et') (F r) x.
Proof.
  intros HF. unfold member. cbn [grp set_tab set_grp]. rewrite tab_set_tab. cbn [tab set_grp]. split.
  - intros [r' (H1 & H2 & H3 & H4)]. apply in_map_iff in H1. destruct H1 as [r [<- Hr]]. destruct (HF r) as [F1 F2].
    exists r. rewrite <- F1, <- F2. auto.
  - intros [r (H1 & H2 & H3 & H4)]. exists (F r). destruct (HF r) as [F1 F2]. rewrite F1, F2. split; [apply in_map, H1 | auto].
Qed.

Lemma reindex_member s et lk s' : reindex s et lk = Ok s' -> reindex_spec s et lk s'.
Proof.
  unfold reindex. destruct (tab s et) as [|p0 pt] eqn:ET.
  { intros E. inversion E; subst s'. apply reindex_spec_id. intros i. apply rho_notab, ET. }
  destruct lk as [|l0 lt] eqn:EL.
  { intros E. inversion E; subst s'. apply reindex_spec_id. intros i. apply rho_nil. }
  rewrite <- EL, <- ET. clear EL l0 lt ET p0 pt.
  fold (remap lk). intros E. inversion E; subst s'; clear E.
  set (F := fun r => if Nat.eqb (gty r) et && rc_null (grc r) then with_mem r (map (rho s et lk) (gmem r)) else r).
  assert (HT : map (fun p => (remap lk (fst p), snd p)) (tab s et) = map (fun p => (rho s et lk (fst p), snd p)) (tab s et)).
  { apply map_ext_in. intros [a b] Hp. rewrite rho_ids; [reflexivity|]. unfold ids. change a with (fst (a, b)). apply in_map, Hp. }
  assert (HF : forall r, gid (F r) = gid r /\ gty (F r) = gty r).
  { intros r. unfold F. destruct (Nat.eqb (gty r) et && rc_null (grc r)); auto. }
  split; [|split; [|split]].
  - intros g et' x'. etransitivity; [apply (member_map_rows s F et (map (fun p => (remap lk (fst p), snd p)) (tab s et)) g et' x' HF)|]. rewrite HT. unfold member. destruct (Nat.eqb et' et) eqn:Ee.
    + apply Nat.eqb_eq in Ee. subst et'.
      assert (HFe : forall r, gty r = et -> F r = if rc_null (grc r) then with_mem r (map (rho s et lk) (gmem r)) else r).
      { intros r Hr. unfold F. rewrite Hr, Nat.eqb_refl. reflexivity. }
      split.
      * intros [r (H1 & H2 & H3 & H4)]. rewrite (HFe r H3) in H4. apply row_mem_map in H4. destruct H4 as [x [Hx ->]].
        exists x. split; [exists r; auto | reflexivity].
      * intros [x [[r (H1 & H2 & H3 & H4)] ->]]. exists r. rewrite (HFe r H3). repeat split; auto.
        apply row_mem_map. exists x. auto.
    + assert (HFo : forall r, gty r = et' -> F r = r).
      { intros r Hr. unfold F. rewrite Hr, Ee. reflexivity. }
      split.
      * intros [r (H1 & H2 & H3 & H4)]. rewrite (HFo r H3) in H4. exists x'. split; [exists r; auto | reflexivity].
      * intros [x [[r (H1 & H2 & H3 & H4)] ->]]. exists r. rewrite (HFo r H3). auto.
  - rewrite tab_set_tab, Nat.eqb_refl. exact HT.
  - intros e He. rewrite tab_set_tab. apply Nat.eqb_neq in He. rewrite He. reflexivity.
  - intros x Hx. apply rho_ids, Hx.
Qed.

(* the hypotheses are satisfiable on a non-trivial state: a line group, a switch group (index based) and a name based load
   group; line 5 carries the line switches 5 and 9 *)
Definition s_ex : st :=
  {| grp := [{| gid := 0; gty := ET_LINE; gmem := [5; 3]; grc := RNone |};
             {| gid := 0; gty := ET_SWITCH; gmem := [5; 9; 20]; grc := RNaN |};
             {| gid := 1; gty := ET_SWITCH; gmem := [9]; grc := RNaN |};
             {| gid := 1; gty := 0%nat; gmem := [1]; grc := RName |}];
     tab := mk_tab [[(4, 0); (2, 1); (7, 2)]; []; [(5, 0); (3, 1)]; [(5, 0); (9, 1); (20, 2)]];
     lsw := [(5, 5); (9, 5)] |}.
