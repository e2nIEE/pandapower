(* C27 — membership lemmas for the Z-list operations of the group table (zin, zinsert, zuniq, zdiff), the row selector of
   detach, and two witness states *)
From Coq Require Import ZArith List Bool.
From PPV Require Import C27.Model.
Import ListNotations.
Open Scope Z_scope.

Lemma zin_true x l : zin x l = true <-> In x l.
Proof.
  unfold zin. rewrite existsb_exists. split.
  - intros [y [H1 H2]]. apply Z.eqb_eq in H2. subst. exact H1.
  - intros H. exists x. split; [exact H | apply Z.eqb_refl].
Qed.
Lemma zin_false x l : zin x l = false <-> ~ In x l.
Proof. rewrite <- zin_true. destruct (zin x l); split; congruence. Qed.
Lemma in_zinsert x y l : In x (zinsert y l) <-> x = y \/ In x l.
Proof.
  induction l as [|z t IH]; simpl; [intuition|].
  destruct (y <? z); simpl; [intuition|]. destruct (y =? z) eqn:E; simpl.
  - apply Z.eqb_eq in E. intuition.
  - rewrite IH. intuition.
Qed.
Lemma in_zsort_uniq x l : In x (zsort_uniq l) <-> In x l.
Proof. induction l as [|y t IH]; simpl; [tauto|]. unfold zsort_uniq in *. rewrite in_zinsert, IH. intuition. Qed.
Lemma in_zuniq x seen l : In x (zuniq seen l) <-> In x l /\ ~ In x seen.
Proof.
  revert seen. induction l as [|y t IH]; intros seen; simpl; [tauto|].
  destruct (zin y seen) eqn:E.
  - apply zin_true in E. rewrite IH. split; [tauto|]. intros [[H|H] Hn]; [subst; contradiction | tauto].
  - apply zin_false in E. simpl. rewrite IH. simpl. split.
    + intros [H|[H1 H2]]; [subst; tauto | tauto].
    + intros [[H|H] Hn]; [left; exact H|]. destruct (Z.eq_dec y x); [left; exact e | right; split; [exact H|]; intros [?|?]; tauto].
Qed.
(* pd.Index(l).difference(d) is the set difference *)
Lemma in_zdiff x l d : In x (zdiff l d) <-> In x l /\ ~ In x d.
Proof.
  unfold zdiff. destruct d as [|d0 d'].
  - rewrite in_zuniq. tauto.
  - rewrite in_zsort_uniq, filter_In, negb_true_iff, zin_false. tauto.
Qed.

Definition sel (g : Z) (et : nat) (r : grow) : bool := (gid r =? g) && Nat.eqb (gty r) et.
Lemma sel_other g et g' et' r : (g', et') <> (g, et) -> sel g et r = true -> sel g' et' r = false.
Proof.
  unfold sel. intros Hne H. apply andb_true_iff in H. destruct H as [H1 H2]. apply Z.eqb_eq in H1. apply Nat.eqb_eq in H2.
  destruct (gid r =? g') eqn:E1; [|reflexivity]. destruct (Nat.eqb (gty r) et') eqn:E2; [|reflexivity].
  apply Z.eqb_eq in E1. apply Nat.eqb_eq in E2. exfalso. apply Hne. congruence.
Qed.

Definition targeted (et : nat) (sl : option (list Z)) (r : grow) : bool :=
  Nat.eqb (gty r) et && match sl with None => true | Some l => zin (gid r) l end.
(* a group row whose reference_column is NaN: attach_old corrupts it, attach handles it like any index based row *)
Definition s_w1_ : st :=
  {| grp := [{| gid := 0; gty := 0%nat; gmem := [4]; grc := RNone |}; {| gid := 1; gty := 0%nat; gmem := [7]; grc := RNaN |}];
     tab := mk_tab [[(4, 0); (7, 1); (2, 2)]]; lsw := [] |}.
(* two loads (4 and 2) carry the same name 0; the group is {name 0}; detaching load 4 also removes load 2 *)
Definition s_w2 : st :=
  {| grp := [{| gid := 0; gty := 0%nat; gmem := [0; 1]; grc := RName |}]; tab := mk_tab [[(4, 0); (2, 0); (7, 1)]]; lsw := [] |}.
