(* C29 — the relay's stage times against the user's settings per switch id (model: C29/Grading.v) *)
From Coq Require Import QArith List String Lia.
From PPV Require Import Base.Lists C29.Grading.
Import ListNotations.
Open Scope Q_scope.

(* for the switch ids of a literal table: the standard nodup leaves the list as it is *)
Lemma NoDup_by_nodup (l : list Z) : nodup Z.eq_dec l = l -> NoDup l.
Proof. intros <-. apply NoDup_nodup. Qed.

Lemma filter_key_unique {A} (k : A -> Z) (l : list A) : forall r, NoDup (map k l) -> In r l ->
  filter (fun x => Z.eqb (k x) (k r)) l = [r].
Proof.
  induction l as [|x l IH]; intros r Hn Hr; [destruct Hr|].
  simpl in Hn. inversion Hn as [|? ? Hx Hn']; subst. simpl.
  destruct Hr as [<-|Hr].
  - rewrite Z.eqb_refl. f_equal. apply filter_none.
    intros y Hy. apply Z.eqb_neq. intros E. apply Hx. rewrite <- E. apply in_map. exact Hy.
  - assert (N : Z.eqb (k x) (k r) = false).
    { apply Z.eqb_neq. intros E. apply Hx. rewrite E. apply in_map. exact Hr. }
    rewrite N. apply IH; assumption.
Qed.

Definition frame_row (r : trow) : prow := {| p_lbl := lbl r; p_sid := sid r; p_tg := c2 r; p_tgg := c1 r |}.

Lemma frame_table c rows : c = ColsDtoc \/ c = ColsIdmt -> grading_frame c rows = map frame_row rows.
Proof. intros [->| ->]; reflexivity. Qed.

Lemma by_sid_frame rows r : NoDup (map sid rows) -> In r rows -> by_sid (map frame_row rows) (sid r) = [frame_row r].
Proof.
  intros Hn Hr. unfold by_sid. rewrite filter_map_comm. simpl.
  rewrite (filter_key_unique sid rows r Hn Hr). reflexivity.
Qed.
Lemma by_label_frame rows r : G29_frame_labels rows = true -> NoDup (map sid rows) -> In r rows ->
  by_label (map frame_row rows) (sid r) = [frame_row r].
Proof.
  intros G Hn Hr. unfold by_label. rewrite filter_map_comm.
  rewrite (filter_ext_in (fun x => Z.eqb (lbl x) (sid r)) (fun x => Z.eqb (sid x) (sid r))).
  - rewrite (filter_key_unique sid rows r Hn Hr). reflexivity.
  - intros x Hx. unfold G29_frame_labels in G. rewrite forallb_forall in G. specialize (G x Hx).
    apply Z.eqb_eq in G. rewrite G. reflexivity.
Qed.

(* manual pick-up currents: read by position; equal to the user's row of the switch id when the rows are 0..n-1 in order *)
Lemma zseq_nth n : forall k i, (i < n)%nat -> nth_error (zseq k n) i = Some (k + Z.of_nat i)%Z.
Proof.
  induction n as [|n IH]; intros k i Hi; [lia|]. destruct i as [|i]; simpl.
  - f_equal. lia.
  - rewrite IH by lia. f_equal. lia.
Qed.
Lemma zlist_eqb_eq a : forall b, zlist_eqb a b = true -> a = b.
Proof.
  unfold zlist_eqb. induction a as [|x a IH]; intros [|y b] H; simpl in *; try reflexivity; try discriminate.
  apply andb_true_iff in H. destruct H as [H1 H2]. apply andb_true_iff in H2. destruct H2 as [H2 H3].
  apply Z.eqb_eq in H2. subst y. f_equal. apply IH. rewrite H1, H3. reflexivity.
Qed.
(* every row of the table carries the user's t>> (or tms) *)
Lemma switch_rows_tgg m a cl : forall r, switch_rows m a cl = Ok r -> Forall (fun x => snd x = a) r.
Proof.
  induction cl as [|[sw el] t IH]; intros r H; simpl in H.
  - inversion H. constructor.
  - destruct (get m el) as [tg|]; [|discriminate].
    destruct (switch_rows m a t) as [r'|] eqn:E; [|discriminate]. inversion H. subst r.
    constructor; [reflexivity | apply IH; reflexivity].
Qed.
Lemma insert_sid_forall (P : Z * Q * Q -> Prop) r l : P r -> Forall P l -> Forall P (insert_sid r l).
Proof.
  intros Hr Hl. induction Hl as [|q t Hq Ht IH]; simpl; [constructor; [exact Hr | constructor]|].
  destruct (Z.ltb (fst (fst r)) (fst (fst q))); constructor; try assumption. constructor; assumption.
Qed.
Lemma sort_sid_forall (P : Z * Q * Q -> Prop) l : Forall P l -> Forall P (sort_sid l).
Proof.
  unfold sort_sid. intros H.
  assert (G : forall acc, Forall P acc -> Forall P (fold_left (fun acc r => insert_sid r acc) l acc)).
  { induction H as [|x l Hx Hl IH]; intros acc Ha; simpl; [exact Ha|]. apply IH. apply insert_sid_forall; assumption. }
  apply G. constructor.
Qed.
Lemma relabel_tgg a l : forall k, Forall (fun x => snd x = a) l -> Forall (fun r => p_tgg r = a) (relabel k l).
Proof.
  induction l as [|[[sw tg] tgg] t IH]; intros k H; simpl; [constructor|].
  inversion H as [|? ? H1 H2]. constructor; [exact H1 | apply IH; exact H2].
Qed.
(* the two-element form [tms; t_grade] is the three-element form with t_grade repeated *)
Lemma grading_list_two g a b : grading_list g [a; b] = grading_list g [a; b; b].
Proof. reflexivity. Qed.
(* what a successful list-form call returns: one row per closed switch, sorted by switch id and relabelled by position *)
Lemma grading_list_rows g a b c tab : grading_list g [a; b; c] = Ok tab ->
  exists rows, switch_rows (line_time g b c) a (closed g) = Ok rows /\ tab = relabel 0 (sort_sid rows).
Proof.
  unfold grading_list. destruct (paths g); [discriminate|]. destruct (closed g) as [|x cl]; [discriminate|].
  destruct (switch_rows (line_time g b c) a (x :: cl)) as [r|]; [|discriminate]. intros H. inversion H. eauto.
Qed.
Lemma grading_list_tgg g a b c tab : grading_list g [a; b; c] = Ok tab -> Forall (fun r => p_tgg r = a) tab.
Proof.
  intros E. destruct (grading_list_rows g a b c tab E) as (rows & SR & ->).
  apply relabel_tgg. apply sort_sid_forall. apply (switch_rows_tgg _ _ _ _ SR).
Qed.
Lemma setting_at_in f rows s v : setting_at f rows s = Ok v -> exists r, In r rows /\ p_sid r = s /\ v = f r.
Proof.
  unfold setting_at. destruct (by_sid rows s) as [|r [|? ?]] eqn:F; try discriminate.
  intros H. inversion H. exists r.
  assert (I : In r (by_sid rows s)) by (rewrite F; left; reflexivity).
  apply filter_In in I. destruct I as [I1 I2]. apply Z.eqb_eq in I2. auto.
Qed.
Lemma series_at_in f rows s v : series_at f rows s = Ok v -> exists r, In r rows /\ p_lbl r = s /\ v = f r.
Proof.
  unfold series_at. destruct (by_label rows s) as [|r [|? ?]] eqn:F; try discriminate.
  intros H. inversion H. exists r.
  assert (I : In r (by_label rows s)) by (rewrite F; left; reflexivity).
  apply filter_In in I. destruct I as [I1 I2]. apply Z.eqb_eq in I2. auto.
Qed.

(* every t>> (or tms) the relay can read from a list-form table is the user's first value *)
Lemma lookup_tgg g a b c tab s v : grading_list g [a; b; c] = Ok tab -> setting_at p_tgg tab s = Ok v -> v = a.
Proof.
  intros E E2. destruct (setting_at_in _ _ _ _ E2) as (r & Hr & _ & ->).
  pose proof (grading_list_tgg g a b c tab E) as F. rewrite Forall_forall in F. exact (F r Hr).
Qed.

(* the table is labelled by position after sort_values/reset_index: the relay of switch s reads the row of the switch with the
   s-th smallest id among the closed switches *)
Lemma by_label_later l : forall k s, (s < k)%Z -> by_label (relabel k l) s = [].
Proof.
  induction l as [|[[a b] c] l IH]; intros k s H; simpl; [reflexivity|].
  assert (E : Z.eqb k s = false) by (apply Z.eqb_neq; lia). rewrite E. apply IH. lia.
Qed.
Lemma by_label_relabel l : forall k s, (k <= s)%Z ->
  by_label (relabel k l) s =
  match nth_error l (Z.to_nat (s - k)) with
  | Some (sw, tg, tgg) => [{| p_lbl := s; p_sid := sw; p_tg := tg; p_tgg := tgg |}]
  | None => []
  end.
Proof.
  induction l as [|[[sw tg] tgg] t IH]; intros k s Hk; simpl.
  - destruct (Z.to_nat (s - k)); reflexivity.
  - destruct (Z.eqb k s) eqn:E.
    + apply Z.eqb_eq in E. subst k. replace (s - s)%Z with 0%Z by lia.
      rewrite by_label_later by lia. reflexivity.
    + apply Z.eqb_neq in E. rewrite IH by lia.
      replace (Z.to_nat (s - k)) with (S (Z.to_nat (s - (k + 1)))) by lia. reflexivity.
Qed.

(* list form, relay_times_old: the relay of switch s holds the table row at POSITION s *)
Lemma old_reads_position g a b c s l : grading_list g [a; b; c] = Ok (relabel 0 l) -> (0 <= s)%Z ->
  relay_times_old DTOC g (TList [a; b; c]) s =
  match nth_error l (Z.to_nat s) with
  | Some (_, tg, tgg) => Ok {| r_tg := Some tg; r_tgg := Some tgg; r_tms := None; r_tgrade := None |}
  | None => Raise "KeyError"
  end.
Proof.
  intros E Hs. unfold relay_times_old, relay_times_with, time_grading. rewrite E. simpl bind.
  unfold series_at. rewrite (by_label_relabel l 0 s Hs). replace (s - 0)%Z with s by lia.
  destruct (nth_error l (Z.to_nat s)) as [[[sw tg] tgg]|]; reflexivity.
Qed.
Theorem list_old_reads_position g a b c s tab : grading_list g [a; b; c] = Ok tab -> (0 <= s)%Z ->
  exists l, tab = relabel 0 l /\
    relay_times_old DTOC g (TList [a; b; c]) s =
    match nth_error l (Z.to_nat s) with
    | Some (_, tg, tgg) => Ok {| r_tg := Some tg; r_tgg := Some tgg; r_tms := None; r_tgrade := None |}
    | None => Raise "KeyError"
    end.
Proof.
  intros E Hs. destruct (grading_list_rows g a b c tab E) as (rows & _ & ->).
  exists (sort_sid rows). split; [reflexivity | apply old_reads_position; assumption].
Qed.
