(* C29 — the IDMT curve over the reals: t(i) = c / ((i / I_s) ^ alpha - 1) + t_grade is antitone in the current for
   i > I_s > 0, alpha > 0, c = tms * k >= 0, and (i / I_s) ^ alpha > 1 there.  Rpw_gt1 / Rpw_mono are the hypotheses
   pw_gt1 / pw_mono of C29.Proofs.Power for the true power function.  Uses Reals (standard axioms). *)
From Coq Require Import Reals Lra.
Open Scope R_scope.

Definition pw (Is alpha i : R) : R := Rpower (i / Is) alpha.
Definition idmt_curve (Is alpha c tg i : R) : R := c / (pw Is alpha i - 1) + tg.

Lemma ratio_gt1 Is i : 0 < Is -> Is < i -> 1 < i / Is.
Proof.
  intros H1 H2. unfold Rdiv. apply Rmult_lt_reg_r with Is; [exact H1|].
  rewrite Rmult_assoc, Rinv_l, Rmult_1_r, Rmult_1_l; [exact H2 | lra].
Qed.

Lemma Rpw_gt1 Is alpha i : 0 < Is -> 0 < alpha -> Is < i -> 1 < pw Is alpha i.
Proof.
  intros H1 Ha H2. unfold pw. pose proof (ratio_gt1 Is i H1 H2) as Hr.
  rewrite <- (Rpower_O (i / Is)); [|lra].
  apply Rpower_lt; assumption.
Qed.

Lemma Rpw_mono Is alpha i1 i2 : 0 < Is -> 0 < alpha -> Is < i1 -> i1 <= i2 -> pw Is alpha i1 <= pw Is alpha i2.
Proof.
  intros H1 Ha H2 H3. unfold pw.
  apply Rle_Rpower_l; [lra|]. split.
  - pose proof (ratio_gt1 Is i1 H1 H2). lra.
  - unfold Rdiv. apply Rmult_le_compat_r; [left; apply Rinv_0_lt_compat; exact H1 | exact H3].
Qed.

Lemma idmt_antitone_R Is alpha c tg i1 i2 :
  0 < Is -> 0 < alpha -> 0 <= c -> Is < i1 -> i1 <= i2 ->
  idmt_curve Is alpha c tg i2 <= idmt_curve Is alpha c tg i1.
Proof.
  intros H1 Ha Hc H2 H3. unfold idmt_curve.
  pose proof (Rpw_gt1 Is alpha i1 H1 Ha H2) as G1.
  assert (H2' : Is < i2) by lra.
  pose proof (Rpw_gt1 Is alpha i2 H1 Ha H2') as G2.
  pose proof (Rpw_mono Is alpha i1 i2 H1 Ha H2 H3) as M.
  apply Rplus_le_compat_r. unfold Rdiv. apply Rmult_le_compat_l; [exact Hc|].
  apply Rinv_le_contravar; lra.
Qed.

(* the trip time is positive and above the grading delay *)
Lemma idmt_ge_grade Is alpha c tg i : 0 < Is -> 0 < alpha -> 0 <= c -> Is < i -> tg <= idmt_curve Is alpha c tg i.
Proof.
  intros H1 Ha Hc H2. unfold idmt_curve. pose proof (Rpw_gt1 Is alpha i H1 Ha H2) as G.
  assert (0 <= c / (pw Is alpha i - 1)).
  { unfold Rdiv. apply Rmult_le_pos; [exact Hc | left; apply Rinv_0_lt_compat; lra]. }
  lra.
Qed.
