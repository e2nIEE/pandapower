(* C29 — the fuse melting curve is a LogSplineCharacteristic(interpolator_kind="Pchip") over the points (x_values, y_values)
   (fuse.py:70-79: i_start_a = min(x_values), i_stop_a = max(x_values)).  With the whole-curve theorem of C32 (C32/Whole.v) the
   hypotheses of Proofs.fuse_antitone (curve non-increasing and non-negative on [i_start, i_stop]) are THEOREMS for
   monotone characteristic data; log10 / 10** enter only through their order contract. *)
From Coq Require Import QArith List Lqa.
From PPV Require Import C32.Model C32.Whole C29.Model C29.Proofs.
Import ListNotations.
Open Scope Q_scope.

Section FusePchip.
  Variable lg pw : Q -> Q.                         (* log10 and 10** *)
  Hypothesis pw_lg : forall y, 0 < y -> pw (lg y) == y.
  Hypothesis pw_mono : forall a b, a <= b -> pw a <= pw b.
  Hypothesis lg_mono : forall a b, 0 < a -> a <= b -> lg a <= lg b.
  Hypothesis lg_strict : forall a b, 0 < a -> a < b -> lg a < lg b.

  (* c(i_ka * 1000) as protection_function evaluates it; None never occurs for two or more points (theorem below) *)
  Definition melt (l : list pt) (i : Q) : Q := match logspline lg pw l i with Some v => v | None => 0 end.

  Variable a : pt.
  Variable t : list pt.
  Hypothesis two_points : t <> [].
  Hypothesis Hpos : positive (a :: t).             (* currents and times are positive (log-log data) *)
  Hypothesis Hsorted : sorted (a :: t).            (* currents strictly increasing *)
  Hypothesis Hmono : nonincreasing (a :: t).       (* melting times non-increasing: the monotone characteristic data *)

  Lemma melt_antitone x x' : fst a <= x -> x <= x' -> x' <= fst (last t a) -> melt (a :: t) x' <= melt (a :: t) x.
  Proof.
    intros X1 X2 X3.
    destruct (logspline_noninc_monotone lg pw pw_mono lg_mono lg_strict a t x x' two_points Hpos Hsorted Hmono X1 X2 X3)
      as (v & v' & E & E' & L).
    unfold melt. rewrite E, E'. exact L.
  Qed.
  Lemma melt_nonneg x : fst a <= x -> x <= fst (last t a) -> 0 <= melt (a :: t) x.
  Proof.
    intros X1 X2.
    destruct (logspline_noninc_bounds lg pw pw_lg pw_mono lg_mono lg_strict a t x two_points Hpos Hsorted Hmono X1 X2)
      as (v & E & L1 & L2).
    unfold melt. rewrite E.
    destruct (Hpos (last t a) (last_in t a)) as [_ Py]. lra.
  Qed.
  Lemma melt_defined x : fst a <= x -> x <= fst (last t a) -> exists v, logspline lg pw (a :: t) x = Some v /\ snd (last t a) <= v /\ v <= snd a.
  Proof.
    intros X1 X2. exact (logspline_noninc_bounds lg pw pw_lg pw_mono lg_mono lg_strict a t x two_points Hpos Hsorted Hmono X1 X2).
  Qed.

  (* the melt time reported by Fuse.protection_function is non-increasing in the switch current over the whole axis *)
  Theorem fuse_pchip_antitone i1 i2 : i1 <= i2 ->
    tle (ttime (fuse_at (fst a) (fst (last t a)) (melt (a :: t)) i2)) (ttime (fuse_at (fst a) (fst (last t a)) (melt (a :: t)) i1)).
  Proof.
    apply fuse_antitone.
    - intros x x' X1 X2 X3. apply melt_antitone; assumption.
    - intros x X1 X2. apply melt_nonneg; assumption.
  Qed.
End FusePchip.
