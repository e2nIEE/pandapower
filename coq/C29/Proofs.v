(* C29 — trip decision and trip time of DTOC / IDMT relays and of fuses are antitone in the current; the power
   (i/Is)^alpha of the IDMT curve enters through the two hypotheses of Section Power *)
From Coq Require Import QArith List Lqa.
From PPV Require Import Base.QN C29.Model.
Import ListNotations.
Open Scope Q_scope.

Lemma fgt_s x b : fgt (Some x) b = true <-> b < x. Proof. cbn. apply qltb_lt. Qed.
Lemma fgt_f x b : fgt (Some x) b = false <-> x <= b. Proof. cbn. apply qltb_ge. Qed.
Lemma flt_s x b : flt (Some x) b = true <-> x < b. Proof. cbn. apply qltb_lt. Qed.
Lemma flt_f x b : flt (Some x) b = false <-> b <= x. Proof. cbn. apply qltb_ge. Qed.
Lemma fle_s x b : fle (Some x) b = true <-> x <= b. Proof. cbn. apply qleb_le. Qed.
Lemma fle_f x b : fle (Some x) b = false <-> b < x.
Proof.
  cbn. split; intros H.
  - destruct (Qlt_le_dec b x) as [Y|Y]; [exact Y|]. apply qleb_le in Y. congruence.
  - destruct (qleb x b) eqn:E; [|reflexivity]. apply qleb_le in E. lra.
Qed.

Lemma tle_refl t : tle t t.
Proof. destruct t; cbn; [exact I | apply Qle_refl]. Qed.
Lemma tle_inf t : tle t TInf.
Proof. destruct t; exact I. Qed.
Lemma tle_trans a b c : tle a b -> tle b c -> tle a c.
Proof. destruct a, b, c; cbn; try tauto. intros; lra. Qed.

(* which branch of the sequential tests a (non-NaN) current takes, by the interval it lies in *)
Lemma dtoc_region s i :
  (I_gg s < i /\ dtoc s (Some i) = {| tripped := true; ttime := TFin (t_gg s) |}) \/
  (i <= I_gg s /\ I_g s < i /\ dtoc s (Some i) = {| tripped := true; ttime := TFin (t_g s) |}) \/
  (i <= I_gg s /\ i <= I_g s /\ dtoc s (Some i) = {| tripped := false; ttime := TInf |}).
Proof.
  unfold dtoc.
  destruct (fgt (Some i) (I_gg s)) eqn:A; [apply fgt_s in A; auto | apply fgt_f in A].
  destruct (fgt (Some i) (I_g s)) eqn:B; [apply fgt_s in B | apply fgt_f in B]; auto 6.
Qed.
Lemma idmt_region s p i :
  (I_s s < i /\ idmt s p (Some i) = {| tripped := true; ttime := idmt_time s p |}) \/
  (i <= I_s s /\ idmt s p (Some i) = {| tripped := false; ttime := TInf |}).
Proof. unfold idmt. destruct (fgt (Some i) (I_s s)) eqn:A; [apply fgt_s in A | apply fgt_f in A]; auto. Qed.
Lemma idtoc_region d s p i :
  (I_gg d < i /\ idtoc d s p (Some i) = {| tripped := true; ttime := TFin (t_gg d) |}) \/
  (i <= I_gg d /\ I_g d < i /\ idtoc d s p (Some i) = {| tripped := true; ttime := TFin (t_g d) |}) \/
  (i <= I_gg d /\ i <= I_g d /\ I_s s < i /\ idtoc d s p (Some i) = {| tripped := true; ttime := idmt_time s p |}) \/
  (i <= I_gg d /\ i <= I_g d /\ i <= I_s s /\ idtoc d s p (Some i) = {| tripped := false; ttime := TInf |}).
Proof.
  unfold idtoc.
  destruct (fgt (Some i) (I_gg d)) eqn:A; [apply fgt_s in A; auto | apply fgt_f in A].
  destruct (fgt (Some i) (I_g d)) eqn:B; [apply fgt_s in B; auto 6 | apply fgt_f in B].
  destruct (fgt (Some i) (I_s s)) eqn:C; [apply fgt_s in C | apply fgt_f in C]; auto 8.
Qed.
(* the fuse compares the current in A *)
Lemma fuse_region i_start i_stop cv i :
  (i * 1000 < i_start /\ fuse i_start i_stop cv (Some i) = {| tripped := false; ttime := TInf |}) \/
  (i_start <= i * 1000 /\ i * 1000 <= i_stop /\ fuse i_start i_stop cv (Some i) = {| tripped := true; ttime := TFin cv |}) \/
  (i_start <= i * 1000 /\ i_stop < i * 1000 /\ fuse i_start i_stop cv (Some i) = {| tripped := true; ttime := TFin 0 |}).
Proof.
  unfold fuse. cbn [orb].
  destruct (flt (Some (qmul i 1000)) i_start) eqn:A; [apply flt_s in A | apply flt_f in A].
  { left. qnorm. auto. }
  destruct (fle (Some (qmul i 1000)) i_stop) eqn:B; [apply fle_s in B | apply fle_f in B]; qnorm; auto 6.
Qed.

Lemma dtoc_nan s : dtoc s None = {| tripped := false; ttime := TInf |}.
Proof. reflexivity. Qed.

Lemma div_antitone a d1 d2 : 0 <= a -> 0 < d1 -> d1 <= d2 -> a / d2 <= a / d1.
Proof.
  intros Ha H1 H2.
  assert (H2' : 0 < d2) by lra.
  apply Qle_shift_div_l; [exact H1|].
  assert (E : a / d2 * d1 == a * (d1 / d2)) by (field; lra).
  rewrite E.
  assert (d1 / d2 <= 1) by (apply Qle_shift_div_r; [exact H2' | lra]).
  assert (0 <= d1 / d2) by (apply Qle_shift_div_l; [exact H2' | lra]).
  nra.
Qed.

Lemma idmt_time_antitone s pw1 pw2 :
  0 <= tms s * kk s -> 1 < pw1 -> pw1 <= pw2 -> tle (idmt_time s pw2) (idmt_time s pw1).
Proof.
  intros Ha H1 H2. unfold idmt_time.
  assert (N1 : qeqb pw1 1 = false) by (destruct (qeqb pw1 1) eqn:E; [apply qeqb_eq in E; lra | reflexivity]).
  assert (N2 : qeqb pw2 1 = false) by (destruct (qeqb pw2 1) eqn:E; [apply qeqb_eq in E; lra | reflexivity]).
  rewrite N1, N2. unfold tle. qnorm.
  assert (D1 : 0 < pw1 - 1) by lra. assert (D2 : pw1 - 1 <= pw2 - 1) by lra.
  pose proof (div_antitone (tms s * kk s) (pw1 - 1) (pw2 - 1) Ha D1 D2) as D.
  apply Qplus_le_compat; [exact D | apply Qle_refl].
Qed.

Section Power.
  (* the oracle for (i_ka / I_s) ** alpha as a function of the current; hypotheses = what IdmtReal proves about Rpower *)
  Variable s : idmt_set.
  Variable pw : Q -> Q.
  Hypothesis pw_gt1 : forall i, I_s s < i -> 1 < pw i.
  Hypothesis pw_mono : forall i1 i2, I_s s < i1 -> i1 <= i2 -> pw i1 <= pw i2.
  Hypothesis gain_nonneg : 0 <= tms s * kk s.

  Lemma idmt_antitone i1 i2 : i1 <= i2 ->
    tle (ttime (idmt s (pw i2) (Some i2))) (ttime (idmt s (pw i1) (Some i1))).
  Proof.
    intros H.
    destruct (idmt_region s (pw i1) i1) as [(A1 & ->) | (A1 & ->)]; cbn [ttime]; [|apply tle_inf].
    destruct (idmt_region s (pw i2) i2) as [(A2 & ->) | (A2 & _)]; [|lra].
    apply idmt_time_antitone; [exact gain_nonneg | apply pw_gt1; exact A1 | apply pw_mono; assumption].
  Qed.

  (* IDTOC under consistent grading: I_s <= I_g <= I_gg, t_gg <= t_g, and the inverse curve at I_g is not below t_g *)
  Variable d : dtoc_set.
  Hypothesis g1 : I_s s <= I_g d.
  Hypothesis g2 : I_g d <= I_gg d.
  Hypothesis g3 : t_gg d <= t_g d.
  Hypothesis g4 : I_s s < I_g d -> tle (TFin (t_g d)) (idmt_time s (pw (I_g d))).

  (* on the inverse curve, that is for I_s < i <= I>, the time is not below t> *)
  Lemma curve_above_stage i : I_s s < i -> i <= I_g d -> tle (TFin (t_g d)) (idmt_time s (pw i)).
  Proof.
    intros C B. eapply tle_trans; [apply g4; lra|].
    apply idmt_time_antitone; [exact gain_nonneg | apply pw_gt1; exact C | apply pw_mono; assumption].
  Qed.

  (* the tests are sequential, so the regions come in order whatever I> and I>> are: g1 and g2 belong to the statement
     of consistent grading, the proof does not use them *)
  Lemma idtoc_antitone i1 i2 : i1 <= i2 ->
    tle (ttime (idtoc d s (pw i2) (Some i2))) (ttime (idtoc d s (pw i1) (Some i1))).
  Proof using pw_gt1 pw_mono gain_nonneg g1 g2 g3 g4.
    intros H.
    destruct (idtoc_region d s (pw i1) i1) as [(A1 & ->) | [(A1 & B1 & ->) | [(A1 & B1 & C1 & ->) | (A1 & B1 & C1 & ->)]]];
      cbn [ttime].
    - (* i1 in the t>> stage: so is i2 *)
      destruct (idtoc_region d s (pw i2) i2) as [(A2 & ->) | [(A2 & _) | [(A2 & _) | (A2 & _)]]];
        [apply tle_refl | lra | lra | lra].
    - (* i1 in the t> stage: i2 there or in the t>> stage *)
      destruct (idtoc_region d s (pw i2) i2) as [(A2 & ->) | [(A2 & B2 & ->) | [(_ & B2 & _) | (_ & B2 & _)]]];
        [exact g3 | apply tle_refl | lra | lra].
    - (* i1 on the inverse curve, where the time is at least t> >= t>>: i2 further down the curve or in a stage *)
      pose proof (curve_above_stage i1 C1 B1) as K.
      destruct (idtoc_region d s (pw i2) i2) as [(A2 & ->) | [(A2 & B2 & ->) | [(A2 & B2 & C2 & ->) | (_ & _ & C2 & _)]]];
        cbn [ttime].
      + exact (tle_trans (TFin (t_gg d)) (TFin (t_g d)) _ g3 K).
      + exact K.
      + apply idmt_time_antitone; [exact gain_nonneg | apply pw_gt1; exact C1 | apply pw_mono; assumption].
      + lra.
    - apply tle_inf.
  Qed.

End Power.

Section Fuse.
  Variables i_start i_stop : Q.
  Variable c : Q -> Q.            (* melting curve (seconds) as a function of the current in A *)
  Hypothesis c_antitone : forall a b, i_start <= a -> a <= b -> b <= i_stop -> c b <= c a.
  Hypothesis c_nonneg : forall a, i_start <= a -> a <= i_stop -> 0 <= c a.

  Definition fuse_at (i : Q) : res := fuse i_start i_stop (c (i * 1000)) (Some i).

  Lemma fuse_antitone i1 i2 : i1 <= i2 -> tle (ttime (fuse_at i2)) (ttime (fuse_at i1)).
  Proof.
    intros H. unfold fuse_at.
    destruct (fuse_region i_start i_stop (c (i1 * 1000)) i1) as [(A1 & ->) | [(A1 & B1 & ->) | (A1 & B1 & ->)]]; cbn [ttime].
    - apply tle_inf.
    - (* i1 on the curve: i2 on it too, or above i_stop with time 0 *)
      destruct (fuse_region i_start i_stop (c (i2 * 1000)) i2) as [(A2 & _) | [(A2 & B2 & ->) | (A2 & B2 & ->)]]; cbn.
      + lra.
      + apply c_antitone; lra.
      + apply c_nonneg; lra.
    - (* i1 above i_stop: so is i2 *)
      destruct (fuse_region i_start i_stop (c (i2 * 1000)) i2) as [(A2 & _) | [(_ & B2 & _) | (_ & _ & ->)]];
        [lra | lra | apply tle_refl].
  Qed.

  Lemma fuse_trip_iff cv i : tripped (fuse i_start i_stop cv (Some i)) = true <-> i_start <= i * 1000.
  Proof.
    destruct (fuse_region i_start i_stop cv i) as [(A & ->) | [(A & _ & ->) | (A & _ & ->)]]; cbn [tripped].
    - split; [discriminate | lra].
    - split; [intros _; exact A | reflexivity].
    - split; [intros _; exact A | reflexivity].
  Qed.
End Fuse.

Lemma fuse_nan i_start i_stop cv : fuse i_start i_stop cv None = {| tripped := false; ttime := TInf |}.
Proof. reflexivity. Qed.
(* fuse_old: a NaN current (no result row for the switch) melts the fuse at once *)
Lemma fuse_old_nan_trips i_start i_stop cv : fuse_old i_start i_stop cv None = {| tripped := true; ttime := TFin 0 |}.
Proof. reflexivity. Qed.
