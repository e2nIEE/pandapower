(* C29 — list form: what switch_rows / sort_sid / relabel preserve, for the positive statements of Properties/C29.v (the relay of
   switch s holds the stage time of ITS line: relay_times for every net with a unique switch index; relay_times_old, which
   reads the table by row position, only when the closed switches are exactly 0 .. n-1) *)
From Coq Require Import QArith List Lia Permutation.
From PPV Require Import C29.Grading.
Import ListNotations.
Open Scope Q_scope.

Definition key (r : Z * Q * Q) : Z := fst (fst r).
Definition strip (r : Z * Q * Q) : Z * Q * Q := (key r, 0, 0).

Lemma switch_rows_spec m a cl : forall r, switch_rows m a cl = Ok r ->
  map key r = map fst cl /\ (forall sw el v, In (sw, el) cl -> get m el = Some v -> In (sw, v, a) r).
Proof.
  induction cl as [|[sw el] t IH]; intros r H; simpl in H.
  - inversion H. split; [reflexivity | intros ? ? ? []].
  - destruct (get m el) as [tg|] eqn:G; [|discriminate].
    destruct (switch_rows m a t) as [r'|] eqn:E; [|discriminate]. inversion H. subst r.
    destruct (IH r' eq_refl) as [K I]. split; [simpl; rewrite K; reflexivity|].
    intros sw' el' v [X|X] Gv.
    + inversion X; subst. rewrite G in Gv. inversion Gv. left. reflexivity.
    + right. apply (I sw' el' v X Gv).
Qed.

Lemma insert_sid_strip r l : map strip (insert_sid r l) = insert_sid (strip r) (map strip l).
Proof.
  induction l as [|q t IH]; simpl; [reflexivity|].
  change (fst (fst (strip r))) with (key r). change (fst (fst (strip q))) with (key q). unfold key at 1 2.
  destruct (Z.ltb (fst (fst r)) (fst (fst q))); simpl; [reflexivity | rewrite IH; reflexivity].
Qed.
Lemma sort_sid_strip l : map strip (sort_sid l) = sort_sid (map strip l).
Proof.
  unfold sort_sid.
  assert (G : forall acc, map strip (fold_left (fun acc r => insert_sid r acc) l acc)
                          = fold_left (fun acc r => insert_sid r acc) (map strip l) (map strip acc)).
  { induction l as [|y l IH]; intros acc; simpl; [reflexivity|]. rewrite IH, insert_sid_strip. reflexivity. }
  apply (G []).
Qed.
Lemma map_key_strip l : map key (map strip l) = map key l.
Proof. rewrite map_map. apply map_ext. intros [[a b] c]. reflexivity. Qed.

Lemma zseq_in n : forall k x, In x (zseq k n) -> (k <= x < k + Z.of_nat n)%Z.
Proof. induction n as [|n IH]; intros k x H; simpl in H; [destruct H|]. destruct H as [<-|H]; [lia|]. apply IH in H. lia. Qed.
Lemma zseq_nodup n : forall k, NoDup (zseq k n).
Proof.
  induction n as [|n IH]; intros k; simpl; constructor; [|apply IH].
  intros H. apply zseq_in in H. lia.
Qed.
Lemma zseq_len n : forall k, List.length (zseq k n) = n.
Proof. induction n as [|n IH]; intros k; simpl; [reflexivity | rewrite IH; reflexivity]. Qed.
Lemma nodup_key_inj (l : list (Z * Q * Q)) x y : NoDup (map key l) -> In x l -> In y l -> key x = key y -> x = y.
Proof.
  induction l as [|z l IH]; intros Hn Hx Hy E; [destruct Hx|].
  simpl in Hn. inversion Hn as [|? ? Hz Hn']; subst.
  destruct Hx as [<-|Hx]; destruct Hy as [<-|Hy]; try reflexivity.
  - exfalso. apply Hz. rewrite E. apply in_map. exact Hy.
  - exfalso. apply Hz. rewrite <- E. apply in_map. exact Hx.
  - apply IH; assumption.
Qed.

Lemma insert_sid_perm r l : Permutation (insert_sid r l) (r :: l).
Proof.
  induction l as [|q t IH]; simpl; [apply Permutation_refl|].
  destruct (Z.ltb (fst (fst r)) (fst (fst q))); [apply Permutation_refl|].
  apply perm_trans with (q :: r :: t); [apply perm_skip; exact IH | apply perm_swap].
Qed.
Lemma sort_sid_perm l : Permutation (sort_sid l) l.
Proof.
  unfold sort_sid.
  assert (G : forall acc, Permutation (fold_left (fun acc r => insert_sid r acc) l acc) (l ++ acc)).
  { induction l as [|y l IH]; intros acc; simpl; [apply Permutation_refl|].
    apply perm_trans with (l ++ insert_sid y acc); [apply IH|].
    apply perm_trans with (l ++ y :: acc); [apply Permutation_app_head; apply insert_sid_perm|].
    apply Permutation_sym. apply Permutation_middle. }
  specialize (G []). rewrite app_nil_r in G. exact G.
Qed.
Lemma sort_sid_in l x : In x (sort_sid l) <-> In x l.
Proof. split; apply Permutation_in; [|apply Permutation_sym]; apply sort_sid_perm. Qed.
Lemma relabel_sid l : forall k, map p_sid (relabel k l) = map key l.
Proof. induction l as [|[[a b] c] l IH]; intros k; simpl; [reflexivity | rewrite IH; reflexivity]. Qed.
Lemma relabel_in l : forall k sw tg tgg, In (sw, tg, tgg) l ->
  exists k', In {| p_lbl := k'; p_sid := sw; p_tg := tg; p_tgg := tgg |} (relabel k l).
Proof.
  induction l as [|[[a b] c] l IH]; intros k sw tg tgg H; [destruct H|].
  destruct H as [E|H].
  - inversion E; subst. exists k. left. reflexivity.
  - destruct (IH (k + 1)%Z sw tg tgg H) as (k' & I). exists k'. right. exact I.
Qed.
