From Coq Require Import ZArith QArith List Bool String Lia.
From PPV Require Import Base.Lists Base.QN Base.Out C14.Model C14.Proofs C14.Write.
Import ListNotations.
Open Scope string_scope.

Lemma dget_dset d k v : dget (dset d k v) k = Some v.
Proof.
  induction d as [|[k' v'] d IH]; cbn.
  - rewrite String.eqb_refl. reflexivity.
  - destruct (String.eqb k' k) eqn:E; cbn.
    + rewrite String.eqb_refl. reflexivity.
    + rewrite E. exact IH.
Qed.

(* the N-1 loop leaves the in_service flags as they were and makes one evaluation per in-service outage *)
Lemma nm1_loop_inv ev lims outs : forall s,
  ls_ins (nm1_loop ev lims outs s) = ls_ins s /\
  ls_calls (nm1_loop ev lims outs s) = (ls_calls s + n_evals outs (ls_ins s))%nat.
Proof.
  induction outs as [|[c j] rest IH]; intros s; cbn [nm1_loop].
  - unfold n_evals. cbn. split; [reflexivity | lia].
  - unfold n_evals. cbn [filter snd]. destruct (nth j (ls_ins s) false) eqn:E; cbn [negb].
    + rewrite (set_nth_restore _ _ E).
      match goal with |- context [nm1_loop ev lims rest ?s'] => destruct (IH s') as [H1 H2] end.
      cbn [ls_ins ls_calls] in H1, H2.
      split; [exact H1|]. rewrite H2. unfold n_evals. cbn [List.length]. lia.
    + apply IH.
Qed.

Lemma n0_is_plain_pf ev lims outs tabs ins0 r :
  run_contingency_m ev lims outs tabs ins0 = Some r ->
  exists v0, ev (n_evals outs ins0) ins0 = Some v0 /\ r_ins r = ins0 /\
    forall i ts d, nth_error tabs i = Some ts -> nth_error (r_dicts r) i = Some d ->
      dget d (t_var ts) = Some (map ooq (slice (t_off ts) (t_len ts) v0)).
Proof.
  unfold run_contingency_m. destruct (nm1_loop_inv ev lims outs (ls0 ins0)) as [H1 H2].
  cbn [ls0 ls_ins ls_calls] in H1, H2. rewrite H1, H2. cbn [Nat.add].
  destruct (ev (n_evals outs ins0) ins0) as [v0|] eqn:E; [|discriminate].
  intros R. inversion R; subst r; clear R. cbn [r_ins r_dicts]. exists v0.
  split; [reflexivity|]. split; [reflexivity|].
  intros i ts d Hts Hd. rewrite (map_nth_error _ _ _ Hts) in Hd. inversion Hd; subst d.
  unfold result_dict. apply dget_dset.
Qed.

Lemma write_cons t kv d : write_table t (kv :: d) = write_table (write_step t kv) d.
Proof. reflexivity. Qed.

Lemma write_prefix d : forall t, exists ext, write_table t d = (t ++ ext)%list.
Proof.
  induction d as [|kv d IH]; intros t.
  - exists []. cbn. rewrite app_nil_r. reflexivity.
  - rewrite write_cons. unfold write_step. destruct (String.eqb (fst kv) "index" || has_col t (fst kv)).
    + apply IH.
    + destruct (IH (t ++ [kv])%list) as [e He]. exists (kv :: e). rewrite He, <- app_assoc. reflexivity.
Qed.

Lemma has_col_In t k : has_col t k = true <-> In k (map fst t).
Proof.
  unfold has_col. rewrite existsb_exists, in_map_iff.
  split; intros [kv [H1 H2]]; exists kv.
  - split; [apply String.eqb_eq; exact H2 | exact H1].
  - split; [exact H2 | apply String.eqb_eq; exact H1].
Qed.
Lemma has_col_app t e k : has_col (t ++ e)%list k = has_col t k || has_col e k.
Proof. unfold has_col. apply existsb_app. Qed.

Lemma tget_app t e k : tget (t ++ e)%list k = if has_col t k then tget t k else tget e k.
Proof.
  unfold tget. induction t as [|[k' v'] t IH]; cbn; [reflexivity|].
  destruct (String.eqb k' k); cbn; [reflexivity | exact IH].
Qed.

(* with distinct keys write_to_net appends the entries whose key is neither "index" nor a column already, in dict order *)
Lemma write_table_filter d : forall t, NoDup (map fst d) ->
  write_table t d =
  (t ++ filter (fun kv => negb (String.eqb (fst kv) "index") && negb (has_col t (fst kv))) d)%list.
Proof.
  induction d as [|[k v] d IH]; intros t ND.
  - cbn. rewrite app_nil_r. reflexivity.
  - inversion ND as [|? ? Hn ND']; subst. rewrite write_cons. unfold write_step. cbn [filter fst].
    rewrite <- negb_orb. destruct (String.eqb k "index" || has_col t k); cbn [negb]; [apply IH; exact ND'|].
    rewrite (IH _ ND'), <- app_assoc. cbn [app]. do 2 f_equal.
    (* the new column k hides no later key: the keys are distinct *)
    apply filter_ext_in. intros [k' v'] Hk'. cbn [fst]. rewrite has_col_app. unfold has_col at 2. cbn.
    assert (E : String.eqb k k' = false) by (apply String.eqb_neq; intros ->; apply Hn, (in_map fst _ _ Hk')).
    rewrite E, !orb_false_r. reflexivity.
Qed.

(* exactly the listed columns are appended, in dict order *)
Lemma write_columns d t : NoDup (map fst d) ->
  map fst (write_table t d) = (map fst t ++ listed t d)%list.
Proof.
  intros ND. rewrite (write_table_filter d t ND), map_app. f_equal.
  symmetry. apply filter_map_comm.
Qed.

Lemma dget_filter (p : string * list out -> bool) d k v :
  NoDup (map fst d) -> In (k, v) d -> p (k, v) = true -> dget (filter p d) k = Some v.
Proof.
  induction d as [|[k0 v0] d IH]; intros ND Hin Hp; [destruct Hin|].
  inversion ND as [|? ? Hn ND']; subst. cbn [filter]. destruct Hin as [Heq|Hin].
  - rewrite Heq, Hp. cbn. rewrite String.eqb_refl. reflexivity.
  - assert (Hne : String.eqb k0 k = false).
    { apply String.eqb_neq. intros ->. apply Hn. apply (in_map fst _ _ Hin). }
    destruct (p (k0, v0)); cbn [dget]; rewrite ?Hne; apply IH; assumption.
Qed.

Definition branch_keys : list string := ["causes_overloading"; "cause_element"; "cause_index"].
Lemma result_dict_keys ts cases n0 :
  t_var ts = "loading_percent" \/ t_var ts = "vm_pu" ->
  map fst (result_dict ts cases n0) =
  "index" :: ((if t_bus ts then [] else branch_keys) ++
   (match cases with [] => [] | _ :: _ => [("max_" ++ t_var ts)%string; ("min_" ++ t_var ts)%string] end) ++ [t_var ts])%list.
Proof.
  destruct ts as [bus ty var idx off]. cbn [t_var t_bus]. unfold result_dict. cbn [t_var t_bus t_index t_off t_type].
  intros [-> | ->]; destruct bus, cases; reflexivity.
Qed.
Lemma result_dict_keys_nodup ts cases n0 :
  t_var ts = "loading_percent" \/ t_var ts = "vm_pu" -> NoDup (map fst (result_dict ts cases n0)).
Proof.
  intros H. rewrite (result_dict_keys ts cases n0 H).
  (* eight closed lists of literal keys: removing duplicates changes none of them *)
  destruct H as [-> | ->]; destruct (t_bus ts), cases;
    match goal with |- NoDup ?l => change l with (nodup string_dec l) end; apply NoDup_nodup.
Qed.


(* the documented columns (docstring :54-58): a table that has the result variable as a column and none of the
   other keys gets exactly these keys as new columns, in dict order *)
Lemma written_columns ts cases n0 t :
  t_var ts = "loading_percent" \/ t_var ts = "vm_pu" -> has_col t (t_var ts) = true ->
  let ks := ((if t_bus ts then [] else branch_keys) ++
             match cases with [] => [] | _ :: _ => [("max_" ++ t_var ts)%string; ("min_" ++ t_var ts)%string] end)%list in
  (forall k, In k ks -> has_col t k = false) ->
  map fst (write_table t (result_dict ts cases n0)) = (map fst t ++ ks)%list.
Proof.
  intros Hv Hl ks Hno.
  rewrite write_columns by (apply result_dict_keys_nodup; exact Hv).
  f_equal. unfold listed. rewrite result_dict_keys by exact Hv.
  cbn [filter String.eqb Ascii.eqb Bool.eqb negb andb]. rewrite app_assoc, filter_app. fold ks. cbn [filter].
  rewrite Hl, andb_false_r, app_nil_r. apply filter_all. intros k Hk. rewrite (Hno k Hk), andb_true_r.
  (* no key is "index": every one differs from it in the first character *)
  unfold ks in Hk. destruct (t_bus ts), cases; cbn in Hk; decompose [or] Hk; subst; try reflexivity; contradiction.
Qed.

(* non-vacuity: a concrete run with a raising outage, an out-of-service listed element, and a res table
   that already has a column named like a dict key *)
Definition ex_ev : evalT := fun k l =>
  if Nat.eqb k 1 then None else Some (map (fun b : bool => if b then Some (inject_Z (Z.of_nat (k + 1)) * (10 # 1))%Q else Some 0%Q) l).
Definition ex_tabs : list tabspec :=
  [ {| t_bus := false; t_type := 0; t_var := "loading_percent"; t_index := [5; 3; 8]%Z; t_off := 0 |};
    {| t_bus := true; t_type := 9; t_var := "vm_pu"; t_index := [0; 1]%Z; t_off := 3 |} ].
Definition ex_outs : list (label * nat) := [((0%nat, 5%Z), 0%nat); ((0%nat, 3%Z), 1%nat); ((0%nat, 8%Z), 2%nat); ((0%nat, 5%Z), 0%nat)].
Definition ex_ins : list bool := [true; true; false; true; true].
Definition ex_lims : list F := [Some (15 # 1)%Q; Some (25 # 1)%Q; Some (50 # 1)%Q; None; None].
Definition ex_table : table :=
  [("loading_percent", [OZ 1; OZ 2; OZ 3]); ("p_from_mw", [OZ 4; OZ 5; OZ 6]); ("cause_index", [OZ 7; OZ 7; OZ 7])].

Example n0_is_plain_pf_nonvacuous :
  exists r d, run_contingency_m ex_ev ex_lims ex_outs ex_tabs ex_ins = Some r /\
    n_evals ex_outs ex_ins = 3%nat /\ List.length (r_trace r) = 4%nat /\
    nth_error (r_dicts r) 0 = Some d /\
    dget d "loading_percent" = Some [OQ 40 1; OQ 40 1; OQ 0 1] /\
    dget d "max_loading_percent" = Some [ONone; OQ 30 1; ONone].
Proof. eexists. eexists. repeat split; reflexivity. Qed.

Example write_frame_nonvacuous :
  exists r d, run_contingency_m ex_ev ex_lims ex_outs ex_tabs ex_ins = Some r /\ nth_error (r_dicts r) 0 = Some d /\
    map fst (write_table ex_table d) =
      ["loading_percent"; "p_from_mw"; "cause_index"; "causes_overloading"; "cause_element"; "max_loading_percent"; "min_loading_percent"] /\
    listed ex_table d = ["causes_overloading"; "cause_element"; "max_loading_percent"; "min_loading_percent"] /\
    tget (write_table ex_table d) "cause_index" = Some [OZ 7; OZ 7; OZ 7] /\
    dget d "cause_index" = Some [OZ (-1); OZ 5; OZ (-1)] /\
    tget (write_table ex_table d) "loading_percent" = Some [OZ 1; OZ 2; OZ 3] /\
    tget (write_table ex_table d) "causes_overloading" = Some [OB true; OB false; OB false].
Proof. eexists. eexists. repeat split; reflexivity. Qed.
