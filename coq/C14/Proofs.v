From Coq Require Import ZArith QArith List Bool Lqa.
From PPV Require Import Base.QN C14.Model.
Import ListNotations.
Open Scope Q_scope.

Lemma qltb_le x y : if qltb x y then x <= y else y <= x.
Proof. destruct (qltb x y) eqn:E; [apply Qlt_le_weak, qltb_lt, E | apply qltb_ge, E]. Qed.

(* An extreme of a list with respect to a preorder R: by conversion [is_max] is [extreme Qle] and [is_min] is
   [extreme (fun v m => m <= v)]; [extreme_opt] is the running value of the fold, NaN while nothing valid was seen. *)
Definition extreme (R : Q -> Q -> Prop) (m : Q) (vs : list Q) : Prop :=
  (exists v, In v vs /\ v == m) /\ forall v, In v vs -> R v m.
Definition extreme_opt R (r : F) (vs : list Q) : Prop :=
  match r with None => vs = [] | Some m => extreme R m vs end.

Section Extreme.
Variable R : Q -> Q -> Prop.
Hypothesis R_refl : forall x, R x x.
Hypothesis R_trans : forall x y z, R x y -> R y z -> R x z.
(* the comparison by which the fold chooses between the new value and the running one:
   qmax x y is [if qltb x y then y else x], qmin x y the same with the converse of qltb *)
Variable ltb : Q -> Q -> bool.
Hypothesis ltb_R : forall x y, if ltb x y then R x y else R y x.

Lemma extreme_snoc_keep m vs v : extreme R m vs -> R v m -> extreme R m (vs ++ [v]).
Proof.
  intros [[w [Hw1 Hw2]] Hall] Hv. split.
  - exists w. split; [apply in_or_app; left; exact Hw1 | exact Hw2].
  - intros u Hu. apply in_app_or in Hu. destruct Hu as [Hu|[<-|[]]]; [apply Hall; exact Hu | exact Hv].
Qed.
Lemma extreme_snoc_new m vs v : extreme R m vs -> R m v -> extreme R v (vs ++ [v]).
Proof.
  intros [_ Hall] Hv. split.
  - exists v. split; [apply in_or_app; right; left; reflexivity | reflexivity].
  - intros u Hu. apply in_app_or in Hu. destruct Hu as [Hu|[<-|[]]].
    + apply (R_trans u m v); [apply Hall; exact Hu | exact Hv].
    + apply R_refl.
Qed.
Lemma extreme_single v : extreme R v [v].
Proof. split; [exists v; split; [left; reflexivity|reflexivity] | intros u [<-|[]]; apply R_refl]. Qed.

(* the right-hand side is [fmax (Some v) r] resp. [fmin (Some v) r] after one step of reduction *)
Lemma extreme_opt_snoc r vs v :
  extreme_opt R r vs ->
  extreme_opt R (match r with Some m => Some (if ltb v m then m else v) | None => Some v end) (vs ++ [v]).
Proof.
  destruct r as [m|]; cbn [extreme_opt].
  - intros H. pose proof (ltb_R v m) as Hv. destruct (ltb v m).
    + apply extreme_snoc_keep; assumption.
    + apply (extreme_snoc_new m); assumption.
  - intros ->. apply extreme_single.
Qed.
End Extreme.

Lemma valid_vals_snoc l c o :
  valid_vals (l ++ [(c, o)]) =
  valid_vals l ++ (if valid o then match o_val o with Some v => [v] | None => [] end else []).
Proof. unfold valid_vals. rewrite flat_map_app. cbn. rewrite app_nil_r. reflexivity. Qed.

Definition Inv (l : list (label * obs)) (a : acc) : Prop :=
  (match mx a with None => valid_vals l = [] | Some m => is_max m (valid_vals l) end) /\
  (match mn a with None => valid_vals l = [] | Some m => is_min m (valid_vals l) end) /\
  attains l (cause a) (mx a).

Lemma attains_incl l l' c m : incl l l' -> attains l c m -> attains l' c m.
Proof.
  unfold attains. destruct m as [mv|]; [|trivial].
  intros Hi (c0 & o & v & H1 & H2 & H3). exists c0, o, v.
  split; [exact H1|]. split; [apply Hi; exact H2 | exact H3].
Qed.

Lemma inv_step l a c o : Inv l a -> Inv (l ++ [(c, o)]) (upd c o a).
Proof.
  intros (Hmx & Hmn & Hc). apply (attains_incl l (l ++ [(c, o)])) in Hc; [|apply incl_appl, incl_refl].
  unfold Inv, upd. rewrite valid_vals_snoc. unfold valid.
  destruct (o_in o && negb (isnan (o_val o))) eqn:W; cbn [mx mn cause andb].
  2:{ rewrite app_nil_r. repeat split; assumption. }
  destruct (o_val o) as [v|] eqn:EV.
  2:{ rewrite andb_comm in W. discriminate W. }
  assert (Hval : valid o = true) by (unfold valid; rewrite EV; exact W).
  assert (Hin : In (c, o) (l ++ [(c, o)])) by (apply in_or_app; right; left; reflexivity).
  split; [|split].
  - exact (extreme_opt_snoc Qle Qle_refl Qle_trans qltb qltb_le (mx a) _ v Hmx).
  - exact (extreme_opt_snoc (fun x y => y <= x) Qle_refl (fun x y z H1 H2 => Qle_trans z y x H2 H1)
             (fun x y => qltb y x) (fun x y => qltb_le y x) (mn a) _ v Hmn).
  - (* the cause changes exactly when the maximum strictly increases; on a tie the earlier case stays *)
    destruct (mx a) as [m|] eqn:EM; cbn [fmax isnan orb gt].
    2:{ exists c, o, v. repeat split; try assumption; reflexivity. }
    destruct Hc as (c0 & o0 & v0 & K1 & K2 & K3 & K4 & K5).
    unfold qmax. destruct (qltb m v) eqn:E, (qltb v m) eqn:E';
      (apply qltb_lt in E || apply qltb_ge in E); (apply qltb_lt in E' || apply qltb_ge in E').
    + exfalso; lra.
    + exists c, o, v. repeat split; try assumption; reflexivity.
    + exists c0, o0, v0. repeat split; assumption.
    + exists c0, o0, v0. repeat split; try assumption. lra.
Qed.

Lemma inv_run l2 : forall l1 a, Inv l1 a -> Inv (l1 ++ l2) (run_col l2 a).
Proof.
  induction l2 as [|[c o] l2 IH]; intros l1 a H; cbn [run_col].
  - rewrite app_nil_r. exact H.
  - replace (l1 ++ (c, o) :: l2) with ((l1 ++ [(c, o)]) ++ l2) by (rewrite <- app_assoc; reflexivity).
    apply IH. apply inv_step. exact H.
Qed.

Lemma inv_init : Inv [] acc0.
Proof. unfold Inv, acc0; cbn. repeat split; reflexivity. Qed.

Lemma inv_all l : Inv l (run_col l acc0).
Proof. apply (inv_run l [] acc0 inv_init). Qed.

Lemma max_is_spec_max l :
  match mx (run_col l acc0) with None => valid_vals l = [] | Some m => is_max m (valid_vals l) end.
Proof. apply (inv_all l). Qed.
Lemma min_is_spec_min l :
  match mn (run_col l acc0) with None => valid_vals l = [] | Some m => is_min m (valid_vals l) end.
Proof. apply (inv_all l). Qed.
Lemma cause_attains_max l : attains l (cause (run_col l acc0)) (mx (run_col l acc0)).
Proof. apply (inv_all l). Qed.

Lemma nth_error_zipw {A B C} (f : A -> B -> C) l m j :
  nth_error (zipw f l m) j =
  match nth_error l j, nth_error m j with Some a, Some b => Some (f a b) | _, _ => None end.
Proof.
  revert m j. induction l as [|a l IH]; intros [|b m] [|j]; cbn; try reflexivity.
  - destruct (nth_error l j); reflexivity.
  - apply IH.
Qed.

Lemma table_projection cases : forall st j a,
  nth_error st j = Some a ->
  (forall c, In c cases -> nth_error (rows c) j <> None) ->
  nth_error (fold_left step cases st) j = Some (run_col (col j cases) a).
Proof.
  induction cases as [|c cases IH]; intros st j a Ha Hwf; cbn [fold_left col flat_map].
  - exact Ha.
  - destruct (nth_error (rows c) j) as [o|] eqn:E.
    2:{ exfalso. apply (Hwf c); [left; reflexivity | exact E]. }
    cbn [app run_col]. apply IH.
    + unfold step. rewrite nth_error_zipw, E, Ha. reflexivity.
    + intros c' Hc'. apply Hwf. right. exact Hc'.
Qed.

Lemma causes_overloading_iff cases c :
  causes_overloading cases c = true <->
  exists k, In k cases /\ lab k = c /\ exists o, In o (rows k) /\ gt (o_val o) (o_lim o) = true.
Proof.
  unfold causes_overloading, overloads. rewrite existsb_exists. split.
  - intros (k & Hk & H). apply andb_true_iff in H. destruct H as [H1 H2].
    apply andb_true_iff in H1. destruct H1 as [Ha Hb].
    apply Nat.eqb_eq in Ha. apply Z.eqb_eq in Hb. apply existsb_exists in H2.
    exists k. repeat split; [exact Hk | destruct (lab k), c; cbn in *; congruence | exact H2].
  - intros (k & Hk & <- & H2). exists k. split; [exact Hk|].
    rewrite Nat.eqb_refl, Z.eqb_refl. cbn. apply existsb_exists. exact H2.
Qed.

(* the finally clause restores in_service, for every set of raising outages, with and without raise_errors *)
Lemma set_nth_restore l : forall j, nth j l false = true -> set_nth (set_nth l j false) j true = l.
Proof.
  induction l as [|h t IH]; intros [|j] H; cbn in *; try reflexivity.
  - subst; reflexivity.
  - f_equal. apply IH. exact H.
Qed.
Lemma in_service_restored idxs raises re : forall l, fst (run_loop idxs raises re l) = l.
Proof.
  induction idxs as [|j rest IH]; intros l; cbn [run_loop]; [reflexivity|].
  destruct (nth j l false) eqn:E; cbn [negb]; [|apply IH].
  rewrite (set_nth_restore l j E).
  destruct (raises j && re); [reflexivity | apply IH].
Qed.
