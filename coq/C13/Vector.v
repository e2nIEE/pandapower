(* C13 — controllers over index arrays (element-wise criteria), the hunting_limit bookkeeping of DiscreteTapControl and
   TapDependentImpedance (restore) *)
From Coq Require Import ZArith QArith List Bool Lia Lqa.
From PPV Require Import Base.QN C13.Model C13.Proofs C13.Taps C13.Invariant.
Import ListNotations.
Open Scope Q_scope.

(* np.all over the elements: the verdict of an index-array controller is the scalar criterion at every element *)
Lemma all_converged_iff (A : Type) (conv : A -> bool) (ok : A -> Prop) (ntd : bool) l :
  (forall a, conv a = true <-> ok a) ->
  (if ntd then true else forallb conv l) = true <-> ntd = true \/ Forall ok l.
Proof.
  intros E. destruct ntd; [split; auto|].
  rewrite forallb_forall, Forall_forall. split.
  - intros H. right. intros a Ha. apply E, H, Ha.
  - intros [X|H] a Ha; [discriminate X | apply E, H, Ha].
Qed.

Lemma discv_converged_iff ts ntd lo up s :
  discv_conv ts ntd lo up s = true <-> ntd = true \/ discv_ok ts lo up s.
Proof.
  apply all_converged_iff. intros t. rewrite disc_converged_iff.
  split; [intros [X|X]; [discriminate X | exact X] | intros X; right; exact X].
Qed.

Lemma contv_converged_iff tks ntd s :
  contv_conv tks ntd s = true <-> ntd = true \/ contv_ok tks s.
Proof.
  apply all_converged_iff. intros tk. rewrite cont_converged_iff.
  split; [intros [X|X]; [discriminate X | exact X] | intros X; right; exact X].
Qed.

(* a vector controller that reports convergence: every single element satisfies the scalar criterion of the property text *)
Lemma discv_each_element ts ntd lo up s t :
  discv_conv ts ntd lo up s = true -> ntd = false -> In t ts ->
  disc_ok t lo up (get (t_bus t) (res s)) (get (t_trafo t) (vars s)).
Proof.
  intros H N Ht. apply discv_converged_iff in H. destruct H as [H|H]; [congruence|].
  unfold discv_ok in H. rewrite Forall_forall in H. exact (H t Ht).
Qed.

(* characteristic controller over index arrays: converged iff it has been applied and EVERY output is within tol of the
   characteristic of its input *)
Lemma charv_converged_iff c in_res ios pts tol s :
  fst (charv_conv c in_res ios pts tol s) = true <->
  getb c (applied s) = true /\ Forall (charv_elem_ok in_res pts tol s) ios.
Proof.
  unfold charv_conv. cbn [fst]. rewrite andb_true_iff, forallb_forall, Forall_forall.
  assert (E : forall io, charv_ok in_res pts tol s io = true <-> charv_elem_ok in_res pts tol s io).
  { intros io. unfold charv_ok, charv_elem_ok.
    destruct (char_value in_res (fst io) pts s) as [a|]; [|split; [discriminate | intros []]].
    destruct (get (snd io) (vars s)) as [b0|]; [|split; [discriminate | intros []]].
    rewrite qltb_lt, qabsv_correct, qsub_correct. reflexivity. }
  split; intros [A B]; (split; [exact A|]); intros io Hio; apply E; exact (B io Hio).
Qed.

Lemma get_write_all_notin k kvs : forall m, ~ In k (map fst kvs) -> get k (write_all kvs m) = get k m.
Proof.
  unfold write_all. induction kvs as [|[j v] kvs IH]; intros m H; cbn [fold_left fst snd]; [reflexivity|].
  rewrite IH; [|intros X; apply H; right; exact X].
  apply get_set_other. intros X. apply H. left. cbn. symmetry. exact X.
Qed.
Lemma get_write_all_in (A : Type) (key : A -> nat) (f : A -> F) (l : list A) :
  NoDup (map key l) -> forall a, In a l -> forall m, get (key a) (write_all (map (fun a => (key a, f a)) l) m) = f a.
Proof.
  unfold write_all. induction l as [|b l IH]; intros ND a Ha m; [destruct Ha|].
  cbn [map] in ND. inversion ND as [|? ? Hn ND']. subst. cbn [map fold_left fst snd].
  destruct Ha as [<-|Ha].
  - pose proof (get_write_all_notin (key b) (map (fun a => (key a, f a)) l) (set (key b) (f b) m)) as X.
    unfold write_all in X. rewrite X; [apply get_set_same|]. rewrite map_map. cbn [fst]. exact Hn.
  - apply IH; assumption.
Qed.

(* the window: the pushed row is the last one, the length is bounded by max(hunting_limit, 1) once it was *)
Lemma hunt_push_length hl rows row :
  List.length (hunt_push hl rows row) =
  match hl with
  | Some n => if (n <? S (List.length rows))%nat then List.length rows else S (List.length rows)
  | None => S (List.length rows)
  end.
Proof.
  assert (L : List.length (rows ++ [row]) = S (List.length rows)) by (rewrite app_length; cbn; lia).
  unfold hunt_push. cbv zeta. destruct hl as [n|]; [|exact L]. rewrite L.
  destruct (n <? S (List.length rows))%nat; [|exact L].
  destruct rows as [|r rows]; [reflexivity|]. cbn [app tl List.length]. cbn [app List.length] in L. lia.
Qed.
Lemma hunt_push_bounded n rows row :
  (List.length rows <= Nat.max n 1)%nat -> (List.length (hunt_push (Some n) rows row) <= Nat.max n 1)%nat.
Proof.
  intros H. rewrite hunt_push_length. destruct (n <? S (List.length rows))%nat eqn:E; [exact H|].
  apply Nat.ltb_ge in E. lia.
Qed.
Lemma hunt_push_last hl rows row d : rows <> [] -> last (hunt_push hl rows row) d = row.
Proof.
  intros H. unfold hunt_push.
  assert (L : forall (l : list (list F)), last (l ++ [row]) d = row) by (intros l; apply last_last).
  destruct hl as [n|]; [|apply L].
  destruct (n <? List.length (rows ++ [row]))%nat; [|apply L].
  destruct rows as [|r rows]; [congruence|]. cbn [app tl]. apply L.
Qed.
(* the rows kept are a suffix of (old rows ++ [new row]): nothing is invented, only the oldest row is dropped *)
Lemma hunt_push_suffix hl rows row :
  exists dropped, dropped ++ hunt_push hl rows row = rows ++ [row] /\ (List.length dropped <= 1)%nat.
Proof.
  unfold hunt_push. destruct hl as [n|]; [|exists []; split; [reflexivity | cbn; lia]].
  destruct (n <? List.length (rows ++ [row]))%nat; [|exists []; split; [reflexivity | cbn; lia]].
  destruct (rows ++ [row]) as [|r l]; [exists []; split; [reflexivity | cbn; lia]|].
  exists [r]. split; [reflexivity | cbn; lia].
Qed.

(* is_converged never reads the hunting window, so hunting_limit cannot turn a non-converged controller into a converged
   one, at ANY number of recorded reversals (in particular not below the limit): whenever the controller with
   hunting_limit hl reports convergence, in a state with any hunting window, every element is in its band / at the needed
   limit / without voltage *)
Lemma hunting_never_forces_convergence c ts lo up hl s :
  fst (c_conv (mk_ctrl c (KDiscV ts false lo up hl)) s) = true -> discv_ok ts lo up s.
Proof.
  cbn [mk_ctrl c_conv fst]. intros H. apply discv_converged_iff in H. destruct H as [H|H]; [discriminate H | exact H].
Qed.

(* tap reversals recorded in one column of the window *)
Fixpoint deltas (col : list Q) : list Q :=
  match col with
  | x :: ((y :: _) as rest) => qsub y x :: deltas rest
  | _ => []
  end.
Fixpoint reversals (ds : list Q) : nat :=
  match ds with
  | d1 :: ((d2 :: _) as rest) => ((if qltb (qmul d1 d2) 0 then 1 else 0) + reversals rest)%nat
  | _ => 0%nat
  end.
(* a hunting controller is NOT stopped by hunting_limit: two-position oscillation, limit 2, still not converged and still
   stepping after 4 recorded reversals (the reproduced behaviour of the real controller) *)
Definition th : tapc := {| t_trafo := 3; t_bus := 6; t_min := -(2); t_max := 2; t_dir := true; t_ntd := false |}.
Definition hunt_state (vm tap : Q) : cst :=
  {| vars := [(3%nat, Some tap)]; res := [(6%nat, Some vm)]; applied := [];
     attrs := [(0%nat, [[Some 0]; [Some (-(1))]; [Some 0]; [Some (-(1))]; [Some 0]; [Some (-(1))]])]; stream := [] |}.
Definition osc_col : list Q := [0; -(1); 0; -(1); 0; -(1)].

(* without a restoring TapDependentImpedance finalize_control of every controller is the identity: the state returned by
   run_control is the state on which the last level was left *)
Lemma final_id_without_restore c k s : restores k = false -> c_final (mk_ctrl c k) s = s.
Proof. destruct k as [| | | | | |in_res ios pts tol [[|]|]]; cbn; try reflexivity. discriminate. Qed.

Lemma apply_final_id (cs : list entry) s :
  forallb (fun e => negb (restores (snd (e_obj e)))) cs = true ->
  apply_all cst c_final (map to_ctrl cs) s = s.
Proof.
  unfold apply_all. revert s. induction cs as [|e cs IH]; intros s H; [reflexivity|].
  cbn [forallb] in H. apply andb_true_iff in H. destruct H as [H1 H2]. cbn [map fold_left].
  unfold to_ctrl at 2. rewrite final_id_without_restore; [apply IH; exact H2 | apply negb_true_iff; exact H1].
Qed.

(* G13r on a controller table *)
Definition G13r (cs : list entry) : bool := forallb (fun e => negb (restores (snd (e_obj e)))) cs.

(* with G13r: on a normal return the returned state is exactly the state the levels loop ended with *)
Lemma return_state_is_loop_state max_iter cod cel (cs : list entry) s s' t :
  G13r cs = true -> run_net max_iter cod cel cs s = Some (Ok, s', t) ->
  exists co ir s0 netc t0 t1,
    ctrl_variables _ cs = Some (co, ir) /\
    levels_loop cst run_stream max_iter cod cel (map (map to_ctrl) co) s0 netc 0 = (Ok, s', t1) /\ t = t0 ++ t1.
Proof.
  intros G. unfold run_net. destruct (ctrl_variables _ cs) as [[co ir]|] eqn:E; [|discriminate].
  intros H. inversion H as [H1]. clear H. unfold run_control in H1.
  set (s0 := apply_all cst c_init (List.concat (map (map to_ctrl) co)) s) in *.
  assert (Fin : forall x, apply_all cst c_final (List.concat (map (map to_ctrl) co)) x = x).
  { intros x. rewrite <- concat_map. apply apply_final_id. apply forallb_forall. intros e He.
    unfold G13r in G. rewrite forallb_forall in G. apply G.
    apply in_concat in He. destruct He as (l & Hl & He). exact (ctrl_variables_members cs co ir E l e Hl He). }
  destruct ir.
  - destruct (run_stream s0) as [s1 [|]]; cbn [negb] in H1; [|discriminate].
    destruct (levels_loop cst run_stream max_iter cod cel (map (map to_ctrl) co) s1 true 0) as [[[] s2] t1] eqn:L;
      try discriminate.
    rewrite Fin in H1. injection H1 as <- <-.
    exists co, true, s1, true, [ERun true s1], t1. repeat split; exact L.
  - destruct (levels_loop cst run_stream max_iter cod cel (map (map to_ctrl) co) s0 true 0) as [[[] s2] t1] eqn:L;
      try discriminate.
    rewrite Fin in H1. injection H1 as <- <-.
    exists co, false, s0, true, [], t1. repeat split; exact L.
Qed.

(* with a restoring TapDependentImpedance the full statement is false: single controller, normal return, and the element
   value on return (restored) differs from the value the last calculation has seen *)
Definition w4_cs : list entry :=
  [ mk 0 (KCharV false [(1%nat, 3001%nat)] [(-(2), 525#100); (0, 6); (2, 675#100)] (1#1000) (Some true)) 0 ].
Definition w4_state : cst :=
  {| vars := [(1%nat, Some 1); (3001%nat, Some 6)]; res := []; applied := [(0%nat, false)]; attrs := [];
     stream := [ ([(5%nat, Some 1)], true); ([(5%nat, Some (99#100))], true); ([(5%nat, Some (99#100))], true) ] |}.

(* non-vacuity witnesses for the vector theorems: a two-element discrete controller with hunting_limit 2 that steps one
   element and then reports convergence with both elements in their bands *)
Definition tv1 : tapc := {| t_trafo := 1; t_bus := 4; t_min := -(2); t_max := 2; t_dir := true; t_ntd := false |}.
Definition tv2 : tapc := {| t_trafo := 2; t_bus := 5; t_min := -(2); t_max := 2; t_dir := true; t_ntd := false |}.
Definition w5_cs : list entry := [ mk 0 (KDiscV [tv1; tv2] false (99#100) (101#100) (Some 2%nat)) 0 ].
Definition w5_state : cst :=
  {| vars := [(1%nat, Some 0); (2%nat, Some 0)]; res := []; applied := []; attrs := [];
     stream := [ ([(4%nat, Some 1); (5%nat, Some (98#100))], true); ([(4%nat, Some 1); (5%nat, Some (1001#1000))], true) ] |}.
Lemma vector_run_check :
  match run_net 30 false true w5_cs w5_state with
  | Some (Ok, s', t) =>
      feq_opt (get 1 (vars s')) (Some 0) && feq_opt (get 2 (vars s')) (Some (-(1))) &&
      discv_conv [tv1; tv2] false (99#100) (101#100) s' && (3 <? List.length t)%nat &&
      (List.length (geta 0 (attrs s')) =? 2)%nat
  | _ => false
  end = true.
Proof. vm_compute. reflexivity. Qed.

Lemma G13_map (A B : Type) (g : A -> B) (ls : list (list A)) : G13 (map (map g) ls) = G13 ls.
Proof.
  unfold G13. f_equal. induction ls as [|l ls IH]; [reflexivity|]. cbn [map filter].
  destruct l as [|a l]; cbn [map]; [exact IH | cbn [List.length]; f_equal; exact IH].
Qed.

(* single non-empty level, check_each_level, no restoring TapDependentImpedance: on a normal return every scheduled
   controller reports convergence on the RETURNED state *)
Lemma all_converged_on_returned_state max_iter cod (cs : list entry) s s' t co ir :
  G13r cs = true -> ctrl_variables _ cs = Some (co, ir) -> G13 co = true ->
  run_net max_iter cod true cs s = Some (Ok, s', t) ->
  forall e, In e (List.concat co) -> fst (c_conv (to_ctrl e) s') = true.
Proof.
  intros Gr E G H e He.
  destruct (return_state_is_loop_state max_iter cod true cs s s' t Gr H) as (co' & ir' & s0 & netc & t0 & t1 & E' & L & _).
  rewrite E in E'. inversion E'. subst co' ir'.
  assert (X : Forall (conv_at cst s') (List.concat (map (map to_ctrl) co))).
  { eapply single_level_all_converged; [rewrite G13_map; exact G | | exact L].
    apply Forall_forall. intros l Hl. apply in_map_iff in Hl. destruct Hl as (l0 & <- & _).
    apply Forall_forall. intros c Hc. apply in_map_iff in Hc. destruct Hc as (e0 & <- & _).
    intros x. apply mk_ctrl_pure. }
  rewrite Forall_forall in X. apply X. rewrite <- concat_map. apply in_map. exact He.
Qed.

Lemma forallb_false_ex (A : Type) (f : A -> bool) l : forallb f l = false -> exists a, In a l /\ f a = false.
Proof.
  induction l as [|a l IH]; cbn; [discriminate|]. destruct (f a) eqn:E; cbn.
  - intros H. destruct (IH H) as (b & Hb & Fb). exists b. split; [right; exact Hb | exact Fb].
  - intros _. exists a. split; [left; reflexivity | exact E].
Qed.
