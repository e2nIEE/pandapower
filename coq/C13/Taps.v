(* C13 — what the other C13 files share about the concrete controllers: reads after writes in the slot tables, the tap
   rules of DiscreteTapControl / ContinuousTapControl (limit clause, increment, written value inside the bounds),
   get_controller_order (Section OrderProofs), and the recorded runs that serve as witnesses in Properties.C13 *)
From Coq Require Import ZArith QArith Qabs List Bool Lia Lqa Sorted Permutation.
From PPV Require Import Base.QN C13.Model.
Import ListNotations.
Open Scope Q_scope.

(* reading a slot table (Model.get / set) and an attribute table (geta / seta) after a write *)
Lemma get_set_same k v m : get k (set k v m) = v.
Proof.
  induction m as [|[j w] m IH]; cbn; [rewrite Nat.eqb_refl; reflexivity|].
  destruct (Nat.eqb j k) eqn:E; cbn; [rewrite Nat.eqb_refl; reflexivity | rewrite E; exact IH].
Qed.
Lemma get_set_other j k v m : j <> k -> get j (set k v m) = get j m.
Proof.
  intros Hn. induction m as [|[i w] m IH]; cbn.
  - destruct (Nat.eqb k j) eqn:E; [apply Nat.eqb_eq in E; congruence | reflexivity].
  - destruct (Nat.eqb i k) eqn:E; cbn.
    + apply Nat.eqb_eq in E. subst i. destruct (Nat.eqb k j) eqn:E2; [apply Nat.eqb_eq in E2; congruence | reflexivity].
    + destruct (Nat.eqb i j); [reflexivity | exact IH].
Qed.
Lemma geta_seta_same c v m : geta c (seta c v m) = v.
Proof.
  induction m as [|[j w] m IH]; cbn; [rewrite Nat.eqb_refl; reflexivity|].
  destruct (Nat.eqb j c) eqn:E; cbn; [rewrite Nat.eqb_refl; reflexivity | rewrite E; exact IH].
Qed.
Lemma geta_seta_other c c' v m : c' <> c -> geta c' (seta c v m) = geta c' m.
Proof.
  intros Hn. induction m as [|[j w] m IH]; cbn.
  - destruct (Nat.eqb c c') eqn:E; [apply Nat.eqb_eq in E; congruence | reflexivity].
  - destruct (Nat.eqb j c) eqn:E; cbn.
    + apply Nat.eqb_eq in E. subst j. destruct (Nat.eqb c c') eqn:E2; [apply Nat.eqb_eq in E2; congruence | reflexivity].
    + destruct (Nat.eqb j c'); [reflexivity | exact IH].
Qed.

Lemma flt_ss x y : flt (Some x) (Some y) = true <-> x < y.
Proof. cbn. apply qltb_lt. Qed.
Lemma feq_s tap y : feq tap (Some y) = true <-> tap_is tap y.
Proof. destruct tap as [x|]; cbn; [apply qeqb_eq | split; [discriminate | intros []]]. Qed.
Lemma qabsv_correct x : qabsv x == Qabs x.
Proof.
  unfold qabsv. destruct (qltb x 0) eqn:E.
  - apply qltb_lt in E. rewrite qopp_correct. rewrite Qabs_neg; [reflexivity | apply Qlt_le_weak; exact E].
  - apply qltb_ge in E. rewrite Qabs_pos; [reflexivity | exact E].
Qed.

(* "the tap is at the limit in the needed direction": the clause DiscreteTapControl.is_converged and
   ContinuousTapControl.is_converged (with check_tap_bounds) share, for any two tests of "voltage low" / "voltage high" *)
Lemma at_limit_iff t tap (lo hi : bool) (L H : Prop) :
  (lo = true <-> L) -> (hi = true <-> H) ->
  (if t_dir t then lo && feq tap (Some (t_min t)) || hi && feq tap (Some (t_max t))
   else lo && feq tap (Some (t_max t)) || hi && feq tap (Some (t_min t))) = true <->
  (L /\ tap_is tap (limit_for t true)) \/ (H /\ tap_is tap (limit_for t false)).
Proof.
  intros EL EH. unfold limit_for, needs_lower_tap.
  destruct (t_dir t); cbn [Bool.eqb]; rewrite orb_true_iff, !andb_true_iff, !feq_s, EL, EH; reflexivity.
Qed.

Lemma disc_converged_iff t lo up s :
  disc_conv t lo up s = true <->
  t_ntd t = true \/ disc_ok t lo up (get (t_bus t) (res s)) (get (t_trafo t) (vars s)).
Proof.
  unfold disc_conv, disc_ok.
  destruct (t_ntd t); [split; auto|].
  destruct (get (t_bus t) (res s)) as [v|]; [|cbn; rewrite orb_true_r; split; auto].
  cbn [fnan]. rewrite orb_false_r, orb_true_iff, andb_true_iff, !flt_ss.
  rewrite (at_limit_iff t _ _ _ (v < lo) (up < v)) by apply flt_ss.
  intuition discriminate.
Qed.

Lemma cont_converged_iff t k s :
  cont_conv t k s = true <->
  t_ntd t = true \/ cont_ok t k (get (t_bus t) (res s)) (get (t_trafo t) (vars s)).
Proof.
  unfold cont_conv, cont_ok.
  destruct (t_ntd t); [split; auto|].
  destruct (get (t_bus t) (res s)) as [v|]; [|cbn; rewrite orb_true_r; split; auto].
  assert (W : (if qeqb v 0 then false else qltb (qabsv (qsub 1 (qdiv (k_vset k) v))) (k_tol k)) = true <->
              (~ v == 0 /\ Qabs (1 - k_vset k / v) < k_tol k)).
  { destruct (qeqb v 0) eqn:E.
    - apply qeqb_eq in E. split; [discriminate | intros [A _]; contradiction].
    - assert (Hn : ~ v == 0) by (intros X; apply qeqb_eq in X; congruence).
      rewrite qltb_lt, qabsv_correct, qsub_correct, qdiv_correct. tauto. }
  cbn [fnan]. rewrite orb_false_r.
  destruct (k_check k); [|rewrite W; intuition discriminate].
  rewrite orb_true_iff, W, (at_limit_iff t _ _ _ (v < k_vset k) (k_vset k < v)) by apply flt_ss.
  intuition discriminate.
Qed.

Lemma int_lt_succ a b : integral a -> integral b -> a < b -> a + 1 <= b.
Proof.
  intros [za Ha] [zb Hb] H. rewrite Ha, Hb in *. rewrite <- Zlt_Qlt in H.
  change 1 with (inject_Z 1). rewrite <- inject_Z_plus. rewrite <- Zle_Qle. lia.
Qed.
Lemma integral_plus a z : integral a -> integral (a + inject_Z z).
Proof. intros [za Ha]. exists (za + z)%Z. rewrite Ha, inject_Z_plus. reflexivity. Qed.

(* the discrete increment: one step down only from above tap_min, one step up only from below tap_max *)
Lemma disc_incr_cases t lo up vm x :
  (disc_incr t lo up vm (Some x) = -(1) /\ t_min t < x) \/
  (disc_incr t lo up vm (Some x) = 1 /\ x < t_max t) \/
  disc_incr t lo up vm (Some x) = 0.
Proof.
  unfold disc_incr.
  destruct (flt (Some (t_min t)) (Some x)) eqn:Dn; [apply flt_ss in Dn|];
    (destruct (flt (Some x) (Some (t_max t))) eqn:Up; [apply flt_ss in Up|]);
    destruct (t_dir t), (flt vm (Some lo)), (flt (Some up) vm); cbn [andb]; auto.
Qed.

Lemma disc_incr_in_bounds t lo up vm x :
  integral x -> integral (t_min t) -> integral (t_max t) ->
  t_min t <= x <= t_max t ->
  t_min t <= x + disc_incr t lo up vm (Some x) <= t_max t /\ integral (x + disc_incr t lo up vm (Some x)).
Proof.
  intros Ix Imin Imax [H1 H2].
  destruct (disc_incr_cases t lo up vm x) as [[-> D]|[[-> U]| ->]].
  - pose proof (int_lt_succ _ _ Imin Ix D). split; [split; lra | exact (integral_plus x (-1) Ix)].
  - pose proof (int_lt_succ _ _ Ix Imax U). split; [split; lra | exact (integral_plus x 1 Ix)].
  - split; [split; lra | exact (integral_plus x 0 Ix)].
Qed.

(* disc_new_tap clips to [tap_min, tap_max]: no integrality is needed *)
Lemma disc_new_tap_in_bounds t lo up vm x :
  t_min t <= x <= t_max t -> t_min t <= disc_new_tap t lo up vm x <= t_max t.
Proof.
  intros [H1 H2]. unfold disc_new_tap. set (i := disc_incr t lo up vm (Some x)).
  destruct (qltb 0 i) eqn:E1.
  - apply qltb_lt in E1. destruct (qmin_cases (qadd x i) (t_max t)) as [[A ->]|[A ->]]; qnorm; split; lra.
  - apply qltb_ge in E1. destruct (qltb i 0) eqn:E2.
    + apply qltb_lt in E2. destruct (qmax_cases (qadd x i) (t_min t)) as [[A ->]|[A ->]]; qnorm; split; lra.
    + apply qltb_ge in E2. qnorm. split; lra.
Qed.

Lemma clip_in x lo hi : lo <= hi -> lo <= clip x lo hi <= hi.
Proof.
  intros H. unfold clip.
  destruct (qmax_cases x lo) as [[A ->]|[A ->]]; destruct (qmin_cases lo hi) as [[B E]|[B E]];
    try (destruct (qmin_cases x hi) as [[C ->]|[C ->]]); try rewrite E; split; lra.
Qed.

(* with check_tap_bounds the continuous controller writes a tap inside the bounds whatever the voltage and the start *)
Lemma cont_new_tap_in_bounds t k vm tap :
  k_check k = true -> t_min t <= t_max t ->
  t_min t <= cont_new_tap t k vm tap <= t_max t.
Proof. intros Hc H. unfold cont_new_tap. rewrite Hc. apply clip_in. exact H. Qed.

(* the value written for one element of an index array, from a tap inside that element's bounds, is inside them;
   the scalar controllers write the same value *)
Lemma disc_new_F_in_bounds lo up s t :
  in_bounds t (get (t_trafo t) (vars s)) -> in_bounds t (disc_new_F lo up s t).
Proof.
  unfold disc_new_F. destruct (get (t_trafo t) (vars s)) as [x|]; [|intros _; exact I].
  cbn. intros H. apply disc_new_tap_in_bounds. exact H.
Qed.
Lemma cont_new_F_in_bounds s t p :
  k_check p = true -> t_min t <= t_max t -> in_bounds t (cont_new_F s (t, p)).
Proof.
  intros C L. unfold cont_new_F. cbn [fst snd].
  destruct (get (t_bus t) (res s)) as [vm|]; [destruct (get (t_trafo t) (vars s)) as [x|]|]; try exact I.
  cbn. apply cont_new_tap_in_bounds; assumption.
Qed.
Lemma disc_step_eq t lo up s :
  disc_step t lo up s = if t_ntd t then s else with_vars s (set (t_trafo t) (disc_new_F lo up s t) (vars s)).
Proof. unfold disc_step, disc_new_F. destruct (t_ntd t), (get (t_trafo t) (vars s)); reflexivity. Qed.
Lemma cont_step_eq t k s :
  cont_step t k s = if t_ntd t then s else with_vars s (set (t_trafo t) (cont_new_F s (t, k)) (vars s)).
Proof.
  unfold cont_step, cont_new_F. cbn [fst snd].
  destruct (t_ntd t), (get (t_bus t) (res s)), (get (t_trafo t) (vars s)); reflexivity.
Qed.

(* voltage below the band (b = true) or above it (b = false), tap not yet at the limit of that side *)
Lemma disc_incr_toward t lo up v x (b : bool) :
  (if b then v < lo else up < v) -> lo <= up -> t_min t <= x <= t_max t -> ~ x == limit_for t b ->
  disc_incr t lo up (Some v) (Some x) = if needs_lower_tap t b then -(1) else 1.
Proof.
  intros Hv Hlu [B1 B2] Hne. unfold limit_for in Hne. unfold disc_incr, needs_lower_tap in *.
  assert (Dn : ~ x == t_min t -> flt (Some (t_min t)) (Some x) = true).
  { intros N. apply flt_ss, Qlt_leneq. split; [exact B1 | intros X; apply N; lra]. }
  assert (Up : ~ x == t_max t -> flt (Some x) (Some (t_max t)) = true).
  { intros N. apply flt_ss, Qlt_leneq. split; [exact B2 | exact N]. }
  destruct b.
  - rewrite (proj2 (flt_ss v lo) Hv). cbn [andb].
    destruct (t_dir t); cbn [Bool.eqb] in *; [rewrite Dn | rewrite Up]; auto.
  - replace (flt (Some v) (Some lo)) with false by (symmetry; apply qltb_ge; lra).
    rewrite (proj2 (flt_ss up v) Hv). cbn [andb].
    destruct (t_dir t); cbn [Bool.eqb] in *; [rewrite Up | rewrite Dn]; auto.
Qed.

Lemma disc_not_converged_moves t lo up s v x :
  t_ntd t = false ->
  get (t_bus t) (res s) = Some v -> get (t_trafo t) (vars s) = Some x ->
  t_min t <= x <= t_max t -> ~ v == lo -> ~ v == up -> lo <= up ->
  disc_conv t lo up s = false ->
  (v < lo /\ disc_incr t lo up (Some v) (Some x) == (if needs_lower_tap t true then -(1) else 1)) \/
  (up < v /\ disc_incr t lo up (Some v) (Some x) == (if needs_lower_tap t false then -(1) else 1)).
Proof.
  intros Hn Hv Hx Hb Nlo Nup Hlu Hc.
  assert (Hnot : ~ disc_ok t lo up (Some v) (Some x)).
  { intros X. rewrite <- Hv, <- Hx in X. pose proof (proj2 (disc_converged_iff t lo up s) (or_intror X)). congruence. }
  cbn in Hnot.
  destruct (Qlt_le_dec v lo) as [L|L]; [|destruct (Qlt_le_dec up v) as [U|U]].
  - left. split; [exact L|]. rewrite (disc_incr_toward t lo up v x true L Hlu Hb); [reflexivity | tauto].
  - right. split; [exact U|]. rewrite (disc_incr_toward t lo up v x false U Hlu Hb); [reflexivity | tauto].
  - contradiction Hnot. left. split; apply Qlt_leneq; split; auto. intros X. apply Nlo. symmetry. exact X.
Qed.

Section OrderProofs.
  Variable A : Type.
  Notation centry := (centry A).

  Lemma ins_q_in x l y : In y (ins_q x l) -> y = x \/ In y l.
  Proof.
    induction l as [|z l IH]; cbn.
    - intros [<-|[]]. left. reflexivity.
    - destruct (qltb x z).
      + intros [<-|H]; [left; reflexivity | right; exact H].
      + destruct (qeqb x z); [intros H; right; exact H|].
        intros [<-|H]; [right; left; reflexivity|]. destruct (IH H); [left | right; right]; assumption.
  Qed.

  (* inserting keeps every level, up to ==, and adds the new one *)
  Lemma ins_q_covers x l y : y = x \/ In y l -> exists y', In y' (ins_q x l) /\ y' == y.
  Proof.
    assert (Same : forall m : list Q, In y m -> exists y', In y' m /\ y' == y) by (intros m H; exists y; split; [exact H | reflexivity]).
    induction l as [|z l IH]; cbn [ins_q].
    - intros [->|[]]. apply Same. left. reflexivity.
    - destruct (qltb x z); [intros [->|H]; apply Same; [left; reflexivity | right; exact H]|].
      destruct (qeqb x z) eqn:E.
      + apply qeqb_eq in E. intros [->|H]; [|apply Same; exact H].
        exists z. split; [left; reflexivity | symmetry; exact E].
      + intros [->|[->|H]]; [|apply Same; left; reflexivity|];
          (destruct IH as (y' & I1 & I2); [auto|]; exists y'; split; [right; exact I1 | exact I2]).
  Qed.

  Lemma ins_q_sorted x l : StronglySorted Qlt l -> StronglySorted Qlt (ins_q x l).
  Proof.
    induction l as [|z l IH]; intros Hs; cbn.
    - constructor; constructor.
    - inversion Hs as [|? ? Hl Hz]. subst.
      destruct (qltb x z) eqn:E1.
      + apply qltb_lt in E1. constructor; [exact Hs|]. constructor; [exact E1|].
        rewrite Forall_forall in *. intros w Hw. eapply Qlt_trans; [exact E1 | apply Hz; exact Hw].
      + destruct (qeqb x z) eqn:E2; [exact Hs|].
        apply qltb_ge in E1.
        assert (Hzx : z < x).
        { destruct (Qlt_le_dec z x) as [Y|Y]; [exact Y|]. exfalso.
          assert (X : x == z) by lra. apply qeqb_eq in X. congruence. }
        constructor; [apply IH; exact Hl|].
        rewrite Forall_forall in *. intros w Hw. apply ins_q_in in Hw. destruct Hw as [->|Hw]; [exact Hzx | apply Hz; exact Hw].
  Qed.

  Lemma level_list_sorted (cs : list centry) : StronglySorted Qlt (level_list A cs).
  Proof.
    unfold level_list. induction (List.concat (map (fun c : centry => match e_levels c with Some l => l | None => [] end) cs)) as [|x l IH]; cbn.
    - constructor.
    - apply ins_q_sorted. exact IH.
  Qed.

  Definition ord_le (a b : centry) : Prop := e_order a <= e_order b.

  Lemma ins_c_perm x l : Permutation (ins_c A x l) (x :: l).
  Proof.
    induction l as [|y l IH]; cbn; [reflexivity|].
    destruct (qleb (e_order x) (e_order y)); [reflexivity|].
    rewrite IH. apply perm_swap.
  Qed.
  Lemma sort_c_perm l : Permutation (sort_c A l) l.
  Proof.
    induction l as [|x l IH]; cbn; [reflexivity|]. rewrite ins_c_perm. constructor. exact IH.
  Qed.
  Lemma ins_c_sorted x l : StronglySorted ord_le l -> StronglySorted ord_le (ins_c A x l).
  Proof.
    induction l as [|y l IH]; intros Hs; cbn.
    - constructor; constructor.
    - inversion Hs as [|? ? Hl Hy]. subst.
      destruct (qleb (e_order x) (e_order y)) eqn:E.
      + apply qleb_le in E. constructor; [exact Hs|]. constructor; [exact E|].
        rewrite Forall_forall in *. intros w Hw. unfold ord_le in *. eapply Qle_trans; [exact E | apply Hy; exact Hw].
      + assert (Hyx : e_order y <= e_order x).
        { destruct (Qlt_le_dec (e_order y) (e_order x)) as [Y|Y]; [apply Qlt_le_weak; exact Y|].
          apply qleb_le in Y. congruence. }
        constructor; [apply IH; exact Hl|].
        rewrite Forall_forall in *. intros w Hw.
        apply (Permutation_in _ (ins_c_perm x l)) in Hw. destruct Hw as [<-|Hw]; [exact Hyx | apply Hy; exact Hw].
  Qed.
  Lemma sort_c_sorted l : StronglySorted ord_le (sort_c A l).
  Proof. induction l as [|x l IH]; cbn; [constructor | apply ins_c_sorted; exact IH]. Qed.
End OrderProofs.

Definition tc0 : tapc := {| t_trafo := 1; t_bus := 2; t_min := -(2); t_max := 2; t_dir := true; t_ntd := false |}.
Definition tc1 : tapc := {| t_trafo := 0; t_bus := 1; t_min := -(9); t_max := 9; t_dir := true; t_ntd := false |}.
Definition mk (c : nat) (k : kind) (lv : Q) : entry :=
  Build_centry (c, k) (Some [lv]) 0 true true.

(* the reproduced case: tap controller of the 20/0.4 kV transformer at level 0 (band [0.98,1.02] at bus 2), tap controller
   of the 110/20 kV transformer at level 1 (band [1.03,1.06] at bus 1); voltages as recorded from runpp (rounded) *)
Definition w_cs : list entry :=
  [ mk 0 (KDisc tc0 (98#100) (102#100)) 0; mk 1 (KDisc tc1 (103#100) (106#100)) 1 ].
Definition w_res (v1 v2 : Q) : slots * bool := ([(0%nat, Some 1); (1%nat, Some v1); (2%nat, Some v2)], true).
Definition w_state : cst :=
  {| vars := [(0%nat, Some 0); (1%nat, Some 0)]; res := []; applied := []; attrs := [];
     stream := [ w_res (9817#10000) (9634#10000); w_res (9817#10000) (9891#10000); w_res (9973#10000) (10053#10000);
                 w_res (10133#10000) (10221#10000); w_res (10298#10000) (10393#10000); w_res (10469#10000) (10571#10000) ] |}.

Lemma tap_ctrl_pure c t lo up : forall s, snd (c_conv (mk_ctrl c (KDisc t lo up)) s) = s.
Proof. reflexivity. Qed.

Definition e0 : entry := mk 0 (KDisc tc0 (98#100) (102#100)) 0.
(* run_control returns normally and controller e reports "not converged" on the returned state *)
Definition unconverged_on_return (max_iter : Z) (cel : bool) (cs : list entry) (s : cst) (e : entry) : bool :=
  match run_net max_iter false cel cs s with
  | Some (Ok, s', _) => negb (fst (c_conv (to_ctrl e) s'))
  | _ => false
  end.
Lemma unconverged_on_return_spec max_iter cel cs s e :
  unconverged_on_return max_iter cel cs s e = true ->
  exists s' t, run_net max_iter false cel cs s = Some (Ok, s', t) /\ fst (c_conv (to_ctrl e) s') = false.
Proof.
  unfold unconverged_on_return. destruct (run_net max_iter false cel cs s) as [[[[] s'] t]|]; try discriminate.
  intros H. exists s', t. split; [reflexivity | apply negb_true_iff; exact H].
Qed.

(* check_each_level = False: one level that exhausts max_iter followed by an empty level (created by an out-of-service
   controller's level) returns normally *)
Definition w2_cs : list entry :=
  [ mk 0 (KDisc tc0 (98#100) (102#100)) 0; Build_centry (1%nat, KConst) (Some [1]) 0 false true ].
Definition w2_state : cst :=
  {| vars := [(0%nat, Some 0); (1%nat, Some 0)]; res := []; applied := []; attrs := [];
     stream := [ w_res (9817#10000) (9300#10000); w_res (9817#10000) (9550#10000) ] |}.

(* CharacteristicControl: single level, normal return, but the element value was rewritten after the last calculation *)
Definition w3_cs : list entry :=
  [ mk 0 (KChar true 5 7 [(94#100, 1#10); (98#100, 0); (102#100, 0); (106#100, -(1#10))] (1#1000)) 0 ].
Definition w3_state : cst :=
  {| vars := [(7%nat, Some 0)]; res := []; applied := [(0%nat, false)]; attrs := [];
     stream := [ ([(5%nat, Some (1040#1000))], true); ([(5%nat, Some (10398#10000))], true); ([(5%nat, Some (10398#10000))], true) ] |}.
Definition last_run_vars (t : list (ev cst)) : option slots :=
  fold_left (fun acc e => match e with ERun _ s => Some (vars s) | _ => acc end) t None.
Definition feq_opt (a b : F) : bool :=
  match a, b with Some x, Some y => qeqb x y | None, None => true | _, _ => false end.
(* a normal return on which element value k differs from the one the last calculation has seen *)
Definition stale_on_return (r : option (outcome * cst * list (ev cst))) (k : nat) : bool :=
  match r with
  | Some (Ok, s', t) => match last_run_vars t with Some v => negb (feq_opt (get k v) (get k (vars s'))) | None => false end
  | _ => false
  end.
Lemma stale_on_return_spec r k :
  stale_on_return r k = true ->
  exists s' t, r = Some (Ok, s', t) /\ exists v, last_run_vars t = Some v /\ feq_opt (get k v) (get k (vars s')) = false.
Proof.
  unfold stale_on_return. destruct r as [[[[] s'] t]|]; try discriminate.
  destruct (last_run_vars t) as [v|] eqn:L; [|discriminate].
  intros H. exists s', t. split; [reflexivity|]. exists v. split; [exact L | apply negb_true_iff; exact H].
Qed.

(* exactly on the band edge the discrete controller is neither converged nor able to move: the loop ends with
   ControllerNotConverged (no violation of the property, recorded as a remark) *)
Lemma disc_band_edge_livelock :
  exists t lo up s, disc_conv t lo up s = false /\ vars (disc_step t lo up s) = vars s.
Proof.
  exists tc0, (98#100), (102#100),
    {| vars := [(1%nat, Some 0)]; res := [(2%nat, Some (98#100))]; applied := []; attrs := []; stream := [] |}.
  split; reflexivity.
Qed.

(* every modelled controller kind has a pure is_converged: the freshness theorem applies to all of them *)
Lemma mk_ctrl_pure c k : forall s, snd (c_conv (mk_ctrl c k) s) = s.
Proof. destruct k; reflexivity. Qed.
(* the CharacteristicControl run w3 under run_net (set values written in control_step, not in is_converged): the element
   value on return is the one the last calculation has seen *)
Definition fresh_on_return (cs : list entry) (s : cst) (k : nat) : bool :=
  match run_net 30 false true cs s with
  | Some (Ok, s', t) => match last_run_vars t with Some v => feq_opt (get k v) (get k (vars s')) | None => false end
  | _ => false
  end.
Lemma fresh_check : fresh_on_return w3_cs w3_state 7 = true.
Proof. vm_compute. reflexivity. Qed.
