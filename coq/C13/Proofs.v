From Coq Require Import ZArith List Bool Lia.
From PPV Require Import Base.QN C13.Model C13.Simulation.
Import ListNotations.
Open Scope Q_scope.

Lemma Forall2_diag (A : Type) (R : A -> A -> Prop) l : Forall2 R l l <-> Forall (fun x => R x x) l.
Proof. induction l as [|x l IH]; split; intros H; inversion H; subst; constructor; tauto. Qed.

Section LoopProofs.
  Variable St : Type.
  Variable run : St -> St * bool.
  Notation ctrl := (ctrl St).
  Notation ev := (ev St).

  Definition pure (c : ctrl) : Prop := forall s, snd (c_conv c s) = s.
  Definition conv_at (s : St) (c : ctrl) : Prop := fst (c_conv c s) = true.
  Definition convs (l : list ctrl) (s : St) : list ev := map (fun c => EConv (cid c) true s) l.

  (* a pass reports True exactly when every controller of the level reported convergence; with pure is_converged
     nothing was written and no control_step ran *)
  Lemma pass_true l : forall s s' t,
    Forall pure l -> pass St l s = (true, s', t) ->
    s' = s /\ Forall (conv_at s) l /\ t = convs l s.
  Proof.
    induction l as [|c l IH]; intros s s' t Hp H; cbn in H.
    - inversion H. subst. repeat split. constructor.
    - inversion Hp as [|? ? Hc Hl]. subst.
      destruct (c_conv c s) as [b s1] eqn:E.
      assert (Hs1 : s1 = s) by (specialize (Hc s); rewrite E in Hc; exact Hc).
      destruct b.
      + destruct (pass St l s1) as [[r s2] t2] eqn:E2. inversion H. subst r s2 t.
        destruct (IH _ _ _ Hl E2) as (A & B & C). subst s1. subst s'.
        repeat split.
        * constructor; [unfold conv_at; rewrite E; reflexivity | exact B].
        * cbn. rewrite C. reflexivity.
      + destruct (pass St l (c_step c s1)) as [[r s3] t3]. inversion H.
  Qed.

  Definition is_step (e : ev) : bool := match e with EStep _ _ => true | _ => false end.
  Definition is_run (e : ev) : bool := match e with ERun _ _ => true | _ => false end.

  (* results are fresh on exit: the level did nothing at all, or the last thing that happened before the final round of
     is_converged calls is a calculation whose output is exactly the returned state *)
  Definition fresh_exit (l : list ctrl) (s0 s' : St) (t : list ev) : Prop :=
    (s' = s0 /\ t = convs l s') \/ (exists pre ok, t = pre ++ ERun ok s' :: convs l s').

  Lemma evaluate_last cod l s r t :
    evaluate St run cod l s = (Some r, t) -> exists pre, t = pre ++ [ERun (snd r) (fst r)].
  Proof.
    unfold evaluate. destruct (run s) as [s1 ok]. destruct ok.
    - intros H. inversion H. exists []. reflexivity.
    - destruct cod; [|discriminate].
      destruct (run (apply_all St c_repair l s1)) as [s3 ok3]. intros H. inversion H. subst.
      exists (ERun false s1 :: map (fun c => ERepair (cid c)) l). cbn. reflexivity.
  Qed.

  Lemma level_loop_done fuel : forall cod l s netc rc s' netc' rc' t,
    Forall pure l ->
    level_loop St run fuel cod l s netc rc = (LDone true s' netc' rc', t) ->
    Forall (conv_at s') l /\ fresh_exit l s s' t.
  Proof.
    induction fuel as [|f IH]; intros cod l s netc rc s' netc' rc' t Hp H; cbn in H.
    - inversion H.
    - destruct (pass St l s) as [[cv s1] t1] eqn:E1. destruct cv.
      + inversion H. subst. destruct (pass_true _ _ _ _ Hp E1) as (A & B & C). subst.
        split; [exact B | left; split; reflexivity].
      + destruct (evaluate St run cod l s1) as [[[s2 netc2]|] t2] eqn:E2; [|inversion H].
        destruct (level_loop St run f cod l s2 netc2 (S rc)) as [r t3] eqn:E3.
        inversion H. subst r t.
        destruct (IH _ _ _ _ _ _ _ _ _ Hp E3) as (A & B).
        split; [exact A|].
        right. destruct (evaluate_last _ _ _ _ _ E2) as [pre Hpre]. cbn in Hpre.
        destruct B as [[B1 B2]|[pre' [ok' B2]]].
        * subst s'. exists (t1 ++ pre), netc2. rewrite B2, Hpre.
          rewrite <- !app_assoc. reflexivity.
        * exists (t1 ++ t2 ++ pre'), ok'. rewrite B2. rewrite <- !app_assoc. reflexivity.
  Qed.

  (* run_count on leaving the loop: the passes are used up exactly when the loop was not left through ctrl_converged *)
  Lemma level_loop_rc fuel : forall cod l s netc rc cc s' netc' rc' t,
    level_loop St run fuel cod l s netc rc = (LDone cc s' netc' rc', t) ->
    if cc then (rc' < rc + fuel)%nat else rc' = (rc + fuel)%nat.
  Proof.
    induction fuel as [|f IH]; intros cod l s netc rc cc s' netc' rc' t H; cbn in H.
    - inversion H. lia.
    - destruct (pass St l s) as [[cv s1] t1]. destruct cv; [inversion H; lia|].
      destruct (evaluate St run cod l s1) as [[[s2 netc2]|] t2]; [|inversion H].
      destruct (level_loop St run f cod l s2 netc2 (S rc)) as [r t3] eqn:E3. inversion H. subst r.
      apply IH in E3. destruct cc; lia.
  Qed.

  (* exit condition of one level: the check after the loop passes exactly when the loop was left through
     ctrl_converged = True with a converged calculation; otherwise one of the two errors is raised *)
  Lemma exit_or_raise max_iter cod l s netc cc s' netc' rc' t :
    run_level St run max_iter cod l s netc = (LDone cc s' netc' rc', t) ->
    (check_final rc' max_iter netc' = Ok <-> cc = true /\ netc' = true) /\
    (cc = false -> netc = true -> check_final rc' max_iter netc' = ErrCtrl) /\
    (netc = false -> check_final rc' max_iter netc' <> Ok).
  Proof.
    unfold run_level, check_final. destruct netc.
    - intros H. apply level_loop_rc in H. unfold passes_allowed in H. destruct cc.
      + replace (max_iter <? Z.of_nat rc')%Z with false by (symmetry; apply Z.ltb_ge; lia).
        destruct netc'; cbn; intuition congruence.
      + replace (max_iter <? Z.of_nat rc')%Z with true by (symmetry; apply Z.ltb_lt; lia).
        intuition congruence.
    - intros H. inversion H. subst. cbn [negb].
      destruct (max_iter <? Z.of_nat 0)%Z; intuition congruence.
  Qed.

  (* level exit: the returned state is one on which every controller of the level reported convergence, and it is fresh *)
  Lemma level_exit_converged max_iter cod l s netc s' netc' rc' t :
    Forall pure l ->
    run_level St run max_iter cod l s netc = (LDone true s' netc' rc', t) ->
    Forall (conv_at s') l /\ fresh_exit l (apply_all St c_reset l s) s' t.
  Proof.
    unfold run_level. intros Hp. destruct netc.
    - apply level_loop_done. exact Hp.
    - intros H. inversion H.
  Qed.

  Definition empty_level (l : list ctrl) : Prop := l = [].

  Lemma run_level_empty max_iter cod s netc r t :
    run_level St run max_iter cod [] s netc = (r, t) ->
    exists cc rc, r = LDone cc s netc rc.
  Proof.
    unfold run_level. cbn. destruct netc.
    - destruct (passes_allowed max_iter); cbn; intros H; inversion H; eauto.
    - intros H. inversion H. eauto.
  Qed.

  (* one turn of the loop over the levels that ends in a normal return *)
  Lemma levels_loop_cons_ok max_iter cod cel l ls s netc rc s' t :
    levels_loop St run max_iter cod cel (l :: ls) s netc rc = (Ok, s', t) ->
    exists cc s1 netc1 rc1 t1 t2,
      run_level St run max_iter cod l s netc = (LDone cc s1 netc1 rc1, t1) /\
      (cel = true -> check_final rc1 max_iter netc1 = Ok) /\
      levels_loop St run max_iter cod cel ls s1 netc1 rc1 = (Ok, s', t2).
  Proof.
    cbn. destruct (run_level St run max_iter cod l s netc) as [[cc s1 netc1 rc1|s1] t1]; [|discriminate].
    destruct (if cel then check_final rc1 max_iter netc1 else Ok) eqn:Ec; try discriminate.
    destruct (levels_loop St run max_iter cod cel ls s1 netc1 rc1) as [[o s2] t2] eqn:L.
    intros H. inversion H. subst. exists cc, s1, netc1, rc1, t1, t2.
    split; [reflexivity|]. split; [intros ->; exact Ec | exact L].
  Qed.

  (* a level whose check passes was left on a state on which all its controllers reported convergence *)
  Lemma checked_level_converged max_iter cod l s netc cc s' netc' rc' t :
    Forall pure l -> run_level St run max_iter cod l s netc = (LDone cc s' netc' rc', t) ->
    check_final rc' max_iter netc' = Ok -> Forall (conv_at s') l.
  Proof.
    intros Hp E Hc. apply (proj1 (exit_or_raise _ _ _ _ _ _ _ _ _ _ E)) in Hc. destruct Hc as [-> _].
    exact (proj1 (level_exit_converged _ _ _ _ _ _ _ _ _ Hp E)).
  Qed.

  Lemma empty_levels_noop max_iter cod cel ls : forall s netc rc s' t,
    Forall empty_level ls -> levels_loop St run max_iter cod cel ls s netc rc = (Ok, s', t) -> s' = s.
  Proof.
    induction ls as [|l ls IH]; intros s netc rc s' t He H.
    - inversion H. reflexivity.
    - inversion He as [|? ? -> Hls].
      destruct (levels_loop_cons_ok _ _ _ _ _ _ _ _ _ _ H) as (cc & s1 & netc1 & rc1 & t1 & t2 & E & _ & L).
      destruct (run_level_empty _ _ _ _ _ _ E) as (? & ? & [= _ <- _ _]). exact (IH _ _ _ _ _ Hls L).
  Qed.

  Definition nonempty (l : list ctrl) : bool := match l with [] => false | _ => true end.

  Lemma G13_cons_nonempty c l ls : G13 ((c :: l) :: ls) = true -> Forall empty_level ls.
  Proof.
    unfold G13. cbn [filter List.length].
    induction ls as [|[|c' l'] ls IH]; cbn; intros H;
      [constructor | constructor; [reflexivity | exact (IH H)] | discriminate H].
  Qed.

  Lemma single_level_all_converged max_iter cod ls : forall s netc rc s' t,
    G13 ls = true -> Forall (Forall pure) ls ->
    levels_loop St run max_iter cod true ls s netc rc = (Ok, s', t) ->
    Forall (conv_at s') (List.concat ls).
  Proof.
    induction ls as [|l ls IH]; intros s netc rc s' t HG Hp H; [constructor|].
    inversion Hp as [|? ? Hpl Hpls]. subst.
    destruct (levels_loop_cons_ok _ _ _ _ _ _ _ _ _ _ H) as (cc & s1 & netc1 & rc1 & t1 & t2 & E & Hc & L).
    destruct l as [|c l].
    - exact (IH _ _ _ _ _ HG Hpls L).
    - (* the levels that follow are empty: they leave the state alone *)
      pose proof (G13_cons_nonempty _ _ _ HG) as Hemp.
      rewrite (empty_levels_noop _ _ _ _ _ _ _ _ _ Hemp L).
      cbn [List.concat]. apply Forall_app. split; [exact (checked_level_converged _ _ _ _ _ _ _ _ _ _ Hpl E (Hc eq_refl))|].
      replace (List.concat ls) with (@nil ctrl); [constructor|].
      clear -Hemp. induction Hemp as [|? ? -> _ IHl]; [reflexivity | exact IHl].
  Qed.

  (* invariants: a predicate kept by every controller method and by the calculation holds for the returned state *)
  Variable P : St -> Prop.
  Definition keeps (c : ctrl) : Prop :=
    (forall s, P s -> P (snd (c_conv c s))) /\ (forall s, P s -> P (c_step c s)) /\
    (forall s, P s -> P (c_repair c s)) /\ (forall s, P s -> P (c_init c s)) /\
    (forall s, P s -> P (c_reset c s)) /\ (forall s, P s -> P (c_final c s)).
  Hypothesis run_keeps : forall s, P s -> P (fst (run s)).

  Definition ev_state (e : ev) : option St :=
    match e with EConv _ _ s => Some s | EStep _ s => Some s | ERun _ s => Some s | ERepair _ => None end.
  Definition trace_ok (t : list ev) : Prop := forall e s, In e t -> ev_state e = Some s -> P s.

  (* an invariant is a simulation of the loop by itself, along the diagonal of the states that satisfy P *)
  Definition diag (s1 s2 : St) : Prop := s1 = s2 /\ P s1.

  Lemma keeps_sim c : keeps c -> sim_ctrl St diag c c.
  Proof.
    intros (K1 & K2 & K3 & K4 & K5 & K6).
    assert (D : forall f : St -> St, (forall s, P s -> P (f s)) -> forall s1 s2, diag s1 s2 -> diag (f s1) (f s2)).
    { intros f Hf s ? [<- Hs]. split; [reflexivity | exact (Hf s Hs)]. }
    split; [reflexivity|]. split; [|repeat apply conj; apply D; assumption].
    intros s ? [<- Hs]. split; [reflexivity|]. split; [reflexivity | exact (K1 s Hs)].
  Qed.

  (* every state written to the trace by run_control, and the returned state, satisfy the invariant *)
  Lemma run_control_keeps max_iter cod cel ir ls s o s' t :
    Forall (Forall keeps) ls -> P s ->
    run_control St run max_iter cod cel ir ls s = (o, s', t) -> trace_ok t /\ P s'.
  Proof.
    intros Hk Hs E.
    assert (Hrun : forall s1 s2, diag s1 s2 -> diag (fst (run s1)) (fst (run s2)) /\ snd (run s1) = snd (run s2)).
    { intros x ? [<- Hx]. repeat split. exact (run_keeps x Hx). }
    assert (Hls : Forall2 (Forall2 (sim_ctrl St diag)) ls ls).
    { apply Forall2_diag. eapply Forall_impl; [|exact Hk]. intros l Hl.
      apply Forall2_diag. eapply Forall_impl; [|exact Hl]. exact keeps_sim. }
    destruct (run_control_sim St run diag Hrun max_iter cod cel ir ls ls s s Hls (conj eq_refl Hs)) as (_ & [_ Hs'] & Ht).
    rewrite E in Hs', Ht. split; [|exact Hs'].
    apply Forall2_diag in Ht. rewrite Forall_forall in Ht.
    intros e x He Hx. specialize (Ht e He). destruct e; inversion Hx; subst; cbn in Ht; unfold diag in Ht; tauto.
  Qed.
End LoopProofs.
