(* C13 — simulation theorem for the controller loop: two controller sets whose methods respect a relation R on states
   (and report the same verdicts on related states) produce the same outcome, related returned states and call traces
   that are related event by event.  Instance: hunting_limit of DiscreteTapControl can be changed arbitrarily. *)
From Coq Require Import ZArith QArith List Bool Lia.
From PPV Require Import Base.QN C13.Model.
Import ListNotations.

Section Sim.
  Variable St : Type.
  Variable run : St -> St * bool.
  Variable R : St -> St -> Prop.
  Hypothesis run_sim : forall s1 s2, R s1 s2 -> R (fst (run s1)) (fst (run s2)) /\ snd (run s1) = snd (run s2).

  Definition sim_ctrl (c1 c2 : ctrl St) : Prop :=
    cid c1 = cid c2 /\
    (forall s1 s2, R s1 s2 -> fst (c_conv c1 s1) = fst (c_conv c2 s2) /\ R (snd (c_conv c1 s1)) (snd (c_conv c2 s2))) /\
    (forall s1 s2, R s1 s2 -> R (c_step c1 s1) (c_step c2 s2)) /\
    (forall s1 s2, R s1 s2 -> R (c_repair c1 s1) (c_repair c2 s2)) /\
    (forall s1 s2, R s1 s2 -> R (c_init c1 s1) (c_init c2 s2)) /\
    (forall s1 s2, R s1 s2 -> R (c_reset c1 s1) (c_reset c2 s2)) /\
    (forall s1 s2, R s1 s2 -> R (c_final c1 s1) (c_final c2 s2)).

  Definition ev_rel (e1 e2 : ev St) : Prop :=
    match e1, e2 with
    | EConv c b s, EConv c' b' s' => c = c' /\ b = b' /\ R s s'
    | EStep c s, EStep c' s' => c = c' /\ R s s'
    | ERun ok s, ERun ok' s' => ok = ok' /\ R s s'
    | ERepair c, ERepair c' => c = c'
    | _, _ => False
    end.
  Definition tr_rel := Forall2 ev_rel.
  (* two results (verdict or outcome, state, call trace) of the same function on related inputs *)
  Definition out_rel {A : Type} (r1 r2 : A * St * list (ev St)) : Prop :=
    fst (fst r1) = fst (fst r2) /\ R (snd (fst r1)) (snd (fst r2)) /\ tr_rel (snd r1) (snd r2).

  Lemma pass_sim l1 l2 : Forall2 sim_ctrl l1 l2 -> forall s1 s2, R s1 s2 -> out_rel (pass St l1 s1) (pass St l2 s2).
  Proof.
    induction 1 as [|c1 c2 l1 l2 Hc Hl IH]; intros s1 s2 HR; cbn [pass].
    - repeat split; [exact HR | constructor].
    - destruct Hc as (Hid & Hcv & Hst & _).
      destruct (Hcv s1 s2 HR) as [Eb HR1].
      destruct (c_conv c1 s1) as [b1 s1'], (c_conv c2 s2) as [b2 s2']. cbn [fst snd] in Eb, HR1. subst b2.
      destruct b1.
      + destruct (IH s1' s2' HR1) as (E1 & E2 & E3).
        destruct (pass St l1 s1') as [[r1 x1] t1], (pass St l2 s2') as [[r2 x2] t2]. cbn [fst snd] in *.
        repeat split; [exact E1 | exact E2 |]. constructor; [cbn; rewrite Hid; auto | exact E3].
      + pose proof (Hst s1' s2' HR1) as HR2.
        destruct (IH _ _ HR2) as (E1 & E2 & E3).
        destruct (pass St l1 (c_step c1 s1')) as [[r1 x1] t1], (pass St l2 (c_step c2 s2')) as [[r2 x2] t2]. cbn [fst snd] in *.
        repeat split; [exact E2|]. constructor; [cbn; rewrite Hid; auto|]. constructor; [cbn; rewrite Hid; auto | exact E3].
  Qed.

  Lemma apply_all_sim (f : ctrl St -> St -> St) l1 l2 :
    (forall c1 c2, sim_ctrl c1 c2 -> forall s1 s2, R s1 s2 -> R (f c1 s1) (f c2 s2)) ->
    Forall2 sim_ctrl l1 l2 -> forall s1 s2, R s1 s2 -> R (apply_all St f l1 s1) (apply_all St f l2 s2).
  Proof.
    intros Hf. unfold apply_all. induction 1 as [|c1 c2 l1 l2 Hc Hl IH]; intros s1 s2 HR; cbn [fold_left]; [exact HR|].
    apply IH. apply Hf; assumption.
  Qed.

  Lemma repairs_rel l1 l2 : Forall2 sim_ctrl l1 l2 ->
    tr_rel (map (fun c => ERepair (cid c)) l1) (map (fun c => ERepair (cid c)) l2).
  Proof. induction 1 as [|c1 c2 l1 l2 Hc Hl IH]; cbn [map]; constructor; [cbn; exact (proj1 Hc) | exact IH]. Qed.

  Definition eres_rel (r1 r2 : option (St * bool) * list (ev St)) : Prop :=
    match fst r1, fst r2 with
    | Some (s, b), Some (s', b') => R s s' /\ b = b'
    | None, None => True
    | _, _ => False
    end /\ tr_rel (snd r1) (snd r2).

  Lemma evaluate_sim cod l1 l2 s1 s2 : Forall2 sim_ctrl l1 l2 -> R s1 s2 ->
    eres_rel (evaluate St run cod l1 s1) (evaluate St run cod l2 s2).
  Proof.
    intros Hl HR. unfold evaluate, eres_rel.
    destruct (run_sim s1 s2 HR) as [HR1 Eok].
    destruct (run s1) as [x1 ok1], (run s2) as [x2 ok2]. cbn [fst snd] in HR1, Eok. subst ok2.
    destruct ok1.
    - cbn [fst snd]. split; [split; [exact HR1 | reflexivity]|]. constructor; [cbn; auto | constructor].
    - destruct cod.
      + assert (HR2 : R (apply_all St c_repair l1 x1) (apply_all St c_repair l2 x2)).
        { apply apply_all_sim; [|exact Hl | exact HR1]. intros c1 c2 Hc. apply Hc. }
        destruct (run_sim _ _ HR2) as [HR3 Eok3].
        destruct (run (apply_all St c_repair l1 x1)) as [y1 k1], (run (apply_all St c_repair l2 x2)) as [y2 k2].
        cbn [fst snd] in *. subst k2. split; [split; [exact HR3 | reflexivity]|].
        constructor; [cbn; auto|]. apply Forall2_app; [apply repairs_rel; exact Hl|]. constructor; [cbn; auto | constructor].
      + cbn [fst snd]. split; [exact I|]. constructor; [cbn; auto | constructor].
  Qed.

  Definition lres_rel (r1 r2 : lres St) : Prop :=
    match r1, r2 with
    | LDone cc s netc rc, LDone cc' s' netc' rc' => cc = cc' /\ R s s' /\ netc = netc' /\ rc = rc'
    | LRaise s, LRaise s' => R s s'
    | _, _ => False
    end.

  Definition lev_rel (r1 r2 : lres St * list (ev St)) : Prop := lres_rel (fst r1) (fst r2) /\ tr_rel (snd r1) (snd r2).

  Lemma level_loop_sim fuel : forall cod l1 l2 s1 s2 netc rc, Forall2 sim_ctrl l1 l2 -> R s1 s2 ->
    lev_rel (level_loop St run fuel cod l1 s1 netc rc) (level_loop St run fuel cod l2 s2 netc rc).
  Proof.
    induction fuel as [|f IH]; intros cod l1 l2 s1 s2 netc rc Hl HR; cbn [level_loop].
    - cbn. repeat split; [exact HR | constructor].
    - destruct (pass_sim l1 l2 Hl s1 s2 HR) as (E1 & E2 & E3).
      destruct (pass St l1 s1) as [[cv1 x1] t1], (pass St l2 s2) as [[cv2 x2] t2]. cbn [fst snd] in E1, E2, E3. subst cv2.
      destruct cv1; [cbn; repeat split; assumption|].
      pose proof (evaluate_sim cod l1 l2 x1 x2 Hl E2) as [Ev Et].
      destruct (evaluate St run cod l1 x1) as [o1 u1], (evaluate St run cod l2 x2) as [o2 u2]. cbn [fst snd] in Ev, Et.
      destruct o1 as [[y1 n1]|], o2 as [[y2 n2]|]; try contradiction.
      + destruct Ev as [HRy ->].
        destruct (IH cod l1 l2 y1 y2 n2 (S rc) Hl HRy) as [F1 F2].
        destruct (level_loop St run f cod l1 y1 n2 (S rc)) as [r1 v1], (level_loop St run f cod l2 y2 n2 (S rc)) as [r2 v2].
        cbn [fst snd] in *. split; [exact F1|]. apply Forall2_app; [exact E3|]. apply Forall2_app; assumption.
      + cbn [fst snd]. split; [exact E2|]. apply Forall2_app; assumption.
  Qed.

  Lemma run_level_sim max_iter cod l1 l2 s1 s2 netc : Forall2 sim_ctrl l1 l2 -> R s1 s2 ->
    lev_rel (run_level St run max_iter cod l1 s1 netc) (run_level St run max_iter cod l2 s2 netc).
  Proof.
    intros Hl HR. unfold run_level.
    assert (HR0 : R (apply_all St c_reset l1 s1) (apply_all St c_reset l2 s2)).
    { apply apply_all_sim; [|exact Hl | exact HR]. intros c1 c2 Hc. apply Hc. }
    destruct netc; [apply level_loop_sim; assumption|]. cbn. repeat split; [exact HR0 | constructor].
  Qed.

  Lemma levels_loop_sim max_iter cod cel ls1 ls2 : Forall2 (Forall2 sim_ctrl) ls1 ls2 -> forall s1 s2 netc rc, R s1 s2 ->
    out_rel (levels_loop St run max_iter cod cel ls1 s1 netc rc) (levels_loop St run max_iter cod cel ls2 s2 netc rc).
  Proof.
    induction 1 as [|l1 l2 ls1 ls2 Hl Hls IH]; intros s1 s2 netc rc HR; cbn [levels_loop].
    - cbn. repeat split; [exact HR | constructor].
    - destruct (run_level_sim max_iter cod l1 l2 s1 s2 netc Hl HR) as [F1 F2].
      destruct (run_level St run max_iter cod l1 s1 netc) as [r1 t1], (run_level St run max_iter cod l2 s2 netc) as [r2 t2].
      cbn [fst snd] in F1, F2.
      destruct r1 as [cc1 x1 n1 k1|x1], r2 as [cc2 x2 n2 k2|x2]; cbn in F1; try contradiction.
      + destruct F1 as (-> & HRx & -> & ->).
        destruct (if cel then check_final k2 max_iter n2 else Ok); try (cbn; repeat split; assumption).
        destruct (IH x1 x2 n2 k2 HRx) as (G1 & G2 & G3).
        destruct (levels_loop St run max_iter cod cel ls1 x1 n2 k2) as [[o1 y1] u1],
                 (levels_loop St run max_iter cod cel ls2 x2 n2 k2) as [[o2 y2] u2]. cbn [fst snd] in *.
        repeat split; [exact G1 | exact G2 | apply Forall2_app; assumption].
      + cbn. repeat split; assumption.
  Qed.

  Lemma Forall2_concat (A B : Type) (P : A -> B -> Prop) (ls1 : list (list A)) (ls2 : list (list B)) :
    Forall2 (Forall2 P) ls1 ls2 -> Forall2 P (List.concat ls1) (List.concat ls2).
  Proof. induction 1; cbn [List.concat]; [constructor | apply Forall2_app; assumption]. Qed.

  Theorem run_control_sim max_iter cod cel ir ls1 ls2 s1 s2 :
    Forall2 (Forall2 sim_ctrl) ls1 ls2 -> R s1 s2 ->
    out_rel (run_control St run max_iter cod cel ir ls1 s1) (run_control St run max_iter cod cel ir ls2 s2).
  Proof.
    intros Hls HR. unfold run_control.
    pose proof (Forall2_concat _ _ sim_ctrl ls1 ls2 Hls) as Hc.
    assert (HR0 : R (apply_all St c_init (List.concat ls1) s1) (apply_all St c_init (List.concat ls2) s2)).
    { apply apply_all_sim; [|exact Hc | exact HR]. intros c1 c2 H. apply H. }
    set (a1 := apply_all St c_init (List.concat ls1) s1) in *. set (a2 := apply_all St c_init (List.concat ls2) s2) in *.
    assert (Fin : forall x1 x2, R x1 x2 -> R (apply_all St c_final (List.concat ls1) x1) (apply_all St c_final (List.concat ls2) x2)).
    { intros x1 x2 HX. apply apply_all_sim; [|exact Hc | exact HX]. intros c1 c2 H. apply H. }
    destruct ir.
    - destruct (run_sim a1 a2 HR0) as [HR1 Eok].
      destruct (run a1) as [x1 ok1], (run a2) as [x2 ok2]. cbn [fst snd] in HR1, Eok. subst ok2.
      destruct ok1; cbn [negb].
      + destruct (levels_loop_sim max_iter cod cel ls1 ls2 Hls x1 x2 true 0%nat HR1) as (G1 & G2 & G3).
        destruct (levels_loop St run max_iter cod cel ls1 x1 true 0) as [[o1 y1] u1],
                 (levels_loop St run max_iter cod cel ls2 x2 true 0) as [[o2 y2] u2]. cbn [fst snd] in *. subst o2.
        assert (T : tr_rel ([ERun true x1] ++ u1) ([ERun true x2] ++ u2)).
        { apply Forall2_app; [|exact G3]. constructor; [cbn; auto | constructor]. }
        destruct o1; cbn [fst snd]; repeat split; try assumption. apply Fin. exact G2.
      + cbn. repeat split; [exact HR1|]. constructor; [cbn; auto | constructor].
    - destruct (levels_loop_sim max_iter cod cel ls1 ls2 Hls a1 a2 true 0%nat HR0) as (G1 & G2 & G3).
      destruct (levels_loop St run max_iter cod cel ls1 a1 true 0) as [[o1 y1] u1],
               (levels_loop St run max_iter cod cel ls2 a2 true 0) as [[o2 y2] u2]. cbn [fst snd] in *. subst o2.
      destruct o1; cbn [fst snd app]; repeat split; try assumption. apply Fin. exact G2.
  Qed.
End Sim.
