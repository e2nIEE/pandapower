(* C13 — hunting_limit over whole runs: changing the hunting_limit of any DiscreteTapControl (to any value, per controller)
   changes neither the outcome of run_control, nor any verdict or element value in the call trace, nor the returned
   element / result tables (Properties.C13.C13_hunting_limit_irrelevant_over_runs).  Here: the relation Rh, the controllers
   of both tables related by it (sim_mk), and the controller order as a function of levels and orders only; the theorem is
   then an instance of the simulation theorem. *)
From Coq Require Import ZArith QArith List Bool Lia.
From PPV Require Import Base.QN C13.Model C13.Simulation C13.Taps.
Import ListNotations.

Definition is_discv (k : kind) : bool := match k with KDiscV _ _ _ _ _ => true | _ => false end.
Definition set_hl_kind (f : nat -> option nat) (c : nat) (k : kind) : kind :=
  match k with KDiscV ts ntd lo up _ => KDiscV ts ntd lo up (f c) | _ => k end.
Definition set_hl (f : nat -> option nat) (e : entry) : entry :=
  Build_centry (fst (e_obj e), set_hl_kind f (fst (e_obj e)) (snd (e_obj e))) (e_levels e) (e_order e) (e_ins e) (e_initial_run e).

Section Hunt.
  Variable H : list nat.      (* ids of the discrete vector controllers *)
  (* equal except for the attribute matrices of the controllers in H *)
  Definition Rh (s1 s2 : cst) : Prop :=
    vars s1 = vars s2 /\ res s1 = res s2 /\ applied s1 = applied s2 /\ stream s1 = stream s2 /\
    forall c, ~ In c H -> geta c (attrs s1) = geta c (attrs s2).

  Lemma run_stream_sim s1 s2 : Rh s1 s2 -> Rh (fst (run_stream s1)) (fst (run_stream s2)) /\ snd (run_stream s1) = snd (run_stream s2).
  Proof.
    intros (Ev & Er & Ea & Es & Eat). unfold run_stream. rewrite Es.
    destruct (stream s2) as [|[r ok] rest]; cbn; unfold Rh; cbn; repeat split; auto.
  Qed.

  Lemma Rh_vars s1 s2 v1 v2 : Rh s1 s2 -> v1 = v2 -> Rh (with_vars s1 v1) (with_vars s2 v2).
  Proof. intros (Ev & Er & Ea & Es & Eat) E. unfold Rh. cbn. repeat split; assumption. Qed.
  Lemma Rh_applied s1 s2 a : Rh s1 s2 -> Rh (with_applied s1 a) (with_applied s2 a).
  Proof. intros (Ev & Er & Ea & Es & Eat). unfold Rh. cbn. repeat split; auto. Qed.
  (* a row written for controller c: any two rows if c is in H, the same row otherwise *)
  Lemma Rh_attrs c r1 r2 s1 s2 :
    Rh s1 s2 -> In c H \/ r1 = r2 -> Rh (with_attrs s1 (seta c r1 (attrs s1))) (with_attrs s2 (seta c r2 (attrs s2))).
  Proof.
    intros (Ev & Er & Ea & Es & Eat) Hc. unfold Rh. cbn. repeat split; try assumption.
    intros c' Hn. destruct (Nat.eq_dec c' c) as [->|Ne].
    - destruct Hc as [Hc| ->]; [contradiction | rewrite !geta_seta_same; reflexivity].
    - rewrite !geta_seta_other by exact Ne. apply Eat, Hn.
  Qed.

  (* parts: the method clauses of sim_ctrl one by one; those of identity methods and the state half of the is_converged
     clause are closed, the others keep Rh s1 s2 (HR) and its equations.  Every method reads the state through vars, res
     and applied only (rewritten to those of s2), except finalize_control of a restoring TapDependentImpedance *)
  Ltac parts := repeat match goal with |- _ /\ _ => split end;
                intros s1 s2 HR; try exact HR; try (split; [|exact HR]); pose proof HR as (Ev & Er & Ea & Es & Eat).

  Lemma sim_mk c k f :
    (is_discv k = true -> In c H) -> (restores k = true -> ~ In c H) ->
    sim_ctrl cst Rh (mk_ctrl c k) (mk_ctrl c (set_hl_kind f c k)).
  Proof.
    intros HD HT.
    destruct k as [t lo up|t p| |in_res inp out pts tol|ts ntd lo up hl|tks ntd|in_res ios pts tol tdi];
      cbn [set_hl_kind]; unfold sim_ctrl; cbn [mk_ctrl cid c_conv c_step c_repair c_init c_reset c_final fst snd];
      (split; [reflexivity|]).
    - parts.
      + unfold disc_conv. rewrite Ev, Er. reflexivity.
      + unfold disc_step. rewrite Ev, Er. destruct (t_ntd t); [exact HR|].
        destruct (get (t_trafo t) (vars s2)); apply Rh_vars; auto.
    - parts.
      + unfold cont_conv. rewrite Ev, Er. reflexivity.
      + unfold cont_step. rewrite Ev, Er. destruct (t_ntd t); [exact HR|].
        destruct (get (t_bus t) (res s2)); [destruct (get (t_trafo t) (vars s2))|]; apply Rh_vars; auto.
    - parts; rewrite Ea; [reflexivity | apply Rh_applied, HR].
    - parts.
      + unfold char_conv, char_value. cbn [fst]. rewrite Ev, Er, Ea. reflexivity.
      + unfold char_step, char_value. cbn [applied with_vars]. rewrite Ev, Er, Ea. apply Rh_applied, Rh_vars; auto.
      + rewrite Ea. apply Rh_applied, HR.
    - (* discrete over an index array: the only kind whose hunting_limit differs, and whose rows are in H *)
      assert (Hc : In c H) by (apply HD; reflexivity).
      parts.
      + unfold discv_conv, disc_conv. rewrite Ev, Er. reflexivity.
      + unfold discv_step, disc_new_F. destruct ntd; [exact HR|].
        apply Rh_vars; [apply Rh_attrs; auto | cbn [vars with_attrs]; rewrite Ev, Er; reflexivity].
      + apply Rh_attrs; auto.
    - parts.
      + unfold contv_conv, cont_conv. rewrite Ev, Er. reflexivity.
      + unfold contv_step, cont_new_F. destruct ntd; [exact HR|]. rewrite Ev, Er. apply Rh_vars; auto.
    - (* characteristic over an index array / TapDependentImpedance: the row it saves and restores is outside H *)
      parts.
      + unfold charv_conv, charv_ok, char_value. cbn [fst]. rewrite Ev, Er, Ea. reflexivity.
      + unfold charv_step, char_value. cbn [applied with_vars]. rewrite Ev, Er, Ea. apply Rh_applied, Rh_vars; auto.
      + unfold charv_init. destruct tdi as [[|]|]; [rewrite Ev; apply Rh_attrs; auto | exact HR | rewrite Ea; apply Rh_applied, HR].
      + unfold charv_final. destruct tdi as [[|]|]; try exact HR.
        rewrite (Eat c (HT eq_refl)), Ev. destruct (geta c (attrs s2)) as [|row rest]; [exact HR | apply Rh_vars; auto].
  Qed.
End Hunt.

(* the controller order commutes with any map g of the entries that keeps levels, order, in_service and initial_run:
   it does not look at e_obj *)
Section OrderMap.
  Variables (A B : Type) (g : centry A -> centry B).
  Hypothesis g_levels : forall e, e_levels (g e) = e_levels e.
  Hypothesis g_order : forall e, e_order (g e) = e_order e.
  Hypothesis g_ins : forall e, e_ins (g e) = e_ins e.
  Hypothesis g_ir : forall e, e_initial_run (g e) = e_initial_run e.

  Lemma ins_c_map x l : ins_c B (g x) (map g l) = map g (ins_c A x l).
  Proof.
    induction l as [|y l IH]; cbn; [reflexivity|]. rewrite !g_order.
    destruct (qleb (e_order x) (e_order y)); [reflexivity | cbn; rewrite IH; reflexivity].
  Qed.
  Lemma sort_c_map l : sort_c B (map g l) = map g (sort_c A l).
  Proof. unfold sort_c. induction l as [|x l IH]; cbn [map fold_right]; [reflexivity | rewrite IH; apply ins_c_map]. Qed.
  Lemma in_level_map lv e : in_level B lv (g e) = in_level A lv e.
  Proof. unfold in_level. rewrite g_ins, g_levels. reflexivity. Qed.
  Lemma filter_in_level_map lv l : filter (in_level B lv) (map g l) = map g (filter (in_level A lv) l).
  Proof.
    induction l as [|x l IH]; cbn; [reflexivity|]. rewrite in_level_map.
    destruct (in_level A lv x); cbn; rewrite IH; reflexivity.
  Qed.
  Lemma level_members_map cs lv : level_members B (map g cs) lv = map g (level_members A cs lv).
  Proof. unfold level_members. rewrite filter_in_level_map. apply sort_c_map. Qed.
  Lemma levels_src_map cs :
    List.concat (map (fun c : centry B => match e_levels c with Some l => l | None => [] end) (map g cs)) =
    List.concat (map (fun c : centry A => match e_levels c with Some l => l | None => [] end) cs).
  Proof. induction cs as [|x cs IH]; cbn; [reflexivity | rewrite g_levels, IH; reflexivity]. Qed.
  Lemma existsb_map (p : centry B -> bool) (q : centry A -> bool) cs : (forall e, p (g e) = q e) -> existsb p (map g cs) = existsb q cs.
  Proof. intros E. induction cs as [|x cs IH]; cbn; [reflexivity | rewrite E, IH; reflexivity]. Qed.

  Lemma ctrl_variables_map cs :
    ctrl_variables B (map g cs) =
    match ctrl_variables A cs with Some (co, ir) => Some (map (map g) co, ir) | None => None end.
  Proof.
    unfold ctrl_variables, controller_order.
    rewrite (existsb_map (@e_ins B) (@e_ins A) cs g_ins).
    destruct (negb (existsb e_ins cs)); [reflexivity|].
    rewrite (existsb_map (fun c => match e_levels c with None => true | _ => false end)
                         (fun c => match e_levels c with None => true | _ => false end) cs)
      by (intros e; rewrite g_levels; reflexivity).
    destruct (existsb _ cs); [reflexivity|].
    unfold level_list. rewrite levels_src_map.
    set (ll := fold_right ins_q [] _).
    assert (E : map (level_members B (map g cs)) ll = map (map g) (map (level_members A cs) ll)).
    { rewrite map_map. apply map_ext. intros lv. apply level_members_map. }
    rewrite E. f_equal. f_equal.
    destruct (map (level_members A cs) ll) as [|l co]; cbn [map]; [reflexivity|].
    destruct l; cbn [map]; [reflexivity|]. cbn [orb].
    change ((g c :: map g l) :: map (map g) co) with (map (map g) ((c :: l) :: co)).
    rewrite <- concat_map. apply existsb_map. exact g_ir.
  Qed.
End OrderMap.

(* distinct roles: no discrete vector controller shares its id with a restoring TapDependentImpedance (ids are table indices) *)
Definition hids (cs : list entry) : list nat :=
  map (fun e => fst (e_obj e)) (filter (fun e => is_discv (snd (e_obj e))) cs).
Definition roles_ok (cs : list entry) : Prop :=
  forall e, In e cs -> restores (snd (e_obj e)) = true -> ~ In (fst (e_obj e)) (hids cs).

Definition same_but_attrs (cs : list entry) (s1 s2 : cst) : Prop := Rh (hids cs) s1 s2.

