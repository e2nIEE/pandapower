(* C18 — elimination on the tridiagonal admittance system of the four-bus chain, over the complex field. *)
From Coq Require Import QArith List Setoid Morphisms.
From PPV Require Import Base.QN Base.QC C18.ChainModel.
Import ListNotations.

(* entrywise equal matrices have the same solutions *)
Lemma cdot_proper r r' v : Forall2 Ceq r r' -> cdot r v ==c cdot r' v.
Proof.
  intros H. revert v. induction H as [|a a' r r' E _ IH]; intros [|b v]; cbn [cdot]; try reflexivity.
  rewrite E, IH. reflexivity.
Qed.
Lemma mat_vec_proper M M' v b :
  Forall2 (Forall2 Ceq) M M' -> Ceq_list (mat_vec M v) b -> Ceq_list (mat_vec M' v) b.
Proof.
  intros H. revert b. induction H as [|r r' M M' E _ IH]; intros [|c b]; cbn [mat_vec map Ceq_list]; try exact id.
  intros [H1 H2]. split; [rewrite <- (cdot_proper _ _ _ E); exact H1 | apply IH; exact H2].
Qed.

(* a branch with admittance y = 1/z carrying the current s = y (d - d0) between the voltages d0 and d *)
Lemma branch_drop y z d d0 s : Cmul y z ==c C1 -> Cmul y (Csub d d0) ==c s -> d ==c Cadd d0 (Cmul z s).
Proof. intros Hyz <-. transitivity (Cadd d0 (Cmul (Cmul y z) (Csub d d0))); [rewrite Hyz|]; ring. Qed.

Section Tridiagonal.
Variables ysh y1 yt y2 tt zeg z1 zt z2 : C.
Hypothesis Hsh : Cmul ysh zeg ==c C1.
Hypothesis H1 : Cmul y1 z1 ==c C1.
Hypothesis Ht : Cmul yt zt ==c C1.
Hypothesis H2 : Cmul y2 z2 ==c C1.

(* shunt ysh at bus 0; series y1 between 0 and 1, yt with ratio tt between 1 and 2, y2 between 2 and 3 *)
Definition tri_matrix : list (list C) :=
  [ [Cadd ysh y1; Copp y1; C0; C0];
    [Copp y1; Cadd y1 (Cmul yt (Cmul tt tt)); Copp (Cmul yt tt); C0];
    [C0; Copp (Cmul yt tt); Cadd yt y2; Copp y2];
    [C0; C0; Copp y2; y2] ].

(* Injected currents b: summing the rows from the far end, line 2 carries b3, the transformer b2 + b3, line 1
   b1 + tt (b2 + b3) and the shunt all of it; each voltage follows from its neighbour by the drop on the branch. *)
Lemma tri_solve v0 v1 v2 v3 b0 b1 b2 b3 :
  Ceq_list (mat_vec tri_matrix [v0; v1; v2; v3]) [b0; b1; b2; b3] ->
  v0 ==c Cmul zeg (Cadd b0 (Cadd b1 (Cmul tt (Cadd b2 b3)))) /\
  v1 ==c Cadd v0 (Cmul z1 (Cadd b1 (Cmul tt (Cadd b2 b3)))) /\
  v2 ==c Cadd (Cmul tt v1) (Cmul zt (Cadd b2 b3)) /\
  v3 ==c Cadd v2 (Cmul z2 b3).
Proof.
  cbn [tri_matrix mat_vec map cdot Ceq_list]. intros (A & B & D & E & _).
  split; [|split; [|split]].
  - rewrite <- (Cadd_0_l (Cmul zeg _)). apply (branch_drop ysh); [exact Hsh|]. rewrite <- A, <- B, <- D, <- E. ring.
  - apply (branch_drop y1); [exact H1|]. rewrite <- B, <- D, <- E. ring.
  - apply (branch_drop yt); [exact Ht|]. rewrite <- D, <- E. ring.
  - apply (branch_drop y2); [exact H2|]. rewrite <- E. ring.
Qed.
End Tridiagonal.
