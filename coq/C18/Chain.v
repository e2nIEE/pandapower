(* C18 — the Thevenin impedance of the radial two-voltage-level chain computed through the per-unit pipeline
   (ChainModel.v) is, converted back to ohm, the series formula of the elements' short-circuit impedances and does not
   mention net.sn_mva; the branch currents under the fault voltages; a concrete chain meeting all hypotheses. *)
From Coq Require Import ZArith QArith List Bool Lia Lqa Setoid Morphisms.
From PPV Require Import Base.QN Base.QC Base.Out C18.Model C18.CField C18.ChainModel C18.Tridiag.
Import ListNotations.
Open Scope Q_scope.

(* positivity of quotients and products of positive quantities: [auto with qpos] *)
Lemma Qdiv_nonneg a b : 0 <= a -> 0 < b -> 0 <= a / b.
Proof. intros Ha Hb. apply Qle_shift_div_l; [exact Hb|]. rewrite Qmult_0_l. exact Ha. Qed.
Create HintDb qpos.
#[local] Hint Resolve Qdiv_pos Qdiv_nonneg Qmult_lt_0_compat : qpos.
#[local] Hint Extern 5 (0 < _) => lra : qpos.


Lemma CofQ_qmul a b : CofQ (qmul a b) ==c Cmul (CofQ a) (CofQ b).
Proof. cstrip; ring. Qed.
Lemma C1_nz : ~ C1 ==c C0.
Proof. intros [N _]. discriminate N. Qed.

Lemma to_ohm_c_scale z vn sn : to_ohm_c z vn sn ==c Cscale (vn * vn / sn) z.
Proof. unfold to_ohm_c, to_ohm. cstrip; ring. Qed.

Lemma line_row_ohm l vn sn : 0 < vn -> 0 < sn -> 0 < l_par l ->
  Cscale (vn * vn / sn) (line_row l vn sn) ==c Zline_ohm l.
Proof.
  intros Hv Hs Hp. unfold line_row, Zline_ohm, qsqr. cstrip; field; repeat split; lra.
Qed.

Lemma line_row_nonzero l vn sn : 0 < vn -> 0 < sn -> 0 < l_par l -> 0 < l_x l -> 0 < l_len l ->
  ~ line_row l vn sn ==c C0.
Proof.
  intros Hv Hs Hp Hx Hl [_ E]. unfold line_row, qsqr in E. cbn [im C0] in E. qstrip_in E.
  assert (P : 0 < l_x l * l_len l / (vn * vn / sn) / l_par l) by auto 6 with qpos.
  lra.
Qed.

(* the ext_grid shunt is the inverse of its ohmic short-circuit impedance in p.u. of the bus base *)
Lemma eg_ysh_inverse e vn sn sq : 0 < eg_c e -> 0 < eg_ssc e -> 0 < vn -> 0 < sn -> 0 < sq ->
  Cmul (eg_ysh e sn sq) (Cscale (sn / (vn * vn)) (Zeg_ohm e vn sq)) ==c C1.
Proof.
  intros Hc Hs Hv Hn Hq. unfold eg_ysh, Zeg_ohm, ext_grid_gb, qsqr.
  assert (U : 0 < eg_c e * sn) by nra.
  assert (W : 0 < (eg_rx e * eg_rx e + 1) * ((eg_c e * sn) * (eg_c e * sn))) by nra.
  cstrip; field; repeat split; try lra.
  all: intro E; revert W;
    setoid_replace ((eg_rx e * eg_rx e + 1) * (eg_c e * sn * (eg_c e * sn)))
      with (eg_rx e * (eg_c e * sn) * (eg_rx e * (eg_c e * sn)) + eg_c e * sn * (eg_c e * sn)) by ring;
    rewrite E; lra.
Qed.

Definition trafo_ok (t : strafo) : Prop :=
  0 < t_sn t /\ 0 < t_vnh t /\ 0 < t_vnl t /\ 0 < t_vk t /\ 0 < t_par t /\ 0 < t_cmax t.

Lemma trafo_zsc_pos t vn_lv sn : trafo_ok t -> 0 < vn_lv -> 0 < sn -> 0 < fst (trafo_zsc t vn_lv sn).
Proof.
  intros (Hs & Hh & Hl & Hk & Hp & Hc) Hv Hn. unfold trafo_zsc, qsqr. cbn [fst]. qstrip.
  auto 6 with qpos.
Qed.

Lemma trafo_row_ohm t vn_lv sn xsc xt xk : trafo_ok t -> 0 < vn_lv -> 0 < sn ->
  0 <= xk -> xk * xk == t_vk t * t_vk t - t_vkr t * t_vkr t ->
  0 <= xsc -> xsc * xsc == fst (trafo_zsc t vn_lv sn) * fst (trafo_zsc t vn_lv sn)
                           - snd (trafo_zsc t vn_lv sn) * snd (trafo_zsc t vn_lv sn) ->
  0 <= xt -> xt * xt == (t_vk t / 100 / t_sn t) * (t_vk t / 100 / t_sn t) - (t_vkr t / 100 / t_sn t) * (t_vkr t / 100 / t_sn t) ->
  Cscale (vn_lv * vn_lv / sn) (trafo_row t vn_lv sn xsc xt) ==c Ztrafo_ohm t xk.
Proof.
  intros Hok Hv Hn Hk0 Hk Hx0 Hx Ht0 Ht.
  pose proof (trafo_zsc_pos t vn_lv sn Hok Hv Hn) as Hz.
  destruct Hok as (Hs & Hh & Hl & Hvk & Hp & Hc).
  set (tl := (t_vnl t / vn_lv) * (t_vnl t / vn_lv) * sn).
  assert (Htl : 0 < tl) by (unfold tl; auto 6 with qpos).
  assert (Hxk : 0 <= xk / 100 / t_sn t) by auto with qpos.
  assert (Exsc : xsc == xk / 100 / t_sn t * tl).
  { apply sqrt_unique; [exact Hx0 | | ].
    - nra.
    - rewrite Hx. unfold trafo_zsc, qsqr. cbn [fst snd]. qstrip. fold tl.
      setoid_replace (xk / 100 / t_sn t * tl * (xk / 100 / t_sn t * tl))
        with ((xk * xk) * (tl * tl) / (100 * 100 * (t_sn t * t_sn t))) by (field; lra).
      rewrite Hk. field. lra. }
  assert (Ext : xt == xk / 100 / t_sn t).
  { apply sqrt_unique; [exact Ht0 | | ].
    - exact Hxk.
    - rewrite Ht.
      setoid_replace (xk / 100 / t_sn t * (xk / 100 / t_sn t)) with ((xk * xk) / (100 * 100 * (t_sn t * t_sn t))) by (field; lra).
      rewrite Hk. field. lra. }
  unfold trafo_row. destruct (trafo_zsc t vn_lv sn) as [z_sc r_sc] eqn:Ez. cbn [fst snd] in Hz.
  assert (Esg : qsign_mul z_sc xsc = xsc).
  { unfold qsign_mul. apply qltb_lt in Hz. rewrite Hz. reflexivity. }
  rewrite Esg.
  assert (Er : r_sc == t_vkr t / 100 / t_sn t * tl).
  { unfold trafo_zsc, qsqr in Ez. inversion Ez. qstrip. unfold tl. reflexivity. }
  unfold Ztrafo_ohm, KT_spec, trafo_kt, qsqr. cunfold. qstrip.
  assert (D : 0 < 1 + (6 # 10) * (xk / 100)).
  { assert (0 <= xk / 100) by auto with qpos. lra. }
  rewrite Er, Exsc, Ext. unfold tl.
  split; field; repeat split; try lra.
  all: intro Q0; revert D; setoid_replace (1 + (6 # 10) * (xk / 100)) with ((100 + (6 # 10) * xk) / 100) by (field); intro D;
    try (rewrite Q0 in D; lra).
Qed.

Lemma trafo_row_nonzero t vn_lv sn xsc xt xk : trafo_ok t -> 0 < vn_lv -> 0 < sn ->
  0 < xk -> Cscale (vn_lv * vn_lv / sn) (trafo_row t vn_lv sn xsc xt) ==c Ztrafo_ohm t xk ->
  ~ trafo_row t vn_lv sn xsc xt ==c C0.
Proof.
  intros (Hs & Hh & Hl & Hvk & Hp & Hc) Hv Hn Hk E Z. rewrite Z in E. destruct E as [_ E].
  unfold Ztrafo_ohm, KT_spec, qsqr, Cscale in E. cbn [re im C0] in E. qstrip_in E.
  assert (A : 0 < xk / 100) by auto with qpos.
  assert (P : 0 < (95 # 100) * t_cmax t / (1 + (6 # 10) * (xk / 100)) * (t_vnl t * t_vnl t / t_sn t / t_par t) * (xk / 100))
    by auto 6 with qpos.
  lra.
Qed.

Definition line_ok (l : sline) : Prop := 0 < l_par l /\ 0 < l_x l /\ 0 < l_len l.
Definition chain_ok (n : chain) : Prop :=
  0 < eg_c (ch_eg n) /\ 0 < eg_ssc (ch_eg n) /\ 0 < ch_vhv n /\ 0 < ch_vlv n /\
  line_ok (ch_l1 n) /\ line_ok (ch_l2 n) /\ trafo_ok (ch_t n).
(* what the square-root oracles are: xk = sqrt(vk^2 - vkr^2) [percent], o_xsc = sqrt(z_sc^2 - r_sc^2) on the base at hand,
   o_xt = sqrt(zt^2 - rt^2), o_sq > 0 (its square is rx^2 + 1: only needed for |Z_Q| = c Un^2 / S_sc, C18_ext_grid_impedance) *)
Definition oracle_ok (n : chain) (sn : Q) (o : oracles) (xk : Q) : Prop :=
  let t := ch_t n in
  0 < o_sq o /\ 0 < xk /\ xk * xk == t_vk t * t_vk t - t_vkr t * t_vkr t /\
  0 <= o_xsc o /\ o_xsc o * o_xsc o == fst (trafo_zsc t (ch_vlv n) sn) * fst (trafo_zsc t (ch_vlv n) sn)
                                       - snd (trafo_zsc t (ch_vlv n) sn) * snd (trafo_zsc t (ch_vlv n) sn) /\
  0 <= o_xt o /\ o_xt o * o_xt o == (t_vk t / 100 / t_sn t) * (t_vk t / 100 / t_sn t) - (t_vkr t / 100 / t_sn t) * (t_vkr t / 100 / t_sn t).
Definition bus_vn (n : chain) (k : nat) : Q := match k with O | 1%nat => ch_vhv n | _ => ch_vlv n end.

Section ChainProof.
Variables (n : chain) (sn : Q) (o : oracles) (xk : Q).
Hypothesis Hn : chain_ok n.
Hypothesis Hsn : 0 < sn.
Hypothesis Ho : oracle_ok n sn o xk.

Let ysh := eg_ysh (ch_eg n) sn (o_sq o).
Let z1 := line_row (ch_l1 n) (ch_vhv n) sn.
Let zt := trafo_row (ch_t n) (ch_vlv n) sn (o_xsc o) (o_xt o).
Let z2 := line_row (ch_l2 n) (ch_vlv n) sn.
Let tap := trafo_tap (ch_t n) (ch_vhv n) (ch_vlv n).
Let zeg := Cscale (sn / (ch_vhv n * ch_vhv n)) (Zeg_ohm (ch_eg n) (ch_vhv n) (o_sq o)).
Let tt := Cinv (CofQ tap).
Let Bh := ch_vhv n * ch_vhv n / sn.
Let Bl := ch_vlv n * ch_vlv n / sn.

Lemma tap_pos : 0 < tap.
Proof.
  destruct Hn as (_ & _ & Hh & Hl & _ & _ & (Hs & Hth & Htl & _)).
  unfold tap, trafo_tap. qstrip. auto with qpos.
Qed.

(* what the proofs below take from the hypotheses: the element rows are invertible, and scaled by the base of their
   bus they are the elements' impedances in ohm *)
Record chain_facts : Prop := {
  shunt_inverse : Cmul ysh zeg ==c C1;
  z1_nz : ~ z1 ==c C0;
  zt_nz : ~ zt ==c C0;
  z2_nz : ~ z2 ==c C0;
  tap_nz : ~ CofQ tap ==c C0;
  z1_ohm : Cscale Bh z1 ==c Zline_ohm (ch_l1 n);
  zt_ohm : Cscale Bl zt ==c Ztrafo_ohm (ch_t n) xk;
  z2_ohm : Cscale Bl z2 ==c Zline_ohm (ch_l2 n);
  zeg_ohm : Cscale Bh zeg ==c Zeg_ohm (ch_eg n) (ch_vhv n) (o_sq o);
  base_ratio : Bl == turns2 (ch_t n) * Bh * (tap * tap) }.

Lemma chain_facts_hold : chain_facts.
Proof.
  pose proof tap_pos as Htap.
  destruct Hn as (Hc & Hs & Hh & Hl & (L1p & L1x & L1l) & (L2p & L2x & L2l) & Ht).
  destruct Ho as (Oq & Ok0 & Ok & Ox0 & Ox & Ot0 & Ot).
  assert (ET : Cscale Bl zt ==c Ztrafo_ohm (ch_t n) xk).
  { unfold Bl, zt. apply trafo_row_ohm; try assumption. lra. }
  constructor.
  - apply eg_ysh_inverse; assumption.
  - apply line_row_nonzero; assumption.
  - apply (trafo_row_nonzero _ _ _ _ _ xk); assumption.
  - apply line_row_nonzero; assumption.
  - apply CofQ_nz; lra.
  - apply line_row_ohm; assumption.
  - exact ET.
  - apply line_row_ohm; assumption.
  - unfold Bh, zeg; cstrip; field; lra.
  - destruct Ht as (_ & Th & Tl & _). unfold Bl, Bh, tap, trafo_tap, turns2, qsqr. qstrip. field. repeat split; lra.
Qed.

Let Y := chain_ybus n sn o.

(* makeYbus of the chain is the tridiagonal matrix of Tridiag.v *)
Lemma chain_ybus_tri : Forall2 (Forall2 Ceq) Y (tri_matrix ysh (Cinv z1) (Cinv zt) (Cinv z2) tt).
Proof.
  pose proof chain_facts_hold as F.
  pose proof (z1_nz F) as N1. pose proof (zt_nz F) as Nt. pose proof (z2_nz F) as N2. pose proof (tap_nz F) as Ntap.
  pose proof C1_nz as N0.
  unfold Y, chain_ybus, chain_rows, branch_y, tri_matrix. fold ysh z1 zt z2 tap.
  repeat apply Forall2_cons; try apply Forall2_nil; try reflexivity.
  all: rewrite ?CofQ_qmul; change (CofQ 1) with C1; unfold tt; field; repeat split; assumption.
Qed.

Lemma chain_solve v0 v1 v2 v3 b0 b1 b2 b3 :
  Ceq_list (mat_vec Y [v0; v1; v2; v3]) [b0; b1; b2; b3] ->
  v0 ==c Cmul zeg (Cadd b0 (Cadd b1 (Cmul tt (Cadd b2 b3)))) /\
  v1 ==c Cadd v0 (Cmul z1 (Cadd b1 (Cmul tt (Cadd b2 b3)))) /\
  v2 ==c Cadd (Cmul tt v1) (Cmul zt (Cadd b2 b3)) /\
  v3 ==c Cadd v2 (Cmul z2 b3).
Proof.
  intros H. pose proof chain_facts_hold as F.
  apply (tri_solve ysh (Cinv z1) (Cinv zt) (Cinv z2) tt);
    [exact (shunt_inverse F) | field; apply F | field; apply F | field; apply F |].
  exact (mat_vec_proper _ _ _ _ chain_ybus_tri H).
Qed.

(* the Thevenin impedance read from ANY solution of Ybus z = e_k, converted to ohm with the base of bus k *)
Theorem chain_thevenin (vs : list C) (k : nat) :
  (List.length vs = 4)%nat -> (k < 4)%nat -> Ceq_list (mat_vec Y vs) (unit_vec k 4) ->
  to_ohm_c (List.nth k vs C0) (bus_vn n k) sn ==c Zthev_ohm n (o_sq o) xk k.
Proof.
  intros L K H. destruct vs as [|v0 [|v1 [|v2 [|v3 [|]]]]]; try discriminate L.
  pose proof chain_facts_hold as F.
  assert (EBl : CofQ Bl ==c Cmul (Cmul (CofQ (turns2 (ch_t n))) (CofQ Bh)) (Cmul (CofQ tap) (CofQ tap))).
  { rewrite (base_ratio F), !CofQ_mul. reflexivity. }
  (* v_k from the elimination, the element impedances put back in p.u.; across the transformer, EBl *)
  destruct k as [|[|[|[|]]]]; [| | | |lia]; cbn [unit_vec seq map Nat.eqb] in H; apply chain_solve in H;
    destruct H as (R0 & R1 & R2 & R3); cbn [List.nth bus_vn Zthev_ohm]; rewrite to_ohm_c_scale; fold Bh Bl.
  - rewrite R0, <- (zeg_ohm F), !Cscale_mul. ring.
  - rewrite R1, R0, <- (zeg_ohm F), <- (z1_ohm F), !Cscale_mul. ring.
  - rewrite R2, R1, R0, <- (zeg_ohm F), <- (z1_ohm F), <- (zt_ohm F), !Cscale_mul, EBl. unfold tt. field. exact (tap_nz F).
  - rewrite R3, R2, R1, R0, <- (zeg_ohm F), <- (z1_ohm F), <- (zt_ohm F), <- (z2_ohm F), !Cscale_mul, EBl. unfold tt. field.
    exact (tap_nz F).
Qed.

(* Kirchhoff at the faulted end bus 3: the current of line 2 at its to end under V_ikss = c - ikss1 * Zbus[:, 3], or
   - ikss1 * Zbus[:, 3] (what currents.py:63 takes when a TAP differs from 1), is the whole fault current (entering the
   bus: sign -) *)
Theorem chain_line2_current (valid_v : bool) (vs : list C) (c i : C) :
  (List.length vs = 4)%nat -> Ceq_list (mat_vec Y vs) (unit_vec 3 4) ->
  match v_ikss valid_v c i vs with
  | [_; _; vf; vt] => branch_i_to z2 1 vf vt ==c Copp i
  | _ => False
  end.
Proof.
  intros L H. destruct vs as [|v0 [|v1 [|v2 [|v3 [|]]]]]; try discriminate L.
  pose proof (z2_nz chain_facts_hold) as N2.
  cbn [unit_vec seq map Nat.eqb] in H. apply chain_solve in H. destruct H as (_ & _ & _ & R3).
  pose proof C1_nz as N0.
  destruct valid_v; cbn [v_ikss map]; unfold branch_i_to, branch_y; change (CofQ 1) with C1.
  all: rewrite R3; clearbody z2; field; split; assumption.
Qed.
End ChainProof.

Definition ones (l : list C) : list C := map (fun _ => C1) l.
Lemma cdot_v_ikss row zcol c i :
  cdot row (v_ikss true c i zcol) ==c Csub (Cmul c (cdot row (ones zcol))) (Cmul i (cdot row zcol)).
Proof.
  revert zcol. induction row as [|a row IH]; intros [|z zcol]; cbn [cdot v_ikss ones map]; try ring.
  fold (v_ikss true c i zcol). fold (ones zcol). rewrite IH. ring.
Qed.

Lemma z_1ph_ohm z1 z0 vn sn :
  to_ohm_c (z_1ph z1 z0) vn sn ==c Cadd (Cscale 2 (to_ohm_c z1 vn sn)) (to_ohm_c z0 vn sn).
Proof. unfold to_ohm_c, z_1ph, to_ohm. cstrip; ring. Qed.

Definition ex_chain : chain :=
  {| ch_eg := {| eg_c := 11 # 10; eg_ssc := 1000; eg_rx := 3 # 4 |};
     ch_l1 := {| l_r := 1 # 8; l_x := 3 # 8; l_len := 7 # 2; l_par := 1; l_ktemp := 1 |};
     ch_t := {| t_sn := 25; t_vnh := 115; t_vnl := 21; t_vk := 5; t_vkr := 3; t_par := 1; t_cmax := 11 # 10 |};
     ch_l2 := {| l_r := 1 # 4; l_x := 1 # 8; l_len := 9 # 4; l_par := 2; l_ktemp := 1 |};
     ch_vhv := 110; ch_vlv := 20 |}.
Definition ex_oracles (sn : Q) : oracles :=
  {| o_sq := 5 # 4; o_xsc := qmul (qdiv (qdiv 4 100) 25) (qmul (qsqr (qdiv 21 20)) sn); o_xt := qdiv (qdiv 4 100) 25 |}.
(* the Zbus column of bus 3 in closed form (p.u.) *)
Definition ex_col (sn : Q) : list C :=
  let '(ysh, z1, zt, z2, tap) := chain_rows ex_chain sn (ex_oracles sn) in
  let zq := Cdiv C1 ysh in let t := Cdiv C1 (CofQ tap) in
  let v0 := Cmul t zq in let v1 := Cmul t (Cadd zq z1) in let v2 := Cadd (Cmul t v1) zt in
  [v0; v1; v2; Cadd v2 z2].
Example chain_nonvacuous :
  chain_ok ex_chain /\ oracle_ok ex_chain 1 (ex_oracles 1) 4 /\ oracle_ok ex_chain 100 (ex_oracles 100) 4 /\
  Ceq_list (mat_vec (chain_ybus ex_chain 1 (ex_oracles 1)) (ex_col 1)) (unit_vec 3 4) /\
  Ceq_list (mat_vec (chain_ybus ex_chain 100 (ex_oracles 100)) (ex_col 100)) (unit_vec 3 4) /\
  ~ List.nth 3 (ex_col 1) C0 ==c List.nth 3 (ex_col 100) C0.
Proof.
  (* each of the six conjuncts is evaluated once, to comparisons of integer literals *)
  refine (conj _ (conj _ (conj _ (conj _ (conj _ _))))); vm_compute.
  1-5: repeat split; discriminate.
  intros [H _]. discriminate H.
Qed.
