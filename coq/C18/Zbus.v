(* C18 — uniqueness of the Zbus column: for an invertible admittance matrix the column obtained from the explicit
   inverse (inverse_y=True) and the one obtained by solving Y z = e_k with a factorisation (inverse_y=False) coincide,
   and the column for bus k is a function of Y and k alone (it cannot depend on which other buses are faulted).
   Stated over an arbitrary field (the complex numbers of the implementation, Q(i), ...). *)
From mathcomp Require Import all_ssreflect all_algebra.
Set Implicit Arguments.
Unset Strict Implicit.
Import GRing.Theory.
Local Open Scope ring_scope.

Section Zbus.
Variable F : fieldType.
Variable n : nat.
Implicit Types (Y Z : 'M[F]_n) (z b : 'cV[F]_n).

(* any solution of Y z = b is Z b when Z is a left inverse of Y *)
Lemma solve_unique Y Z z b : Z *m Y = 1%:M -> Y *m z = b -> z = Z *m b.
Proof. by move=> ZY <-; rewrite mulmxA ZY mul1mx. Qed.

(* both computation paths give the same column, hence the same diagonal entry Zkk = R_EQUIV + j X_EQUIV.  A numerically
   computed inverse is checked as a right inverse (Y Z = 1); for square matrices that is a left inverse ([mulmx1C]). *)
Theorem zbus_column_unique Y Z (k : 'I_n) z :
  Y *m Z = 1%:M -> Y *m z = delta_mx k 0 -> z = col k Z.
Proof.
  move=> YZ Yz. rewrite (solve_unique (mulmx1C YZ) Yz).
  by apply/colP=> i; rewrite !mxE (bigD1 k) //= !mxE !eqxx mulr1 big1 ?addr0 // => j /negbTE nj; rewrite !mxE nj mulr0.
Qed.
End Zbus.
