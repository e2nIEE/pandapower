(* C18 — algebraic IEC 60909 identities of the result arithmetic (over Q, square roots as oracles). *)
From Coq Require Import QArith Lqa.
From PPV Require Import Base.QN C18.Model.
Open Scope Q_scope.

(* ikss = c Un / (sqrt3 |Zk|), Zk in ohm as reported (rk_ohm, xk_ohm) *)
Lemma ikss_formula c zabs vn sn s3 :
  0 < zabs -> 0 < vn -> 0 < sn -> 0 < s3 ->
  ikss_3ph c zabs vn sn s3 * (s3 * to_ohm zabs vn sn) == c * vn.
Proof. intros. unfold ikss_3ph, to_ohm. qstrip. field. repeat split; lra. Qed.

(* the conversion to ohm is a scaling: it keeps |z|^2 = r^2 + x^2 *)
Lemma ohm_abs zr zx zabs vn sn :
  zabs * zabs == zr * zr + zx * zx ->
  to_ohm zabs vn sn * to_ohm zabs vn sn == to_ohm zr vn sn * to_ohm zr vn sn + to_ohm zx vn sn * to_ohm zx vn sn.
Proof.
  intros H. unfold to_ohm. qstrip.
  transitivity ((vn * vn / sn) * (vn * vn / sn) * (zabs * zabs)); [|rewrite H]; ring.
Qed.

Lemma ikss2_sn_invariant c zohm vn sn1 sn2 :
  0 < zohm -> 0 < vn -> 0 < sn1 -> 0 < sn2 ->
  ikss_2ph c (zohm * sn1 / (vn * vn)) vn sn1 == ikss_2ph c (zohm * sn2 / (vn * vn)) vn sn2.
Proof. intros. unfold ikss_2ph. qstrip. field. repeat split; lra. Qed.

(* skss = sqrt3 Un ikss *)
Lemma skss_formula ikss vn s3 : skss_3ph ikss vn s3 == s3 * vn * ikss.
Proof. unfold skss_3ph. qstrip. ring. Qed.

(* two-phase fault: sqrt3/2 of the three-phase current *)
Lemma two_ph_ratio c zabs vn sn s3 :
  0 < zabs -> 0 < vn -> 0 < sn -> 0 < s3 -> s3 * s3 == 3 ->
  ikss_2ph c zabs vn sn == s3 / 2 * ikss_3ph c zabs vn sn s3.
Proof.
  intros Hz Hv Hs H3 E. unfold ikss_2ph, ikss_3ph. qstrip. field. repeat split; lra.
Qed.

(* ip = kappa sqrt2 ikss when no current source contributes *)
Lemma ip_formula s2 kappa ikss : ip_of s2 kappa ikss 0 == kappa * s2 * ikss.
Proof. unfold ip_of. qstrip. ring. Qed.


Lemma no_fault_impedance zr zx vn sn : calc_rx zr zx 0 0 vn sn = (zr, zx).
Proof. reflexivity. Qed.
