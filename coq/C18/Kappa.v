(* C18 — kappa = 1.02 + 0.98 exp(-3 R/X) lies in [1.02, 2] for R/X >= 0 (kappa.py:38-39), over the reals. *)
From Coq Require Import Reals Lra.
Open Scope R_scope.

Definition kappa (rx : R) : R := 1.02 + 0.98 * exp (- 3 * rx).

Lemma exp_neg_le_1 t : 0 <= t -> exp (- t) <= 1.
Proof.
  intros H. destruct (Req_dec t 0) as [->|Hn].
  - rewrite Ropp_0, exp_0. lra.
  - left. rewrite <- exp_0. apply exp_increasing. lra.
Qed.

(* the exponential value handed to the rational model as an oracle satisfies the hypothesis of C18_kappa_range_q *)
Theorem exp_oracle_range rx : 0 <= rx -> 0 < exp (- 3 * rx) <= 1.
Proof.
  intros H. split; [apply exp_pos|].
  replace (- 3 * rx) with (- (3 * rx)) by ring. apply exp_neg_le_1. lra.
Qed.

Theorem kappa_range rx : 0 <= rx -> 1.02 <= kappa rx <= 2.
Proof. intros H. unfold kappa. destruct (exp_oracle_range rx H). split; lra. Qed.

(* kappa is decreasing in R/X: a larger R/X never gives a larger peak factor *)
Theorem kappa_antitone a b : a <= b -> kappa b <= kappa a.
Proof.
  intros H. unfold kappa. destruct (Req_dec a b) as [->|Hn]; [lra|].
  assert (exp (- 3 * b) < exp (- 3 * a)) by (apply exp_increasing; lra). lra.
Qed.
