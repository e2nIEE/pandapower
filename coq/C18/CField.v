(* C18 — the embedding of Q into the complex field of Base/QC.v, and the integral-domain instances that make [nsatz]
   available on it. *)
From Coq Require Import ZArith QArith Lqa Setoid Morphisms Ring Field Nsatz.
From PPV Require Import Base.QN Base.QC.
Open Scope Q_scope.

Global Instance Cinv_proper : Proper (Ceq ==> Ceq) Cinv.
Proof. exact Base.QC.Cinv_proper. Qed.
Global Instance Cdiv_proper : Proper (Ceq ==> Ceq ==> Ceq) Cdiv.
Proof. exact Base.QC.Cdiv_proper. Qed.

(* embedding of the rationals *)
Lemma CofQ_add x y : CofQ (x + y) ==c Cadd (CofQ x) (CofQ y). Proof. cstrip; ring. Qed.
Lemma CofQ_mul x y : CofQ (x * y) ==c Cmul (CofQ x) (CofQ y). Proof. cstrip; ring. Qed.
Lemma CofQ_div x y : ~ y == 0 -> CofQ (x / y) ==c Cdiv (CofQ x) (CofQ y).
Proof. intros H. cstrip; field; nra. Qed.
Global Instance CofQ_proper : Proper (Qeq ==> Ceq) CofQ.
Proof. exact Base.QC.CofQ_proper. Qed.
Lemma Cscale_CofQ k a : Cscale k a ==c Cmul (CofQ k) a. Proof. exact (Cscale_mul k a). Qed.

(* integral domain instance for [nsatz]; the class fields are, up to unfolding of the operation classes, those of
   [C_ring_theory] *)
Global Instance C_ops : @Ring_ops C C0 C1 Cadd Cmul Csub Copp Ceq := {}.
Global Instance C_ring : Ring (Ro := C_ops).
Proof.
  constructor.
  - exact Ceq_equiv.
  - exact Cadd_proper.
  - exact Cmul_proper.
  - exact Csub_proper.
  - exact Copp_proper.
  - exact (Radd_0_l C_ring_theory).
  - exact (Radd_comm C_ring_theory).
  - exact (Radd_assoc C_ring_theory).
  - exact (Rmul_1_l C_ring_theory).
  - intros x. change (Cmul x C1 ==c x). ring.
  - exact (Rmul_assoc C_ring_theory).
  - exact (Rdistr_l C_ring_theory).
  - intros x y z. change (Cmul z (Cadd x y) ==c Cadd (Cmul z x) (Cmul z y)). ring.
  - exact (Rsub_def C_ring_theory).
  - exact (Ropp_def C_ring_theory).
Qed.
Global Instance C_cring : Cring (Rr := C_ring).
Proof. exact (Rmul_comm C_ring_theory). Qed.
Global Instance C_domain : Integral_domain (Rcr := C_cring).
Proof.
  constructor.
  - intros x y H. change (Cmul x y ==c C0) in H. change (x ==c C0 \/ y ==c C0).
    destruct (Qeq_dec (re x * re x + im x * im x) 0) as [E|E].
    + left. split; cbn [re im C0]; nra.
    + right. apply (proj2 (Cnz_norm x)) in E.
      transitivity (Cmul (Cinv x) (Cmul x y)). { field. exact E. }
      rewrite H. ring.
  - change (~ C1 ==c C0). intros [H _]. discriminate H.
Qed.

Example cfield_test a b : ~ a ==c C0 -> ~ b ==c C0 -> Cadd (Cinv a) (Cinv b) ==c Cdiv (Cadd a b) (Cmul a b).
Proof. intros. field. split; assumption. Qed.
