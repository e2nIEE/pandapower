(* C04 — the PD/QD backup / restore history of _run_ac_pf_with_qlims_enforced, for every iteration history:
   the demand every PF call sees is the backup minus the injections of the limited rows (each limit counted once),
   and after the loop QD is the backup again (frame theorem), PD is what the last pfsoln left. *)
From Coq Require Import QArith Qabs List Lia.
From PPV Require Import Base.QN C01.Model C01.Proofs C04.Model.
Import ListNotations.
Open Scope Q_scope.

Lemma sub_at_length col : forall k x, length (sub_at col k x) = length col.
Proof. induction col as [|c t IH]; intros [|k] x; cbn; try reflexivity. rewrite IH. reflexivity. Qed.
Lemma nth_sub_at col : forall k j x, (k < length col)%nat ->
  nth j (sub_at col k x) 0 == nth j col 0 - (if Nat.eqb k j then x else 0).
Proof.
  induction col as [|c t IH]; intros k j x Hk; [cbn in Hk; lia|].
  destruct k as [|k]; destruct j as [|j]; cbn [sub_at nth Nat.eqb].
  - rewrite qsub_correct. reflexivity.
  - ring.
  - ring.
  - apply IH. cbn in Hk. lia.
Qed.
Lemma dec_all_length gbus f rows : forall col, length (dec_all gbus f rows col) = length col.
Proof.
  unfold dec_all. induction rows as [|i rows IH]; intros col; [reflexivity|]. cbn [fold_left].
  rewrite IH, sub_at_length. reflexivity.
Qed.
(* col[gbus i] -= f i for all rows: every bus loses the sum over its rows *)
Lemma nth_dec_all gbus f rows : forall col k, (forall i, In i rows -> (gbus i < length col)%nat) ->
  nth k (dec_all gbus f rows col) 0 == nth k col 0 - sumf f (filter (fun i => Nat.eqb (gbus i) k) rows).
Proof.
  unfold dec_all. induction rows as [|i rows IH]; intros col k H.
  - cbn [fold_left filter]. rewrite sumf_nil. ring.
  - cbn [fold_left filter]. rewrite IH.
    + rewrite nth_sub_at by (apply H; left; reflexivity).
      destruct (Nat.eqb (gbus i) k); [rewrite sumf_cons|]; ring.
    + intros i' Hi'. rewrite sub_at_length. apply H. right. exact Hi'.
Qed.

Lemma lookup_fixed_notkey new i : ~ In i (map fst new) -> lookup_fixed new i = None.
Proof.
  intros H. unfold lookup_fixed. destruct (filter _ new) as [|p l] eqn:E; [reflexivity|]. exfalso. apply H.
  assert (Hp : In p (filter (fun p : nat * Q => Nat.eqb (fst p) i) new)) by (rewrite E; left; reflexivity).
  apply filter_In in Hp. destruct Hp as [Hp Hk]. apply Nat.eqb_eq in Hk. rewrite <- Hk. apply in_map. exact Hp.
Qed.
Lemma qg_now_notkey new i : ~ In i (map fst new) -> qg_now new i = 0.
Proof. intros H. unfold qg_now. rewrite (lookup_fixed_notkey _ _ H). reflexivity. Qed.

(* total limit value the passes have put on bus k *)
Definition fixed_on (gbus : nat -> nat) (k : nat) (p : pass) : Q :=
  sumf (qg_now (ps_new p)) (filter (fun i => Nat.eqb (gbus i) k) (map fst (ps_new p))).
Definition fixed_total (gbus : nat -> nat) (k : nat) (passes : list pass) : Q := sumf (fixed_on gbus k) passes.

Definition rows_ok (gbus : nat -> nat) (nb : nat) (passes : list pass) : Prop :=
  forall p i, In p passes -> In i (map fst (ps_new p)) -> (gbus i < nb)%nat.
Definition pd_ok (nb : nat) (passes : list pass) : Prop := forall p, In p passes -> length (ps_pd1 p) = nb.

Lemma fold_lim gbus : forall passes s,
  ds_lim (fold_left (dstep gbus) passes s) = ds_lim s ++ flat_map (fun p => map fst (ps_new p)) passes.
Proof.
  induction passes as [|p ps IH]; intros s; cbn [fold_left flat_map]; [rewrite app_nil_r; reflexivity|].
  rewrite IH. cbn [dstep ds_lim]. rewrite app_assoc. reflexivity.
Qed.

(* one pass subtracts gen[i, QG] for ALL limited rows, but pfsoln has zeroed the QG of the rows limited earlier (qg_now), so QD
   loses the limits of the new rows only *)
Lemma dstep_qd gbus s p k :
  (forall i, In i (ds_lim s ++ map fst (ps_new p)) -> (gbus i < length (ds_qd s))%nat) ->
  forallb (fun i => negb (memn i (ds_lim s))) (map fst (ps_new p)) = true ->
  nth k (ds_qd (dstep gbus s p)) 0 == nth k (ds_qd s) 0 - fixed_on gbus k p.
Proof.
  intros Hb Hnew. cbn [dstep ds_qd]. rewrite (nth_dec_all _ _ _ _ _ Hb), filter_app, sumf_app.
  rewrite (sumf_ext (qg_now (ps_new p)) (fun _ => 0) (filter _ (ds_lim s))).
  - rewrite sumf_const. unfold fixed_on. ring.
  - intros i Hi. apply filter_In in Hi. destruct Hi as [Hi _].
    rewrite qg_now_notkey; [reflexivity|]. intros Hin.
    rewrite forallb_forall in Hnew. specialize (Hnew i Hin). apply negb_true_iff in Hnew.
    apply memn_In in Hi. congruence.
Qed.
(* the fold over any history, from any state: QD = QD at the start minus the limits the passes have put on the bus *)
Lemma drun_qd gbus nb : forall passes s,
  length (ds_qd s) = nb -> (forall i, In i (ds_lim s) -> (gbus i < nb)%nat) ->
  rows_ok gbus nb passes -> fresh_passes (ds_lim s) passes = true ->
  forall k, nth k (ds_qd (fold_left (dstep gbus) passes s)) 0 == nth k (ds_qd s) 0 - fixed_total gbus k passes.
Proof.
  induction passes as [|p passes IH]; intros s Hl Hb Hr Hf k; unfold fixed_total; cbn [fold_left].
  - rewrite sumf_nil. ring.
  - cbn [fresh_passes] in Hf. apply andb_true_iff in Hf. destruct Hf as [Hnew Hf].
    assert (Hb1 : forall i, In i (ds_lim s ++ map fst (ps_new p)) -> (gbus i < nb)%nat).
    { intros i Hi. apply in_app_or in Hi. destruct Hi as [Hi|Hi]; [apply Hb; exact Hi | apply (Hr p i); [left; reflexivity | exact Hi]]. }
    rewrite (IH (dstep gbus s p)).
    + rewrite dstep_qd by (rewrite ?Hl; assumption). unfold fixed_total. rewrite sumf_cons. ring.
    + cbn [dstep ds_qd]. rewrite dec_all_length. exact Hl.
    + exact Hb1.
    + intros p' i Hp'. apply Hr. right. exact Hp'.
    + exact Hf.
Qed.

Lemma fixed_total_no_rows gbus k passes :
  flat_map (fun p => map fst (ps_new p)) passes = [] -> fixed_total gbus k passes == 0.
Proof.
  induction passes as [|p ps IH]; intros H; unfold fixed_total in *; [reflexivity|].
  cbn [flat_map] in H. apply app_eq_nil in H. destruct H as [H1 H2].
  rewrite sumf_cons, (IH H2). unfold fixed_on. rewrite H1. cbn [filter]. rewrite sumf_nil. ring.
Qed.

(* witness: two gens on bus 1, limited in two successive passes (enforce_q_lims = 2) *)
Definition wit_gbus (i : nat) : nat := match i with 1%nat => 1%nat | 2%nat => 1%nat | _ => 0%nat end.
Definition wit_passes : list pass :=
  [mkPass [0; 5; 6] [0; 2; 3] [(1%nat, 1)]; mkPass [0; 5; 6] [0; 2; 3] [(2%nat, 1 # 2)]].

Lemma nth_error_idxs {A} (l : list A) i : In i (idxs l) -> exists a, nth_error l i = Some a.
Proof.
  unfold idxs. rewrite in_seq. intros [_ H]. destruct (nth_error l i) eqn:E; [eexists; reflexivity|].
  apply nth_error_None in E. cbn in H. lia.
Qed.
(* a gen row without limits under the rule of the recycled path before its repair (NaN -> 0) *)
Definition wit_nolim_gen : gen :=
  let l := row_limits_recycled_old None None in mkGen 1 1 1 (fst l) (snd l) 0 true false.
