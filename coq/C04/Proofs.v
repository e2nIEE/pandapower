(* C04 — lemmas: setpoint writing, the q-limit loop (one postcondition, for every PF oracle), witnesses of the old rules. *)
From Coq Require Import QArith Qabs List Lia.
From PPV Require Import Base.Lists Base.QN C01.Model C01.Proofs C01.Balance C04.Model.
Import ListNotations.
Open Scope Q_scope.

Lemma last_opt_In {A} (l : list A) x : last_opt l = Some x -> In x l.
Proof.
  unfold last_opt. destruct (rev l) as [|y t] eqn:E; [discriminate|]. intros H. injection H as ->.
  apply in_rev. rewrite E. left. reflexivity.
Qed.
Lemma last_opt_nonempty {A} (l : list A) : l <> [] -> exists x, last_opt l = Some x.
Proof.
  intros H. unfold last_opt. destruct (rev l) as [|y t] eqn:E; [|exists y; reflexivity].
  exfalso. apply H. rewrite <- (rev_involutive l), E. reflexivity.
Qed.
Lemma at_bus_In k l s : In s (at_bus k l) <-> In s l /\ v_bus s = k.
Proof. unfold at_bus. rewrite filter_In, Nat.eqb_eq. reflexivity. Qed.

(* the magnitude written to a bus is the setpoint of an in-service source at that bus *)
Lemma bus_vm_is_source srcs k v : bus_vm srcs k = Some v -> exists s, In s srcs /\ v_bus s = k /\ v_vm s = v.
Proof.
  unfold bus_vm. destruct (last_opt (at_bus k srcs)) as [s|] eqn:E; [|discriminate].
  intros H. injection H as <-. apply last_opt_In, at_bus_In in E. exists s. tauto.
Qed.
(* every bus with a source gets a magnitude *)
Lemma bus_vm_defined srcs k s : In s srcs -> v_bus s = k -> exists v, bus_vm srcs k = Some v.
Proof.
  intros Hs Hk. unfold bus_vm.
  destruct (last_opt_nonempty (at_bus k srcs)) as [x Hx].
  - intros E. assert (In s (at_bus k srcs)) by (apply at_bus_In; tauto). rewrite E in H. exact H.
  - rewrite Hx. eexists. reflexivity.
Qed.
Lemma first_vm_In srcs k f : first_vm srcs k = Some f -> exists s, In s (at_bus k srcs) /\ v_vm s = f.
Proof.
  unfold first_vm. destruct (at_bus k srcs) as [|s t]; [discriminate|]. intros H. injection H as <-.
  exists s. split; [left|]; reflexivity.
Qed.
Lemma allclose1_bound a f : allclose1 a f = true -> Qabs (a - f) <= ATOL + RTOL * Qabs f.
Proof. unfold allclose1. intros H. apply qleb_le in H. qstrip_in H. exact H. Qed.

(* the selection of enforce_q_lims = 2 is total *)
Lemma argmax_from_lt l : forall i best bv, (best < i)%nat -> (argmax_from l i best bv < i + length l)%nat.
Proof.
  induction l as [|x t IH]; intros i best bv H; cbn [argmax_from length]; [lia|].
  destruct (qltb bv x).
  - specialize (IH (S i) i x). lia.
  - specialize (IH (S i) best bv). lia.
Qed.
Lemma argmax_lt l : l <> [] -> (argmax l < length l)%nat.
Proof. destruct l as [|x t]; [congruence|]. intros _. unfold argmax. pose proof (argmax_from_lt t 1 0 x). cbn [length]. lia. Qed.
Lemma select_total qlim2 gens qg mx mn : (mx <> [] \/ mn <> []) -> select qlim2 gens qg mx mn <> SelErr.
Proof.
  intros H. unfold select. destruct qlim2; [|discriminate].
  assert (Hl : length (viols gens qg mx mn) = (length mx + length mn)%nat) by (unfold viols; rewrite app_length, !map_length; reflexivity).
  assert (Hne : viols gens qg mx mn <> []).
  { intros E. rewrite E in Hl. cbn in Hl. destruct H as [H|H]; [destruct mx | destruct mn]; cbn in Hl; try lia; congruence. }
  pose proof (argmax_lt _ Hne) as Hk. rewrite Hl in Hk.
  destruct (Nat.leb (length mx) (argmax (viols gens qg mx mn))) eqn:E.
  - apply Nat.leb_le in E. destruct (nth_error mn _) eqn:N; [discriminate|]. apply nth_error_None in N. lia.
  - apply Nat.leb_gt in E. destruct (nth_error mx _) eqn:N; [discriminate|]. apply nth_error_None in N. lia.
Qed.
Lemma select_sub qlim2 gens qg mx mn mx' mn' : select qlim2 gens qg mx mn = SelOk mx' mn' ->
  incl mx' mx /\ incl mn' mn /\ ((mx <> [] \/ mn <> []) -> mx' ++ mn' <> []).
Proof.
  unfold select. destruct qlim2.
  - destruct (Nat.leb (length mx) _).
    + destruct (nth_error mn _) as [i|] eqn:E; [|discriminate]. intros H. injection H as <- <-.
      apply nth_error_In in E. repeat split; [intros x [] | intros x [<-|[]]; exact E | intros _; discriminate].
    + destruct (nth_error mx _) as [i|] eqn:E; [|discriminate]. intros H. injection H as <- <-.
      apply nth_error_In in E. repeat split; [intros x [<-|[]]; exact E | intros x [] | intros _; discriminate].
  - intros H. injection H as <- <-. repeat split; try apply incl_refl.
    intros [H|H] E; apply app_eq_nil in E; destruct E; contradiction.
Qed.

Lemma filter_strict {A} (p q : A -> bool) l x :
  (forall y, q y = true -> p y = true) -> In x l -> p x = true -> q x = false ->
  (length (filter q l) < length (filter p l))%nat.
Proof.
  intros Hpq. induction l as [|a l IH]; intros Hin Hp Hq; [destruct Hin|].
  cbn [filter]. destruct Hin as [->|Hin].
  - rewrite Hp, Hq. cbn [length]. pose proof (filter_length_le q p l Hpq). lia.
  - specialize (IH Hin Hp Hq). destruct (q a) eqn:Q; [rewrite (Hpq a Q); cbn [length]; lia|].
    destruct (p a); cbn [length]; lia.
Qed.
Lemma filter_nil_forall {A} (p : A -> bool) l x : filter p l = [] -> In x l -> p x = false.
Proof.
  induction l as [|a l IH]; intros H Hin; [destruct Hin|]. cbn [filter] in H.
  destruct (p a) eqn:P; [discriminate|]. destruct Hin as [<-|Hin]; [exact P | apply IH; assumption].
Qed.
Lemma lookup_fixed_In f i q : lookup_fixed f i = Some q -> In (i, q) f.
Proof.
  unfold lookup_fixed. destruct (last_opt _) as [[j q']|] eqn:E; [|discriminate]. intros H. injection H as <-.
  apply last_opt_In, filter_In in E. destruct E as [E1 E2]. apply Nat.eqb_eq in E2. cbn in E2. subst. exact E1.
Qed.

Section LoopProofs.
  Variable solve : list nat -> option (list Q).
  Variable qlim2 : bool.
  Variable gens : list gen.

  (* rows the loop can still limit; every violating pass takes at least one away, which bounds the number of passes *)
  Definition eligible (lim : list nat) (i : nat) : bool :=
    match nthg gens i with Some g => g_on g && negb (g_ref g) | None => false end && negb (memn i lim).
  Definition free (lim : list nat) : list nat := filter (eligible lim) (idxs gens).

  Lemma memn_app x a b : memn x (a ++ b) = memn x a || memn x b.
  Proof. unfold memn. apply existsb_app. Qed.

  (* viol_max and viol_min are this filter, with c = "QG above QMAX" and "QG below QMIN" *)
  Lemma viol_spec (c : gen -> nat -> bool) lim i :
    In i (filter (fun i => match nthg gens i with
                           | Some g => g_on g && negb (memn i lim) && negb (g_ref g) && c g i
                           | None => false end) (idxs gens)) <->
    In i (idxs gens) /\ eligible lim i = true /\ exists g, nthg gens i = Some g /\ c g i = true.
  Proof.
    unfold eligible. rewrite filter_In. destruct (nthg gens i) as [g|].
    - rewrite !andb_true_iff. split.
      + intros (Hi & ((Ho & Hl) & Hr) & Hc). repeat split; try assumption. exists g. split; [reflexivity | exact Hc].
      + intros (Hi & ((Ho & Hr) & Hl) & g' & E & Hc). injection E as <-. repeat split; assumption.
    - split; [intros [_ H]; discriminate H | intros (_ & H & _); discriminate H].
  Qed.
  Lemma viol_max_spec lim qg i : In i (viol_max gens lim qg) <->
    In i (idxs gens) /\ eligible lim i = true /\ exists g, nthg gens i = Some g /\ qltb (g_qmax g) (nthq qg i) = true.
  Proof. exact (viol_spec (fun g i => qltb (g_qmax g) (nthq qg i)) lim i). Qed.
  Lemma viol_min_spec lim qg i : In i (viol_min gens lim qg) <->
    In i (idxs gens) /\ eligible lim i = true /\ exists g, nthg gens i = Some g /\ qltb (nthq qg i) (g_qmin g) = true.
  Proof. exact (viol_spec (fun g i => qltb (nthq qg i) (g_qmin g)) lim i). Qed.
  Lemma viol_eligible lim qg i : In i (viol_max gens lim qg ++ viol_min gens lim qg) ->
    In i (idxs gens) /\ eligible lim i = true.
  Proof. intros H. apply in_app_or in H. destruct H as [H|H]; [apply viol_max_spec in H | apply viol_min_spec in H]; split; apply H. Qed.

  Lemma eligible_row lim i : eligible lim i = true -> exists g, nthg gens i = Some g /\ g_on g = true /\ g_ref g = false.
  Proof.
    unfold eligible. destruct (nthg gens i) as [g|]; [|discriminate]. intros H.
    apply andb_true_iff in H. destruct H as [H _]. apply andb_true_iff in H. destruct H as [H1 H2].
    apply negb_true_iff in H2. exists g. auto.
  Qed.

  Lemma free_shrinks lim new i : In i new -> In i (idxs gens) -> eligible lim i = true ->
    (length (free (lim ++ new)) < length (free lim))%nat.
  Proof.
    intros Hn Hi He. unfold free. apply (filter_strict _ _ _ i); [|exact Hi|exact He|].
    - intros y. unfold eligible. rewrite memn_app, negb_orb. intros H.
      apply andb_true_iff in H. destruct H as [H1 H2]. apply andb_true_iff in H2. destruct H2 as [H2 _].
      rewrite H1, H2. reflexivity.
    - unfold eligible. rewrite memn_app. assert (memn i new = true) by (apply memn_In; exact Hn).
      rewrite H, orb_true_r. cbn [negb]. apply andb_false_r.
  Qed.
  Lemma free_le lim : (length (free lim) <= length gens)%nat.
  Proof. unfold free. etransitivity; [apply filter_length_bound|]. unfold idxs. rewrite seq_length. apply Nat.le_refl. Qed.

  (* invariant of the state: limited rows are in-service non-reference rows and carry one of their own limits *)
  Definition Inv (st : qstate) : Prop :=
    (forall i, In i (limited st) -> exists q, In (i, q) (fixedq st)) /\
    (forall i q, In (i, q) (fixedq st) -> q = qmax_of gens i \/ q = qmin_of gens i) /\
    (forall i, In i (limited st) -> exists g, nthg gens i = Some g /\ g_on g = true /\ g_ref g = false).

  Lemma inv_step st qg mx' mn' :
    Inv st -> incl mx' (viol_max gens (limited st) qg) -> incl mn' (viol_min gens (limited st) qg) ->
    Inv (mkS (limited st ++ mx' ++ mn')
             (fixedq st ++ map (fun i => (i, qmax_of gens i)) mx' ++ map (fun i => (i, qmin_of gens i)) mn')).
  Proof.
    intros (I1 & I2 & I3) Hx Hn. unfold Inv. cbn [limited fixedq]. repeat split.
    - intros i Hi. apply in_app_or in Hi. destruct Hi as [Hi|Hi].
      + destruct (I1 i Hi) as [q Hq]. exists q. apply in_or_app. left. exact Hq.
      + apply in_app_or in Hi. destruct Hi as [Hi|Hi].
        * exists (qmax_of gens i). apply in_or_app. right. apply in_or_app. left. apply in_map_iff. exists i. tauto.
        * exists (qmin_of gens i). apply in_or_app. right. apply in_or_app. right. apply in_map_iff. exists i. tauto.
    - intros i q Hi. apply in_app_or in Hi. destruct Hi as [Hi|Hi]; [apply I2; exact Hi|].
      apply in_app_or in Hi. destruct Hi as [Hi|Hi]; apply in_map_iff in Hi; destruct Hi as (j & E & _); injection E as <- <-; tauto.
    - intros i Hi. apply in_app_or in Hi. destruct Hi as [Hi|Hi]; [apply I3; exact Hi|].
      apply (incl_app_app Hx Hn), viol_eligible in Hi. eapply eligible_row. apply Hi.
  Qed.
  Lemma inv0 : Inv (mkS [] []).
  Proof. unfold Inv. cbn. repeat split; intros; contradiction. Qed.

  (* what the loop returns from an Inv state when the fuel exceeds the number of free rows: either the oracle failed, or the
     loop left by `break` (no in-service non-reference unlimited row violates a limit) in an Inv state.  In particular it
     neither runs out of fuel (QErr 3) nor raises the IndexError of the selection (QErr 1). *)
  Definition loop_post (r : qres) : Prop :=
    match r with
    | QErr e => e = 2%nat
    | QDone st qg _ => Inv st /\ solve (limited st) = Some qg /\
                       viol_max gens (limited st) qg = [] /\ viol_min gens (limited st) qg = []
    end.
  Lemma qloop_post fuel : forall st calls, Inv st -> (length (free (limited st)) < fuel)%nat ->
    loop_post (qloop solve qlim2 gens fuel st calls).
  Proof.
    induction fuel as [|fuel IH]; intros st calls HI Hf; [lia|].
    cbn [qloop]. destruct (solve (limited st)) as [qg|] eqn:Es; [|reflexivity].
    remember (viol_max gens (limited st) qg) as mx eqn:Emx. remember (viol_min gens (limited st) qg) as mn eqn:Emn.
    (* a violating pass: the selection succeeds, the new state is Inv and has fewer free rows *)
    assert (Hpass : mx <> [] \/ mn <> [] ->
      loop_post match select qlim2 gens qg mx mn with
                | SelErr => QErr 1
                | SelOk mx' mn' =>
                    qloop solve qlim2 gens fuel
                      (mkS (limited st ++ mx' ++ mn')
                           (fixedq st ++ map (fun i => (i, qmax_of gens i)) mx' ++ map (fun i => (i, qmin_of gens i)) mn'))
                      (S calls)
                end).
    { intros Hne. destruct (select qlim2 gens qg mx mn) as [|mx' mn'] eqn:Esel; [destruct (select_total _ _ _ _ _ Hne Esel)|].
      destruct (select_sub _ _ _ _ _ _ _ Esel) as (I1 & I2 & Hne'). rewrite Emx in I1. rewrite Emn in I2.
      apply IH; [apply (inv_step st qg); assumption|]. cbn [limited].
      destruct (mx' ++ mn') as [|i t] eqn:En; [destruct (Hne' Hne eq_refl)|].
      assert (Hi : In i (mx' ++ mn')) by (rewrite En; left; reflexivity).
      apply (incl_app_app I1 I2), viol_eligible in Hi. destruct Hi as [H1 H2].
      pose proof (free_shrinks (limited st) (i :: t) i (or_introl eq_refl) H1 H2). lia. }
    destruct mx as [|a mx], mn as [|b mn]; [|apply Hpass; right; discriminate | apply Hpass; left; discriminate..].
    cbn [loop_post]. auto.
  Qed.
  Lemma qrun_post : loop_post (qrun solve qlim2 gens).
  Proof. apply qloop_post; [exact inv0 | cbn [limited]; pose proof (free_le []); lia]. Qed.
End LoopProofs.

(* witnesses of the rules before the repairs *)
(* `if k > len(mx)`: a single lower-limit violation made the selection fail *)
Definition g2 : list gen := [mkGen 0 0 0 0 0 1 true true; mkGen 1 1 1 (-1) 1 0 true false].
(* two reference buses (ext_grid, slack gen) and a plain gen next to the slack gen: its Q is not limited *)
Definition byp_srcs : list vsrc := [mkV KEg 0 1 0; mkV KSlackGen 1 1 0; mkV KGen 1 1 0].
Definition byp_gens : list gen := [mkGen 0 0 0 0 0 0 true true; mkGen 1 1 0 (-1) 1 0 true true; mkGen 1 1 1 (-1) 1 0 true false].
(* the old PYPOWER proxy: a gen with max_q_mvar = 0 was exempt although it violates its limit *)
Definition gz : list gen := [mkGen 0 0 0 0 0 1 true true; mkGen 1 1 (1#2) (-13#8) 0 0 true false].
(* old pfsoln rule: with a limited (switched-off) gen in row 1 the slack gen of bus 2 (row 2) was addressed as row 1 *)
Definition grow : list gen := [mkGen 0 0 0 0 0 0 true true; mkGen 1 1 (3#16) (-1) 1 0 false false; mkGen 2 2 1 (-1) 1 0 true true].
(* when every row is on (the Newton-Raphson path) positions and rows coincide *)
Lemma positions_are_rows_when_all_on : gens_at_bus_old (map (fun g => mkGen (g_pbus g) (g_bus g) (g_pg g) (g_qmin g) (g_qmax g) (g_w g) true (g_ref g)) grow) 2
                                      = gens_at_bus_rows (map (fun g => mkGen (g_pbus g) (g_bus g) (g_pg g) (g_qmin g) (g_qmax g) (g_w g) true (g_ref g)) grow) 2.
Proof. vm_compute. reflexivity. Qed.

Lemma load_off_zero n l v : l_on l = false -> res_load_p n l v == 0 /\ res_load_q n l v == 0.
Proof. intros O. unfold res_load_p, res_load_q. rewrite O. cbn [b2q]. destruct (vdl n); qstrip; split; ring. Qed.
